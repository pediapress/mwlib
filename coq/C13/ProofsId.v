(* C13 — wfb is sound; to_json factors through nf; the collection-id pre-image. *)
From Coq Require Import List NArith ZArith Bool.
From MW Require Import Common.Str C13.Val C13.Gen_classes C13.Model C13.Wf C13.Proofs C13.ProofsRT.
Import ListNotations.

Lemma class_okb_spec c : class_okb c = true -> class_ok c.
Proof.
  unfold class_okb, class_ok. rewrite existsb_exists. intros ([low [n defs]] & Hin & E).
  cbn in E. apply str_eqb_spec in E. subst n. eauto.
Qed.

Lemma wfb_fields (l : list (str * val)) :
  Forall (fun kv => wfb (snd kv) = true -> wf (snd kv)) l ->
  (fix all (l : list (str * val)) : bool := match l with [] => true | (_, x) :: r => wfb x && all r end) l = true ->
  Forall (fun kv => wf (snd kv)) l.
Proof.
  induction 1 as [|[k x] r Hx _ IH]; intros H; constructor; apply andb_true_iff in H as [H1 H2]; auto.
Qed.

Lemma wfb_spec v : wfb v = true -> wf v.
Proof.
  induction v as [| b | z | s | l IH | kvs IH | c f IH | ] using val_ind'; cbn [wfb]; intros H;
    try discriminate; try (constructor; fail).
  - constructor. rewrite forallb_forall in H. rewrite Forall_forall in *. intros x Hx. apply IH; auto.
  - apply andb_true_iff in H as [Ht Ha]. constructor; [apply negb_true_iff, Ht|exact (wfb_fields kvs IH Ha)].
  - rewrite !andb_true_iff in H. destruct H as [[[[Hc Ht] Hs] Hd] Ha].
    constructor; [apply class_okb_spec, Hc|apply negb_true_iff, Ht|apply negb_true_iff, Hs|exact Hd|exact (wfb_fields f IH Ha)].
Qed.

(* nf keeps nullness, and to_json only looks at the normal form *)
Lemma nf_null v : is_null (nf v) = is_null v.
Proof. destruct v; reflexivity. Qed.

Lemma to_json_nf v : to_json (nf v) = to_json v.
Proof.
  induction v as [| b | z | s | l IH | kvs IH | c f IH | ] using val_ind'; try reflexivity.
  - rewrite nf_list, !to_json_list, map_map. f_equal. apply map_ext_in. intros x Hx. rewrite Forall_forall in IH. auto.
  - rewrite nf_dict, !to_json_dict, map_vals_comp. f_equal. apply map_vals_ext. exact IH.
  - rewrite nf_obj, !to_json_obj. do 2 f_equal. rewrite kept_kept.
    + apply kept_map_ext. exact IH.
    + apply Forall_forall. intros kv _. apply nf_null.
Qed.

Corollary nf_to_json v1 v2 : nf v1 = nf v2 -> to_json v1 = to_json v2.
Proof. intros E. rewrite <- (to_json_nf v1), <- (to_json_nf v2), E. reflexivity. Qed.

Section Id.
  Variable dumps : val -> str.
  Variable hexH : str -> str.
  Variable repr : option str -> str.
  Variable version : str.
  (* repr of None / of a str is self-delimiting *)
  Hypothesis repr_pf : forall a b x y, repr a ++ x = repr b ++ y -> a = b.
  (* a hex digest is never empty (it has 64 characters) *)
  Hypothesis hexH_nonempty : forall s, hexH s <> [].

  Definition pre := id_preimage dumps hexH repr version.

  (* the request's metabook text parses to j = to_json m: the checksum is taken of the re-serialisation *)
  Lemma pre_dumped b e l m :
    wf m -> pre b e l (Some (to_json m)) = Some (version ++ repr b ++ repr e ++ repr l ++ hexH (dumps (to_json m))).
  Proof.
    intros W. unfold pre, id_preimage. rewrite (loads_dumped m W), (fixed_point m W).
    rewrite <- !app_assoc. reflexivity.
  Qed.

  Lemma pre_invariant b e l m :
    wf m -> pre b e l (Some (to_json (of_json (to_json m)))) = pre b e l (Some (to_json m)).
  Proof. intros W. rewrite (fixed_point m W). reflexivity. Qed.

  Lemma pre_same_metabook b e l m1 m2 :
    wf m1 -> wf m2 -> nf m1 = nf m2 -> pre b e l (Some (to_json m1)) = pre b e l (Some (to_json m2)).
  Proof. intros W1 W2 E. rewrite (nf_to_json m1 m2 E). reflexivity. Qed.

  Lemma heads_eq b1 e1 l1 t1 b2 e2 l2 t2 :
    version ++ repr b1 ++ repr e1 ++ repr l1 ++ t1 = version ++ repr b2 ++ repr e2 ++ repr l2 ++ t2 ->
    b1 = b2 /\ e1 = e2 /\ l1 = l2 /\ t1 = t2.
  Proof.
    intros H. apply app_inv_head in H.
    pose proof (repr_pf _ _ _ _ H) as ->. apply app_inv_head in H.
    pose proof (repr_pf _ _ _ _ H) as ->. apply app_inv_head in H.
    pose proof (repr_pf _ _ _ _ H) as ->. apply app_inv_head in H. auto.
  Qed.

  Lemma pre_separates b1 e1 l1 m1 b2 e2 l2 m2 :
    wf m1 -> wf m2 ->
    pre b1 e1 l1 (Some (to_json m1)) = pre b2 e2 l2 (Some (to_json m2)) ->
    (* sha256 does not collide on the two dumps *)
    (hexH (dumps (to_json m1)) = hexH (dumps (to_json m2)) -> dumps (to_json m1) = dumps (to_json m2)) ->
    (* the JSON printer does not print the two values alike *)
    (dumps (to_json m1) = dumps (to_json m2) -> to_json m1 = to_json m2) ->
    b1 = b2 /\ e1 = e2 /\ l1 = l2 /\ nf m1 = nf m2.
  Proof.
    intros W1 W2 H HH HD. rewrite (pre_dumped _ _ _ m1 W1), (pre_dumped _ _ _ m2 W2) in H.
    injection H as H. destruct (heads_eq _ _ _ _ _ _ _ _ H) as (-> & -> & -> & T).
    repeat split. apply to_json_inj; auto.
  Qed.

  (* a request without metabook text: nothing follows the three parameters *)
  Lemma pre_absent b e l : pre b e l None = Some (version ++ repr b ++ repr e ++ repr l ++ []).
  Proof. unfold pre, id_preimage. rewrite app_nil_r. reflexivity. Qed.

  Lemma pre_separates_absent b1 e1 l1 b2 e2 l2 m :
    wf m -> pre b1 e1 l1 None <> pre b2 e2 l2 (Some (to_json m)).
  Proof.
    intros W H. rewrite pre_absent, (pre_dumped _ _ _ m W) in H. injection H as H.
    destruct (heads_eq _ _ _ _ _ _ _ _ H) as (_ & _ & _ & T). symmetry in T. exact (hexH_nonempty _ T).
  Qed.

  Lemma pre_separates_params b1 e1 l1 b2 e2 l2 :
    pre b1 e1 l1 None = pre b2 e2 l2 None -> b1 = b2 /\ e1 = e2 /\ l1 = l2.
  Proof.
    intros H. rewrite !pre_absent in H. injection H as H.
    destruct (heads_eq _ _ _ _ _ _ _ _ H) as (-> & -> & -> & _). auto.
  Qed.
End Id.

Lemma to_json_faithful m1 m2 : wf m1 -> wf m2 -> (to_json m1 = to_json m2 <-> nf m1 = nf m2).
Proof. intros W1 W2. split; [exact (to_json_inj m1 m2 W1 W2)|exact (nf_to_json m1 m2)]. Qed.

(* an instance of the repr hypothesis (non-vacuity): tag + self-delimiting body *)
Definition enc_ex (s : str) : str := flat_map (fun c => [2%N; c]) s ++ [3%N].
Definition repr_ex (o : option str) : str := match o with None => [0%N] | Some s => 1%N :: enc_ex s end.

Lemma enc_ex_pf a : forall b x y, enc_ex a ++ x = enc_ex b ++ y -> a = b.
Proof.
  unfold enc_ex. induction a as [|c a IH]; intros [|d b] x y H; cbn in H.
  - reflexivity.
  - inversion H.
  - inversion H.
  - injection H as H1 H2. subst d. f_equal. eapply IH. exact H2.
Qed.

Lemma repr_ex_pf a b x y : repr_ex a ++ x = repr_ex b ++ y -> a = b.
Proof.
  destruct a as [a|], b as [b|]; cbn; intros H; inversion H; [|reflexivity].
  f_equal. eapply enc_ex_pf. eassumption.
Qed.
