(* C13 — round trip and fixed point of to_json / of_json on well-formed metabooks. *)
From Coq Require Import List NArith ZArith Bool.
From MW Require Import Common.Str C13.Val C13.Gen_classes C13.Model C13.Proofs.
Import ListNotations.

(* Well-formed metabook values: what the constructors of metabook.py build.
   - an object belongs to a class object_hook knows, has no attribute called `type` (kept outside the
     field map) or `self`, and still has an entry for every class-level default (they are set by __init__
     and never deleted);
   - a plain dict has no `type` key (so object_hook leaves it alone). *)
Inductive wf : val -> Prop :=
| wf_null : wf VNull
| wf_bool b : wf (VBool b)
| wf_int z : wf (VInt z)
| wf_str s : wf (VStr s)
| wf_list l : Forall wf l -> wf (VList l)
| wf_dict kvs : has_key k_type kvs = false -> Forall (fun kv => wf (snd kv)) kvs -> wf (VDict kvs)
| wf_obj c f :
    class_ok c -> has_key k_type f = false -> has_key k_self f = false ->
    forallb (fun kd => has_key (fst kd) f) (defaults_of c) = true ->
    Forall (fun kv => wf (snd kv)) f -> wf (VObj c f).

Definition vals_wf (l : list (str * val)) : Prop := Forall (fun kv => wf (snd kv)) l.

Lemma wf_list_iff l : wf (VList l) <-> Forall wf l.
Proof. split; [intros H; inversion H; subst; assumption|apply wf_list]. Qed.

Lemma wf_dict_inv kvs : wf (VDict kvs) -> has_key k_type kvs = false /\ vals_wf kvs.
Proof. intros H. inversion H; subst. auto. Qed.

Lemma wf_obj_inv c f : wf (VObj c f) ->
  class_ok c /\ has_key k_type f = false /\ has_key k_self f = false /\
  forallb (fun kd => has_key (fst kd) f) (defaults_of c) = true /\ vals_wf f.
Proof. intros H. inversion H; subst. auto. Qed.

(* Normal form = "the same metabook": the class, every attribute that is not private ("_" prefix) and not
   an absent-equivalent None, recursively, list order kept. *)
Fixpoint nf (v : val) : val :=
  match v with
  | VObj c f =>
      VObj c ((fix go (l : list (str * val)) : list (str * val) :=
                 match l with
                 | [] => []
                 | (k, x) :: r => if keep c k x then (k, nf x) :: go r else go r
                 end) f)
  | VDict kvs =>
      VDict ((fix go (l : list (str * val)) : list (str * val) :=
                match l with [] => [] | (k, x) :: r => (k, nf x) :: go r end) kvs)
  | VList l => VList (map nf l)
  | _ => v
  end.

Lemma nf_obj c f : nf (VObj c f) = VObj c (kept_map c nf f).
Proof. cbn [nf]. f_equal. induction f as [|[k x] f IH]; [reflexivity|]. cbn [kept_map]. rewrite IH. reflexivity. Qed.

Lemma nf_dict kvs : nf (VDict kvs) = VDict (map_vals nf kvs).
Proof. cbn [nf]. f_equal. induction kvs as [|[k x] r IH]; [reflexivity|]. cbn. rewrite IH. reflexivity. Qed.

Definition any_err (l : list (str * val)) : bool := existsb (fun kv => has_err (snd kv)) l.

Lemma has_err_obj c f : has_err (VObj c f) = any_err f.
Proof. cbn [has_err]. unfold any_err. induction f as [|[k x] f IH]; [reflexivity|]. cbn. rewrite IH. reflexivity. Qed.

Lemma has_err_dict kvs : has_err (VDict kvs) = any_err kvs.
Proof. cbn [has_err]. unfold any_err. induction kvs as [|[k x] f IH]; [reflexivity|]. cbn. rewrite IH. reflexivity. Qed.

Lemma any_err_false l : Forall (fun kv => has_err (snd kv) = false) l -> any_err l = false.
Proof. unfold any_err. induction 1 as [|kv l Hx _ IH]; [reflexivity|]. cbn [existsb]. rewrite Hx. exact IH. Qed.

Lemma any_err_ins k v l : has_err v = false -> any_err l = false -> any_err (ins k v l) = false.
Proof.
  unfold any_err. intros Hv. induction l as [|[k0 v0] l IH]; cbn; intros H.
  - rewrite Hv. reflexivity.
  - apply orb_false_iff in H as [H0 H1].
    destruct (scmp k k0); cbn; rewrite ?Hv, ?H0, ?H1; cbn; auto.
Qed.

Lemma any_err_kept c h l :
  Forall (fun kv => has_err (h (snd kv)) = false) l -> any_err (kept_map c h l) = false.
Proof.
  unfold any_err. induction 1 as [|[k x] l Hx _ IH]; cbn; [reflexivity|].
  destruct (keep c k x); cbn; [cbn in Hx; rewrite Hx|]; exact IH.
Qed.

Lemma any_err_map_vals h l :
  Forall (fun kv => has_err (h (snd kv)) = false) l -> any_err (map_vals h l) = false.
Proof.
  unfold any_err, map_vals. induction 1 as [|[k x] l Hx _ IH]; cbn; [reflexivity|]. cbn in Hx. rewrite Hx. exact IH.
Qed.

Lemma init_fold_all_present (defs acc : list (str * val)) :
  forallb (fun kd => has_key (fst kd) acc) defs = true ->
  fold_left (fun acc kd => if has_key (fst kd) acc then acc else ins (fst kd) (snd kd) acc) defs acc = acc.
Proof.
  induction defs as [|[k d] defs IH]; cbn; [reflexivity|]. intros H. apply andb_true_iff in H as [H0 H1].
  rewrite H0. apply IH. exact H1.
Qed.

Definition rt (v : val) : val := of_json (to_json v).

Lemma to_json_list l : to_json (VList l) = VList (map to_json l).
Proof. reflexivity. Qed.
Lemma of_json_list l : of_json (VList l) = VList (map of_json l).
Proof. reflexivity. Qed.
Lemma nf_list l : nf (VList l) = VList (map nf l).
Proof. reflexivity. Qed.
Lemma has_err_list l : has_err (VList l) = existsb has_err l.
Proof. reflexivity. Qed.
Lemma rt_list l : rt (VList l) = VList (map rt l).
Proof. unfold rt. rewrite to_json_list, of_json_list, map_map. reflexivity. Qed.

(* what loading a dumped object yields *)
Lemma rt_obj c f :
  class_ok c -> has_key k_type f = false -> has_key k_self f = false ->
  forallb (fun kd => has_key (fst kd) f) (defaults_of c) = true ->
  let kw := kept_map c rt f in
  rt (VObj c f) = VObj c (if has_key k_image kw then kw else ins k_image VNull kw).
Proof.
  intros Hc Ht Hs Hd kw. unfold rt at 1. rewrite to_json_obj, of_json_dict, map_vals_ins, map_vals_kept.
  change (of_json (VStr c)) with (VStr c). fold rt. fold kw.
  destruct (class_ok_facts c Hc) as (F1 & _ & _ & F4 & _).
  unfold object_hook. rewrite assoc_ins, str_eqb_refl, F1.
  assert (Hs' : has_key k_self (ins k_type (VStr c) kw) = false).
  { rewrite has_key_ins. unfold kw. rewrite has_key_kept_false by exact Hs. reflexivity. }
  rewrite Hs'. f_equal.
  rewrite remove_ins by (unfold kw; apply has_key_kept_false; exact Ht).
  unfold init_fields. cbn [fold_left fst snd].
  apply init_fold_all_present.
  (* every default key is still there *)
  rewrite forallb_forall in *. intros [k d] Hin. cbn [fst].
  assert (Hk : has_key k kw = true).
  { unfold kw. rewrite has_key_kept_all.
    - exact (Hd (k, d) Hin).
    - intros x. unfold keep. specialize (F4 (k, d) Hin). unfold default_ok in F4. cbn [fst snd] in F4.
      rewrite !andb_true_iff in F4. destruct F4 as [[Fu _] _]. rewrite Fu. cbn [andb].
      rewrite (In_has_key k d _ Hin). apply orb_true_r. }
  destruct (has_key k_image kw); [exact Hk|]. rewrite has_key_ins, Hk. apply orb_true_r.
Qed.

Lemma keep_image_null c : class_ok c -> keep c k_image VNull = false.
Proof.
  intros Hc. destruct (class_ok_facts c Hc) as (_ & _ & F2 & _). unfold keep. rewrite F2. reflexivity.
Qed.

(* what one induction over the value proves about loading its dump *)
Definition rt_ok (v : val) : Prop :=
  to_json (rt v) = to_json v /\ nf (rt v) = nf v /\ has_err (rt v) = false /\ is_null (rt v) = is_null v.

Lemma rt_ok_fields (l : list (str * val)) : Forall (fun kv => rt_ok (snd kv)) l ->
  Forall (fun kv => to_json (rt (snd kv)) = to_json (snd kv)) l /\ Forall (fun kv => nf (rt (snd kv)) = nf (snd kv)) l /\
  Forall (fun kv => has_err (rt (snd kv)) = false) l /\ Forall (fun kv => is_null (rt (snd kv)) = is_null (snd kv)) l.
Proof. intros A. repeat split; (eapply Forall_impl; [|exact A]); intros kv H; apply H. Qed.

Theorem roundtrip_all v : wf v -> rt_ok v.
Proof.
  induction v as [| b | z | s | l IH | kvs IH | c f IH | ] using val_ind'; intros W.
  - repeat split; reflexivity.
  - repeat split; reflexivity.
  - repeat split; reflexivity.
  - repeat split; reflexivity.
  - (* list *)
    apply wf_list_iff in W.
    assert (A : Forall rt_ok l) by (exact (Forall_mp _ _ _ IH W)).
    clear IH W. unfold rt_ok. rewrite rt_list.
    repeat split.
    + rewrite !to_json_list, map_map. f_equal. apply map_ext_in. intros x Hx. rewrite Forall_forall in A. apply (A x Hx).
    + rewrite !nf_list, map_map. f_equal. apply map_ext_in. intros x Hx. rewrite Forall_forall in A. apply (A x Hx).
    + rewrite has_err_list. induction A as [|x l (_ & _ & Hx & _) _ IHl]; cbn [map existsb]; [reflexivity|]. rewrite Hx. exact IHl.
  - (* plain dict *)
    destruct (wf_dict_inv _ W) as [Ht Hl].
    assert (A : Forall (fun kv => rt_ok (snd kv)) kvs) by (exact (Forall_mp (fun kv => wf (snd kv)) _ _ IH Hl)).
    apply rt_ok_fields in A as (Aj & An & Ae & _). clear IH W Hl. unfold rt_ok.
    assert (R : rt (VDict kvs) = VDict (map_vals rt kvs)).
    { unfold rt at 1. rewrite to_json_dict, of_json_dict, map_vals_comp. fold rt.
      unfold object_hook. rewrite assoc_map_vals.
      unfold has_key in Ht. destruct (assoc k_type kvs); [discriminate|]. reflexivity. }
    rewrite R. repeat split.
    + rewrite !to_json_dict, map_vals_comp. f_equal. apply map_vals_ext, Aj.
    + rewrite !nf_dict, map_vals_comp. f_equal. apply map_vals_ext, An.
    + rewrite has_err_dict. apply any_err_map_vals, Ae.
  - (* object *)
    destruct (wf_obj_inv _ _ W) as (Hc & Ht & Hs & Hd & Hl).
    assert (A : Forall (fun kv => rt_ok (snd kv)) f) by (exact (Forall_mp (fun kv => wf (snd kv)) _ _ IH Hl)).
    apply rt_ok_fields in A as (Aj & An & Ae & Hnull). clear IH W Hl. unfold rt_ok.
    rewrite (rt_obj c f Hc Ht Hs Hd). cbv zeta.
    set (kw := kept_map c rt f).
    assert (K : forall h, kept_map c h (if has_key k_image kw then kw else ins k_image VNull kw) = kept_map c h kw).
    { intros h. destruct (has_key k_image kw) eqn:E; [reflexivity|].
      apply kept_map_ins_dropped; [exact E|apply keep_image_null; exact Hc]. }
    repeat split.
    + rewrite !to_json_obj, K. unfold kw. rewrite kept_kept by exact Hnull. do 2 f_equal.
      apply kept_map_ext, Aj.
    + rewrite !nf_obj, K. unfold kw. rewrite kept_kept by exact Hnull. f_equal.
      apply kept_map_ext, An.
    + rewrite has_err_obj.
      assert (E : any_err kw = false).
      { unfold kw. apply any_err_kept, Ae. }
      destruct (has_key k_image kw); [exact E|]. apply any_err_ins; [reflexivity|exact E].
  - inversion W.
Qed.

Corollary fixed_point v : wf v -> to_json (of_json (to_json v)) = to_json v.
Proof. intros W. apply (roundtrip_all v W). Qed.

Corollary roundtrip v : wf v -> nf (of_json (to_json v)) = nf v.
Proof. intros W. apply (roundtrip_all v W). Qed.

Corollary loads_dumped v : wf v -> loads (to_json v) = Some (of_json (to_json v)).
Proof. intros W. unfold loads. destruct (roundtrip_all v W) as (_ & _ & E & _). unfold rt in E. rewrite E. reflexivity. Qed.

(* to_json determines the metabook up to nf *)
Corollary to_json_inj v1 v2 : wf v1 -> wf v2 -> to_json v1 = to_json v2 -> nf v1 = nf v2.
Proof.
  intros W1 W2 E. rewrite <- (roundtrip v1 W1), <- (roundtrip v2 W2), E. reflexivity.
Qed.
