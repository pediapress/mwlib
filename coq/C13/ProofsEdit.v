(* C13 — the API calls and the in-place edits of a live metabook (ModelEdit.v), at any depth, keep it inside the
   theorems' domain; hence the round trip / fixed point hold at every moment of an object's life, and its checksum -- a
   function of to_json alone -- changes between two moments exactly when the dumped JSON value (equivalently: the normal
   form) changes.  The preservation argument is written once, for any property of values that writes respect
   (write_closed), and used for wf here and for key-sortedness in ProofsSorted.v. *)
From Coq Require Import List NArith ZArith Bool Arith Lia.
From MW Require Import Common.Str C13.Val C13.Gen_classes C13.Model C13.ModelEdit C13.Proofs C13.ProofsRT C13.ProofsId C13.ProofsApi.
Import ListNotations.

Definition key_ok (k : str) : Prop := str_eqb k_type k = false /\ str_eqb k_self k = false.

(* the values put into the metabook are wf, no attribute / dict key called `type` or `self` is written *)
Definition edit_ok (e : edit) : Prop :=
  match e with
  | ESet k x => wf x /\ key_ok k
  | EAppend x => wf x
  | EInsert _ x => wf x
  | EPop _ => True
  | EReverse => True
  | EListAppend k x => wf x /\ key_ok k
  | EInner k _ k2 x => wf x /\ key_ok k /\ key_ok k2
  end.

Lemma Forall_upd_nth {A} (P : A -> Prop) g : (forall x, P x -> P (g x)) ->
  forall l n, Forall P l -> Forall P (upd_nth n g l).
Proof.
  intros Hg. induction l as [|x l IH]; intros n H; [destruct n; constructor|].
  inversion H; subst. destruct n; cbn [upd_nth]; constructor; auto.
Qed.

Lemma Forall_insert_at {A} (P : A -> Prop) x : P x -> forall n l, Forall P l -> Forall P (insert_at n x l).
Proof.
  intros Hx. induction n as [|n IH]; intros l H; cbn [insert_at].
  - constructor; assumption.
  - destruct l as [|y r]; [constructor; [assumption|constructor]|]. inversion H; subst. constructor; auto.
Qed.

Lemma Forall_remove_nth {A} (P : A -> Prop) : forall l n, Forall P l -> Forall P (remove_nth n l).
Proof.
  induction l as [|x l IH]; intros n H; [destruct n; constructor|].
  inversion H; subst. destruct n; cbn [remove_nth]; [assumption|constructor; auto].
Qed.

Inductive xop :=
| XApi (o : bop)                              (* append_article / items.append(Class(..)) / setattr on the Collection *)
| XEdit (path : list nat) (e : edit).         (* in-place edit of the object reached through items[i % len].. *)

Definition xop_ok (o : xop) : Prop := match o with XApi o => bop_ok o | XEdit _ e => edit_ok e end.

Definition apply_xop (m : val) (o : xop) : val :=
  match o with XApi o => apply_bop m o | XEdit p e => edit_at p e m end.

Fixpoint live_from (m : val) (ops : list xop) : option val :=
  match ops with
  | [] => Some m
  | o :: r => let m' := apply_xop m o in if has_err m' then None else live_from m' r
  end.

(* A property P of values that no API call and no in-place edit can destroy, as long as the values written have it,
   the keys written satisfy K and the keyword arguments satisfy KW: it is a property of the parts (lists, and the
   attributes of an object), and writing one attribute or dict entry keeps it.  Both the domain of the round-trip
   theorems (wf) and key-sortedness (srt, ProofsSorted.v) are of this kind. *)
Record write_closed (P : val -> Prop) (K : str -> Prop) (KW : list (str * val) -> Prop) : Prop := {
  wc_obj_ins : forall c f k x, P (VObj c f) -> P x -> K k -> P (VObj c (ins k x f));
  wc_dict_ins : forall kvs k x, P (VDict kvs) -> P x -> K k -> P (VDict (ins k x kvs));
  wc_field : forall c f k x, P (VObj c f) -> assoc k f = Some x -> P x;
  wc_list : forall l, P (VList l) <-> Forall P l;
  wc_items : K k_items;
  wc_new : forall low kw, KW kw -> new_obj low kw = VErr \/ P (new_obj low kw);
  wc_article : forall title dt kw, KW kw ->
    KW ((k_title, VStr (strip title)) :: (k_displaytitle, match dt with Some d => VStr (strip d) | None => VNull end) :: kw)
}.
Arguments wc_obj_ins {P K KW}.
Arguments wc_dict_ins {P K KW}.
Arguments wc_field {P K KW}.
Arguments wc_list {P K KW}.
Arguments wc_items {P K KW}.
Arguments wc_new {P K KW}.
Arguments wc_article {P K KW}.

Section Writes.
  Context {P : val -> Prop} {K : str -> Prop} {KW : list (str * val) -> Prop}.
  Hypothesis C : write_closed P K KW.

  (* the real call raised (the model value contains VErr), or its result has the property *)
  Definition raised_or (v : val) : Prop := has_err v = true \/ P v.

  Lemma verr_or v : v = VErr \/ P v -> raised_or v.
  Proof. intros [->|H]; [left; reflexivity|right; exact H]. Qed.

  (* replacing the list held by attribute k *)
  Lemma list_attr_P c f k l l' :
    P (VObj c f) -> assoc k f = Some (VList l) -> K k -> (Forall P l -> Forall P l') -> P (VObj c (ins k (VList l') f)).
  Proof.
    intros Hv E Hk Hl. apply (wc_obj_ins C); [exact Hv| |exact Hk].
    apply (wc_list C), Hl, (wc_list C), (wc_field C c f k), E. exact Hv.
  Qed.

  (* setattr(obj, k, x) *)
  Lemma set_field_P k x v : P v -> P x -> K k -> set_field k x v = VErr \/ P (set_field k x v).
  Proof. intros Hv Hx Hk. destruct v; try (left; reflexivity). right. apply (wc_obj_ins C); assumption. Qed.

  (* obj.items.append(x) *)
  Lemma append_item_P x v : P v -> P x -> append_item x v = VErr \/ P (append_item x v).
  Proof.
    intros Hv Hx. unfold append_item. destruct v as [| | | | | |c f|]; try (left; reflexivity).
    destruct (get_items (VObj c f)) as [l|] eqn:E; [|left; reflexivity]. right.
    destruct (get_items_some _ _ E) as (c' & f' & Ev & Ef). inversion Ev; subst c' f'.
    apply (list_attr_P c f k_items l); [exact Hv|exact Ef|apply (wc_items C)|].
    intros Hl. apply Forall_app. split; [exact Hl|constructor; [exact Hx|constructor]].
  Qed.

  Lemma append_item_ok x v : P v -> raised_or x -> raised_or (append_item x v).
  Proof.
    intros Hv [E|Hx]; [left; apply has_err_append_item, E|apply verr_or, append_item_P; assumption].
  Qed.

  (* Collection.append_article *)
  Lemma append_article_ok title dt kw coll : P coll -> KW kw -> raised_or (append_article title dt kw coll).
  Proof.
    intros Hc Hk. unfold append_article. set (art := new_obj (lower k_Article) _).
    assert (Ha : raised_or art) by (apply verr_or, (wc_new C), (wc_article C), Hk).
    destruct (get_items coll) as [l|] eqn:E; [|left; reflexivity].
    destruct (rev l) as [|last before] eqn:R; [apply append_item_ok; assumption|].
    destruct (is_chapter last); [|apply append_item_ok; assumption].
    (* the last item is a chapter: the article goes into it *)
    destruct (get_items_some _ _ E) as (c & f & -> & Ef). cbn [set_field].
    assert (Hl : Forall P (last :: before)).
    { rewrite <- R. apply Forall_rev, (wc_list C), (wc_field C c f k_items), Ef. exact Hc. }
    inversion Hl as [|? ? Hlast Hbefore]; subst.
    destruct (append_item_ok art last Hlast Ha) as [E1|H1].
    - left. apply has_err_obj_ins, has_err_snoc, E1.
    - right. apply (list_attr_P c f k_items l); [exact Hc|exact Ef|apply (wc_items C)|].
      intros _. apply Forall_app. split; [apply Forall_rev, Hbefore|constructor; [exact H1|constructor]].
  Qed.

  Lemma inner_set_P k2 x y : P y -> P x -> K k2 -> P (inner_set k2 x y).
  Proof.
    intros Hy Hx Hk. destruct y; cbn [inner_set]; try exact Hy.
    - apply (wc_dict_ins C); assumption.
    - apply (wc_obj_ins C); assumption.
  Qed.

  Definition edit_okP (e : edit) : Prop :=
    match e with
    | ESet k x => P x /\ K k
    | EAppend x => P x
    | EInsert _ x => P x
    | EPop _ => True
    | EReverse => True
    | EListAppend k x => P x /\ K k
    | EInner k _ k2 x => P x /\ K k /\ K k2
    end.

  Lemma apply_edit_P e v : P v -> edit_okP e -> P (apply_edit e v).
  Proof.
    intros Hv He. destruct v as [| | | | | |c f|]; try exact Hv. cbn [apply_edit].
    pose proof (wc_items C) as Ki.
    destruct e as [k x|x|i x|i| |k x|k i k2 x]; cbn [edit_okP] in He.
    - destruct He as [Hx Hk]. apply (wc_obj_ins C); assumption.
    - destruct (assoc k_items f) as [[| | | |l| | |]|] eqn:E; try exact Hv.
      apply (list_attr_P c f k_items l _ Hv E Ki). intros Hl. apply Forall_app. split; [exact Hl|constructor; [exact He|constructor]].
    - destruct (assoc k_items f) as [[| | | |l| | |]|] eqn:E; try exact Hv.
      apply (list_attr_P c f k_items l _ Hv E Ki). apply Forall_insert_at, He.
    - destruct (assoc k_items f) as [[| | | |[|y r]| | |]|] eqn:E; try exact Hv.
      apply (list_attr_P c f k_items _ _ Hv E Ki). apply Forall_remove_nth.
    - destruct (assoc k_items f) as [[| | | |l| | |]|] eqn:E; try exact Hv.
      apply (list_attr_P c f k_items l _ Hv E Ki). apply Forall_rev.
    - destruct He as [Hx Hk]. destruct (assoc k f) as [[| | | |l| | |]|] eqn:E; try exact Hv.
      apply (list_attr_P c f k l _ Hv E Hk). intros Hl. apply Forall_app. split; [exact Hl|constructor; [exact Hx|constructor]].
    - destruct He as (Hx & Hk & Hk2). destruct (assoc k f) as [[| | | |[|y r]|kvs|c' f'|]|] eqn:E; try exact Hv.
      + apply (list_attr_P c f k _ _ Hv E Hk). apply Forall_upd_nth. intros z Hz. apply inner_set_P; assumption.
      + apply (wc_obj_ins C); [exact Hv| |exact Hk]. apply inner_set_P; [exact (wc_field C c f k _ Hv E)|exact Hx|exact Hk2].
      + apply (wc_obj_ins C); [exact Hv| |exact Hk]. apply inner_set_P; [exact (wc_field C c f k _ Hv E)|exact Hx|exact Hk2].
  Qed.

  (* an in-place edit at ANY depth *)
  Lemma edit_at_P e : edit_okP e -> forall path v, P v -> P (edit_at path e v).
  Proof.
    intros He. induction path as [|i p IH]; intros v Hv; cbn [edit_at].
    - apply apply_edit_P; assumption.
    - destruct v as [| | | | | |c f|]; try exact Hv.
      destruct (assoc k_items f) as [[| | | |[|y r]| | |]|] eqn:E; try exact Hv.
      apply (list_attr_P c f k_items _ _ Hv E (wc_items C)). apply Forall_upd_nth. exact IH.
  Qed.

  Definition bop_okP (o : bop) : Prop :=
    match o with
    | BAppend _ _ kw => KW kw
    | BAddItem _ kw => KW kw
    | BSet k x => P x /\ K k
    end.

  Definition xop_okP (o : xop) : Prop := match o with XApi o => bop_okP o | XEdit _ e => edit_okP e end.

  Lemma apply_xop_ok m o : P m -> xop_okP o -> raised_or (apply_xop m o).
  Proof.
    intros Hm Ho. destruct o as [[t dt kw|low kw|k x]|p e]; cbn [apply_xop apply_bop xop_okP bop_okP] in *.
    - apply append_article_ok; assumption.
    - apply append_item_ok; [exact Hm|apply verr_or, (wc_new C), Ho].
    - destruct Ho as [Hx Hk]. apply verr_or, set_field_P; assumption.
    - right. apply edit_at_P; assumption.
  Qed.

  (* every state of a life whose calls did not raise *)
  Lemma live_from_P ops : forall m m', P m -> Forall xop_okP ops -> live_from m ops = Some m' -> P m'.
  Proof.
    induction ops as [|o ops IH]; intros m m' Hm Ho; cbn [live_from].
    - intros E. inversion E; subst. exact Hm.
    - inversion Ho; subst. destruct (apply_xop_ok m o Hm H1) as [E|Hp]; [rewrite E; discriminate|].
      destruct (has_err (apply_xop m o)); [discriminate|]. apply IH; assumption.
  Qed.
End Writes.

Lemma wf_write_closed : write_closed wf key_ok kw_ok.
Proof.
  constructor.
  - exact obj_ins_wf.
  - intros kvs k x Hv Hx [Ht _]. apply dict_ins_wf; assumption.
  - exact wf_field.
  - exact wf_list_iff.
  - split; reflexivity.
  - exact new_obj_wf.
  - exact article_kw_ok.
Qed.

(* edit_ok, bop_ok and xop_ok are edit_okP, bop_okP and xop_okP at wf, key_ok and kw_ok, written out *)
Lemma edit_ok_okP e : edit_ok e <-> edit_okP (P := wf) (K := key_ok) e.
Proof. destruct e; reflexivity. Qed.

Lemma xop_ok_okP o : xop_ok o <-> xop_okP (P := wf) (K := key_ok) (KW := kw_ok) o.
Proof. destruct o as [[t dt kw|low kw|k x]|p e]; [reflexivity|reflexivity|reflexivity|apply edit_ok_okP]. Qed.

Lemma edit_at_wf e : edit_ok e -> forall path v, wf v -> wf (edit_at path e v).
Proof. intros He. apply (edit_at_P wf_write_closed), edit_ok_okP, He. Qed.

Lemma live_from_wf ops m m' : wf m -> Forall xop_ok ops -> live_from m ops = Some m' -> wf m'.
Proof.
  intros W H. apply (live_from_P wf_write_closed ops m m' W).
  apply (Forall_impl _ (fun o => proj1 (xop_ok_okP o)) H).
Qed.

(* calc_checksum is a function of to_json alone: unless sha256 collides on the two dumps or the JSON printer prints two
   different values alike, two wf metabooks have equal checksums iff their dumped JSON values are equal iff they are the
   same metabook (nf) *)
Lemma checksum_faithful dumps hexH m1 m2 :
  wf m1 -> wf m2 ->
  (hexH (dumps (to_json m1)) = hexH (dumps (to_json m2)) -> dumps (to_json m1) = dumps (to_json m2)) ->
  (dumps (to_json m1) = dumps (to_json m2) -> to_json m1 = to_json m2) ->
  (checksum dumps hexH m1 = checksum dumps hexH m2 <-> to_json m1 = to_json m2) /\
  (checksum dumps hexH m1 = checksum dumps hexH m2 <-> nf m1 = nf m2).
Proof.
  intros W1 W2 Hh Hd.
  assert (A : checksum dumps hexH m1 = checksum dumps hexH m2 <-> to_json m1 = to_json m2).
  { unfold checksum. split; [intros H; apply Hd, Hh, H|intros H; rewrite H; reflexivity]. }
  split; [exact A|]. rewrite A. apply to_json_faithful; assumption.
Qed.

(* a collection built through the API alone is a life without in-place edits *)
Lemma build_from_live ops : forall m, build_from m ops = live_from m (map XApi ops).
Proof. induction ops as [|o ops IH]; intros m; cbn; [reflexivity|]. rewrite IH. reflexivity. Qed.

(* non-vacuity: a book with a chapter of two articles; the revision of the second one is changed in place, the chapter's
   items are reversed, an article is appended to mb.items, an article's title is changed in place: every edit applies and
   every one changes the normal form *)
Definition k_revision : str := [114;101;118;105;115;105;111;110]%N.
Definition ex_ops1 : list xop :=
  [XApi (BAddItem (lower k_Chapter) [(k_title, VStr [67]%N)]); XApi (BAppend [65]%N None [(k_revision, VStr [49]%N)]);
   XApi (BAppend [66]%N None [])].
Definition ex_edits : list xop :=
  [XEdit [0; 3]%nat (ESet k_revision (VStr [50]%N));
   XEdit [0]%nat EReverse;
   XEdit [] (EAppend (new_obj (lower k_Article) [(k_title, VStr [68]%N)]));
   XEdit [2; 0]%nat (ESet k_title (VStr [69]%N))].

(* Telling two concrete values apart by evaluation: any function of values will do, and comparing two flat strings is
   cheap where deciding the equality of two nested values is not. *)
Fixpoint flat (v : val) : str :=
  match v with
  | VNull => [0%N]
  | VBool b => [if b then 1%N else 2%N]
  | VInt z => [3%N; Z.to_N (Z.abs z); Z.to_N (Z.sgn z + 1)]
  | VStr s => 4%N :: s ++ [5%N]
  | VList l => 6%N :: flat_map flat l ++ [7%N]
  | VDict kvs =>
      8%N :: (fix go (l : list (str * val)) : str := match l with [] => [9%N] | (k, x) :: r => k ++ flat x ++ go r end) kvs
  | VObj c f =>
      10%N :: c ++ (fix go (l : list (str * val)) : str := match l with [] => [9%N] | (k, x) :: r => k ++ flat x ++ go r end) f
  | VErr => [11%N]
  end.

Lemma flat_neq a b : str_eqb (flat a) (flat b) = false -> a <> b.
Proof. intros E H. rewrite H, str_eqb_refl in E. discriminate E. Qed.

(* every step of a life succeeds and changes the normal form, as one boolean *)
Fixpoint steps_change (m : val) (ops : list xop) : bool :=
  match ops with
  | [] => true
  | o :: r => let m' := apply_xop m o in
              negb (has_err m') && negb (str_eqb (flat (nf m)) (flat (nf m'))) && steps_change m' r
  end.

Lemma steps_change_spec ops : forall m, steps_change m ops = true -> forall n, (n < length ops)%nat ->
  exists a b, live_from m (firstn n ops) = Some a /\ live_from m (firstn (S n) ops) = Some b /\ nf a <> nf b.
Proof.
  induction ops as [|o r IH]; intros m H n Hn; [inversion Hn|]. cbn [steps_change] in H.
  apply andb_true_iff in H as [H H3]. apply andb_true_iff in H as [H1 H2]. apply negb_true_iff in H1, H2.
  destruct n as [|n].
  - exists m, (apply_xop m o). cbn [firstn live_from]. rewrite H1. repeat split. apply flat_neq, H2.
  - destruct (IH _ H3 n) as (a & b & Ea & Eb & Hne); [cbn [length] in Hn; lia|].
    exists a, b. change (firstn (S (S n)) (o :: r)) with (o :: firstn (S n) r). cbn [firstn live_from]. rewrite H1. auto.
Qed.

Lemma ex_live :
  Forall xop_ok ex_ops1 /\ Forall xop_ok ex_edits /\
  exists m1, live_from (new_obj (lower k_Collection) []) ex_ops1 = Some m1 /\
  forall n, (n < length ex_edits)%nat ->
    exists a b, live_from m1 (firstn n ex_edits) = Some a /\ live_from m1 (firstn (S n) ex_edits) = Some b /\ nf a <> nf b.
Proof.
  assert (Kt : forall k, k = k_title \/ k = k_revision -> key_ok k) by (intros k [->| ->]; split; reflexivity).
  assert (Kw : forall k s, k = k_title \/ k = k_revision -> kw_ok [(k, VStr s)]).
  { intros k s Hk. constructor; [|constructor]. split; [constructor|exact (Kt k Hk)]. }
  split; [|split].
  - unfold ex_ops1. constructor; [|constructor; [|constructor; [|constructor]]]; cbn [xop_ok bop_ok].
    + apply Kw. auto.
    + apply Kw. auto.
    + constructor.
  - unfold ex_edits. constructor; [|constructor; [|constructor; [|constructor; [|constructor]]]]; cbn [xop_ok edit_ok].
    + split; [constructor|apply Kt; auto].
    + exact I.
    + eapply new_obj_of_class; [reflexivity|apply Kw; auto].
    + split; [constructor|apply Kt; auto].
  - assert (B : match live_from (new_obj (lower k_Collection) []) ex_ops1 with
                | Some m1 => steps_change m1 ex_edits
                | None => false
                end = true) by (vm_compute; reflexivity).
    destruct (live_from (new_obj (lower k_Collection) []) ex_ops1) as [m1|]; [|discriminate B].
    exists m1. split; [reflexivity|]. apply steps_change_spec, B.
Qed.
