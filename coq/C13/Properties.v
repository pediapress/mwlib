(* C13 — property theorems only, each a lemma of the Proofs files or a few lines from them, each followed by
   Print Assumptions; the check re-compiles this file on every run. *)
From Coq Require Import List NArith ZArith Bool.
From MW Require Import Common.Str C13.Val C13.Gen_classes C13.Model C13.Wf C13.Proofs C13.ProofsRT C13.ProofsId C13.ProofsCanon C13.ProofsApi C13.ModelEdit C13.ProofsEdit C13.ProofsSorted.
Import ListNotations.

(* Values: VObj c f = instance of metabook class c with attribute map f (the `type` entry is c itself);
   JSON values are vals without VObj; maps are key-sorted association lists, so key order and whitespace
   of a JSON text are quotiented by construction.  to_json = myjson.dumps up to the text codec (MbEncoder +
   _json, metabook.py:61-72), of_json = myjson.loads (object_hook).  wf = what metabook.py's
   constructors build (see ProofsRT.v); nf = the metabook up to private/None-equivalent entries. *)

(* loading what was dumped gives the same metabook: same class, same attributes (after dropping "_"
   entries and absent-equivalent Nones), recursively, same item order *)
Theorem C13_roundtrip : forall m, wf m -> nf (of_json (to_json m)) = nf m.
Proof. exact roundtrip. Qed.
Print Assumptions C13_roundtrip.

(* re-serialising is a fixed point *)
Theorem C13_fixed_point : forall m, wf m -> to_json (of_json (to_json m)) = to_json m.
Proof. exact fixed_point. Qed.
Print Assumptions C13_fixed_point.

(* loading a dumped metabook never raises *)
Theorem C13_loads_succeeds : forall m, wf m -> loads (to_json m) = Some (of_json (to_json m)).
Proof. exact loads_dumped. Qed.
Print Assumptions C13_loads_succeeds.

(* the JSON value determines the metabook, and conversely depends on nothing but its normal form *)
Theorem C13_to_json_faithful : forall m1 m2, wf m1 -> wf m2 -> (to_json m1 = to_json m2 <-> nf m1 = nf m2).
Proof. exact to_json_faithful. Qed.
Print Assumptions C13_to_json_faithful.

(* Collection id.  id_preimage is the string make_collection_id feeds to sha256, as a function of the
   PARSED metabook text (so key order / whitespace cannot matter), parametric in dumps, the hex digest,
   repr and the version string.  For a request carrying the dump of m:
   (1) the pre-image is version ++ repr(base_url) ++ repr(script_extension) ++ repr(login) ++ hexH(dumps(to_json m));
   (2) a request carrying the re-serialisation of that dump has the same pre-image;
   (3) so have requests carrying dumps of equal metabooks. *)
Theorem C13_id_invariant : forall dumps hexH repr version b e l m,
  wf m ->
  id_preimage dumps hexH repr version b e l (Some (to_json m))
    = Some (version ++ repr b ++ repr e ++ repr l ++ hexH (dumps (to_json m))) /\
  id_preimage dumps hexH repr version b e l (Some (to_json (of_json (to_json m))))
    = id_preimage dumps hexH repr version b e l (Some (to_json m)) /\
  (forall m', wf m' -> nf m = nf m' ->
     id_preimage dumps hexH repr version b e l (Some (to_json m')) = id_preimage dumps hexH repr version b e l (Some (to_json m))).
Proof.
  intros dumps hexH repr version b e l m W. split; [exact (pre_dumped dumps hexH repr version b e l m W)|].
  split; [exact (pre_invariant dumps hexH repr version b e l m W)|].
  intros m' W' E. symmetry. exact (pre_same_metabook dumps hexH repr version b e l m m' W W' E).
Qed.
Print Assumptions C13_id_invariant.

(* Separation: if two requests have the same pre-image then, unless sha256 collides on the two dumps or
   the JSON printer prints two different values alike, they agree in base_url, script_extension, login
   credentials and in the metabook (hence: a different article title, revision, item order, chapter
   title or URL gives a different pre-image).  repr is only assumed self-delimiting. *)
Theorem C13_id_separates : forall dumps hexH repr version,
  (forall a b x y, repr a ++ x = repr b ++ y -> a = b) ->
  forall b1 e1 l1 m1 b2 e2 l2 m2,
  wf m1 -> wf m2 ->
  id_preimage dumps hexH repr version b1 e1 l1 (Some (to_json m1))
    = id_preimage dumps hexH repr version b2 e2 l2 (Some (to_json m2)) ->
  (hexH (dumps (to_json m1)) = hexH (dumps (to_json m2)) -> dumps (to_json m1) = dumps (to_json m2)) ->
  (dumps (to_json m1) = dumps (to_json m2) -> to_json m1 = to_json m2) ->
  b1 = b2 /\ e1 = e2 /\ l1 = l2 /\ nf m1 = nf m2.
Proof. intros dumps hexH repr version Hr. exact (pre_separates dumps hexH repr version Hr). Qed.
Print Assumptions C13_id_separates.

Theorem C13_id_separates_absent : forall dumps hexH repr version,
  (forall a b x y, repr a ++ x = repr b ++ y -> a = b) -> (forall s, hexH s <> []) ->
  forall b1 e1 l1 b2 e2 l2 m, wf m ->
  id_preimage dumps hexH repr version b1 e1 l1 None <> id_preimage dumps hexH repr version b2 e2 l2 (Some (to_json m)).
Proof. intros dumps hexH repr version Hr Hh. exact (pre_separates_absent dumps hexH repr version Hr Hh). Qed.
Print Assumptions C13_id_separates_absent.

Theorem C13_id_separates_params : forall dumps hexH repr version,
  (forall a b x y, repr a ++ x = repr b ++ y -> a = b) ->
  forall b1 e1 l1 b2 e2 l2,
  id_preimage dumps hexH repr version b1 e1 l1 None = id_preimage dumps hexH repr version b2 e2 l2 None ->
  b1 = b2 /\ e1 = e2 /\ l1 = l2.
Proof. intros dumps hexH repr version Hr. exact (pre_separates_params dumps hexH repr version Hr). Qed.
Print Assumptions C13_id_separates_params.

(* to_json of a metabook whose maps are key-sorted (all the model's constructors build such, and the
   harness measures it on every sampled state) is a canonical JSON value: no objects left, every map strictly
   key-sorted.  Hence the printer premise of C13_id_separates follows from injectivity of
   json.dumps(sort_keys=True) on canonical values: *)
Theorem C13_to_json_canonical : forall m, msorted m = true -> jcanon (to_json m) = true.
Proof. exact to_json_canon. Qed.
Print Assumptions C13_to_json_canonical.

Theorem C13_id_separates_canon : forall dumps hexH repr version,
  (forall a b x y, repr a ++ x = repr b ++ y -> a = b) ->
  (forall j1 j2, jcanon j1 = true -> jcanon j2 = true -> dumps j1 = dumps j2 -> j1 = j2) ->
  forall b1 e1 l1 m1 b2 e2 l2 m2,
  wf m1 -> wf m2 -> msorted m1 = true -> msorted m2 = true ->
  id_preimage dumps hexH repr version b1 e1 l1 (Some (to_json m1))
    = id_preimage dumps hexH repr version b2 e2 l2 (Some (to_json m2)) ->
  (hexH (dumps (to_json m1)) = hexH (dumps (to_json m2)) -> dumps (to_json m1) = dumps (to_json m2)) ->
  b1 = b2 /\ e1 = e2 /\ l1 = l2 /\ nf m1 = nf m2.
Proof. intros dumps hexH repr version Hr Hd. exact (pre_separates_canon dumps hexH repr version Hr Hd). Qed.
Print Assumptions C13_id_separates_canon.

(* the executable check the harness runs on every sampled state implies wf *)
Theorem C13_wfb_sound : forall v, wfb v = true -> wf v.
Proof. exact wfb_spec. Qed.
Print Assumptions C13_wfb_sound.

(* ---------------------------------------------------------------------------------------------------------
   The API keeps metabooks inside the theorems' domain.  kw_ok kw: the keyword values are wf and no keyword is
   called `type` or `self`.  A model value containing VErr = the real call raised. *)

(* Collection.append_article: the call raises, or the result is wf again *)
Theorem C13_append_article_wf : forall title dt kw coll,
  wf coll -> kw_ok kw ->
  has_err (append_article title dt kw coll) = true \/ wf (append_article title dt kw coll).
Proof. exact (append_article_ok wf_write_closed). Qed.
Print Assumptions C13_append_article_wf.

(* constructors of every known class, items.append, setattr *)
Theorem C13_constructors_wf :
  (forall low kw, kw_ok kw -> new_obj low kw = VErr \/ wf (new_obj low kw)) /\
  (forall x v, wf v -> wf x -> append_item x v = VErr \/ wf (append_item x v)) /\
  (forall k x v, wf v -> wf x -> str_eqb k_type k = false -> str_eqb k_self k = false ->
                 set_field k x v = VErr \/ wf (set_field k x v)).
Proof.
  split; [exact new_obj_wf|]. split; [exact (append_item_P wf_write_closed)|].
  intros k x v Hv Hx Ht Hs. exact (set_field_P wf_write_closed k x v Hv Hx (conj Ht Hs)).
Qed.
Print Assumptions C13_constructors_wf.

(* Collection.walk / get_articles return wf objects only *)
Theorem C13_walk_wf : forall coll, wf coll -> Forall wf (walk_items coll).
Proof.
  intros coll H. unfold walk_items. destruct (get_items coll) as [l|] eqn:E; [|constructor].
  pose proof (get_items_wf _ _ H E) as Hl. clear E. induction Hl as [|y r Hy _ IHr]; cbn [flat_map]; [constructor|].
  apply Forall_app. split; [apply walk_wf, Hy|exact IHr].
Qed.
Print Assumptions C13_walk_wf.

(* every collection built by ANY sequence of append_article / items.append(Class(..)) / setattr calls that did not
   raise, starting from Collection(kw0), is wf -- so the round trip, the fixed point (and with them the id theorems)
   hold for it, and what walk() returns is wf *)
Theorem C13_api_built_wf : forall kw0 ops m,
  kw_ok kw0 -> Forall bop_ok ops ->
  build_from (new_obj (lower k_Collection) kw0) ops = Some m -> wf m.
Proof.
  intros kw0 ops m Hk Ho E. rewrite build_from_live in E.
  apply (live_from_wf (map XApi ops) _ m (new_collection_wf kw0 Hk)); [|exact E]. apply Forall_map. exact Ho.
Qed.
Print Assumptions C13_api_built_wf.

Theorem C13_api_built_roundtrip : forall kw0 ops m,
  kw_ok kw0 -> Forall bop_ok ops ->
  build_from (new_obj (lower k_Collection) kw0) ops = Some m ->
  nf (of_json (to_json m)) = nf m /\ to_json (of_json (to_json m)) = to_json m /\ Forall wf (walk_items m).
Proof.
  intros kw0 ops m Hk Ho E. pose proof (C13_api_built_wf kw0 ops m Hk Ho E) as W.
  split; [apply roundtrip, W|]. split; [apply fixed_point, W|apply C13_walk_wf, W].
Qed.
Print Assumptions C13_api_built_roundtrip.

(* Non-vacuity.  (1) the repr hypothesis has an instance.  (2) Collections built through the API are wf, and
   differ in nf when an article title / its revision / the order / a chapter title differs. *)
Example C13_example_repr : exists repr : option str -> str, forall a b x y, repr a ++ x = repr b ++ y -> a = b.
Proof. exists repr_ex. exact repr_ex_pf. Qed.
Print Assumptions C13_example_repr.

Example C13_example_built :
  let coll := new_obj (lower k_Collection) [] in
  let rev := [([114;101;118;105;115;105;111;110]%N, VStr [49]%N)] in
  let a := append_article [65]%N None [] in
  let a' := append_article [66]%N None [] in
  let ar := append_article [65]%N None rev in
  let ch t := append_item (new_obj (lower k_Chapter) [(k_title, VStr t)]) in
  let m1 := a' (a (ch [67]%N coll)) in
  wfb m1 = true /\ msorted m1 = true /\ wfb (a (a' (ch [67]%N coll))) = true /\ wfb (ar coll) = true /\
  nf (a coll) <> nf (a' coll) /\ nf (a coll) <> nf (ar coll) /\
  nf m1 <> nf (a (a' (ch [67]%N coll))) /\ nf m1 <> nf (a' (a (ch [68]%N coll))) /\
  get_items (new_obj (lower k_Collection) []) = Some [] /\
  to_json (of_json (to_json m1)) = to_json m1.
Proof.
  cbv zeta.
  split; [vm_compute; reflexivity|]. split; [vm_compute; reflexivity|].
  split; [vm_compute; reflexivity|]. split; [vm_compute; reflexivity|].
  split; [apply flat_neq; vm_compute; reflexivity|]. split; [apply flat_neq; vm_compute; reflexivity|].
  split; [apply flat_neq; vm_compute; reflexivity|]. split; [apply flat_neq; vm_compute; reflexivity|].
  split; [vm_compute; reflexivity|].
  apply fixed_point, wfb_spec. vm_compute. reflexivity.
Qed.
Print Assumptions C13_example_built.

(* (3) op sequences that do not raise exist: a chapter, two articles (one with revision 0), a falsy title *)
Example C13_example_api :
  let ops := [BAddItem (lower k_Chapter) [(k_title, VStr [67]%N)];
              BAppend [65]%N None [([114;101;118;105;115;105;111;110]%N, VInt 0)];
              BAppend [66]%N (Some [68]%N) [];
              BSet k_title (VStr [])] in
  Forall bop_ok ops /\
  exists m, build_from (new_obj (lower k_Collection) []) ops = Some m /\ length (walk_items m) = 3%nat.
Proof. exact ex_api. Qed.
Print Assumptions C13_example_api.

(* ---------------------------------------------------------------------------------------------------------
   The LIFE of one metabook object.  Besides the API calls above, a consumer edits the object in place, at any depth
   (ModelEdit.v: edit_at path e follows .items[i % len] for every i of path, then setattr / items.append / insert / pop /
   reverse / append to a list-valued attribute / assignment inside a dict or object held by an attribute; an edit that does
   not apply is skipped).  edit_ok e: the values written are wf and nothing called `type` / `self` is written. *)

(* an in-place edit at any depth keeps the metabook in the theorems' domain *)
Theorem C13_edit_at_wf : forall e, edit_ok e -> forall path v, wf v -> wf (edit_at path e v).
Proof. exact edit_at_wf. Qed.
Print Assumptions C13_edit_at_wf.

(* every state reached by API calls interleaved with in-place edits (none of which raised) is wf, round-trips and
   re-serialises to the same JSON value *)
Theorem C13_live_roundtrip : forall kw0 ops m,
  kw_ok kw0 -> Forall xop_ok ops -> live_from (new_obj (lower k_Collection) kw0) ops = Some m ->
  wf m /\ nf (of_json (to_json m)) = nf m /\ to_json (of_json (to_json m)) = to_json m.
Proof.
  intros kw0 ops m Hk Ho E. pose proof (live_from_wf ops _ m (new_collection_wf kw0 Hk) Ho E) as W.
  split; [exact W|]. split; [apply roundtrip, W|apply fixed_point, W].
Qed.
Print Assumptions C13_live_roundtrip.

(* calc_checksum = hexH (dumps (to_json m)) has no memory: for two moments m1 (after ops1) and m2 (after ops1 ++ ops2) of
   one object's life -- unless sha256 collides on the two dumps or the printer prints two different JSON values alike --
   the checksum changes exactly when the dumped JSON value changes, i.e. exactly when the metabook (nf) changes *)
Theorem C13_checksum_over_life : forall dumps hexH kw0 ops1 ops2 m1 m2,
  kw_ok kw0 -> Forall xop_ok ops1 -> Forall xop_ok ops2 ->
  live_from (new_obj (lower k_Collection) kw0) ops1 = Some m1 -> live_from m1 ops2 = Some m2 ->
  (hexH (dumps (to_json m1)) = hexH (dumps (to_json m2)) -> dumps (to_json m1) = dumps (to_json m2)) ->
  (dumps (to_json m1) = dumps (to_json m2) -> to_json m1 = to_json m2) ->
  (checksum dumps hexH m1 = checksum dumps hexH m2 <-> to_json m1 = to_json m2) /\
  (checksum dumps hexH m1 = checksum dumps hexH m2 <-> nf m1 = nf m2).
Proof.
  intros dumps hexH kw0 ops1 ops2 m1 m2 Hk H1 H2 E1 E2.
  pose proof (live_from_wf ops1 _ m1 (new_collection_wf kw0 Hk) H1 E1) as W1.
  exact (checksum_faithful dumps hexH m1 m2 W1 (live_from_wf ops2 _ m2 W1 H2 E2)).
Qed.
Print Assumptions C13_checksum_over_life.

(* at every moment the checksum of the live object is that of a fresh copy of its content *)
Theorem C13_checksum_of_fresh_copy : forall dumps hexH kw0 ops m,
  kw_ok kw0 -> Forall xop_ok ops -> live_from (new_obj (lower k_Collection) kw0) ops = Some m ->
  loads (to_json m) = Some (of_json (to_json m)) /\
  checksum dumps hexH (of_json (to_json m)) = checksum dumps hexH m.
Proof.
  intros dumps hexH kw0 ops m Hk Ho E. destruct (C13_live_roundtrip kw0 ops m Hk Ho E) as (W & _ & F).
  split; [apply loads_dumped, W|]. unfold checksum. rewrite F. reflexivity.
Qed.
Print Assumptions C13_checksum_of_fresh_copy.

(* non-vacuity: a chapter with two articles; an article's revision is changed in place (depth 2), the chapter's items are
   reversed (depth 1), an article is appended to mb.items (depth 0), an article's title is changed: every edit applies
   and every single one changes the normal form *)
Example C13_example_live :
  Forall xop_ok ex_ops1 /\ Forall xop_ok ex_edits /\
  exists m1, live_from (new_obj (lower k_Collection) []) ex_ops1 = Some m1 /\
  forall n, (n < length ex_edits)%nat ->
    exists a b, live_from m1 (firstn n ex_edits) = Some a /\ live_from m1 (firstn (S n) ex_edits) = Some b /\ nf a <> nf b.
Proof. exact ex_live. Qed.
Print Assumptions C13_example_live.

(* srt = all maps key-sorted (msorted without its VErr clause).  Every state in the life of a Collection whose inputs
   have key-sorted maps has key-sorted maps, so its dump is a canonical JSON value ... *)
Theorem C13_live_canonical : forall kw0 ops m,
  kw_ok kw0 -> Forall xop_ok ops -> all_vals srt kw0 = true -> forallb xop_srt ops = true ->
  live_from (new_obj (lower k_Collection) kw0) ops = Some m ->
  msorted m = true /\ jcanon (to_json m) = true.
Proof.
  intros kw0 ops m Hw Hwo Hk Ho E. apply wf_srt_canon.
  - exact (live_from_wf ops _ m (new_collection_wf kw0 Hw) Hwo E).
  - exact (live_from_srt ops _ m (new_obj_srt _ kw0 Hk) Ho E).
Qed.
Print Assumptions C13_live_canonical.

(* ... and the printer premise of C13_checksum_over_life reduces to injectivity of json.dumps(sort_keys=True) on canonical
   JSON values *)
Theorem C13_checksum_over_life_canon : forall dumps hexH kw0 ops1 ops2 m1 m2,
  (forall j1 j2, jcanon j1 = true -> jcanon j2 = true -> dumps j1 = dumps j2 -> j1 = j2) ->
  kw_ok kw0 -> Forall xop_ok ops1 -> Forall xop_ok ops2 ->
  all_vals srt kw0 = true -> forallb xop_srt ops1 = true -> forallb xop_srt ops2 = true ->
  live_from (new_obj (lower k_Collection) kw0) ops1 = Some m1 -> live_from m1 ops2 = Some m2 ->
  (hexH (dumps (to_json m1)) = hexH (dumps (to_json m2)) -> dumps (to_json m1) = dumps (to_json m2)) ->
  (checksum dumps hexH m1 = checksum dumps hexH m2 <-> nf m1 = nf m2).
Proof.
  intros dumps hexH kw0 ops1 ops2 m1 m2 Hd Hw H1 H2 Hk S1 S2 E1 E2 Hh.
  pose proof (live_from_wf ops1 _ m1 (new_collection_wf kw0 Hw) H1 E1) as W1.
  pose proof (live_from_srt ops1 _ m1 (new_obj_srt _ kw0 Hk) S1 E1) as T1.
  pose proof (live_from_wf ops2 _ m2 W1 H2 E2) as W2.
  pose proof (live_from_srt ops2 _ m2 T1 S2 E2) as T2.
  apply (checksum_faithful dumps hexH m1 m2 W1 W2 Hh).
  apply Hd; apply wf_srt_canon; assumption.
Qed.
Print Assumptions C13_checksum_over_life_canon.
