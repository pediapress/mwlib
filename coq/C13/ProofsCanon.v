(* C13 — to_json produces canonical JSON values (pure JSON, every map strictly key-sorted), so that the
   codec premise of the separation theorem reduces to injectivity of the printer on canonical values. *)
From Coq Require Import List NArith ZArith Bool.
From MW Require Import Common.Str C13.Val C13.Gen_classes C13.Model C13.Wf C13.Proofs C13.ProofsRT C13.ProofsId.
Import ListNotations.

Definition all_vals (p : val -> bool) (l : list (str * val)) : bool := forallb (fun kv => p (snd kv)) l.

Lemma jcanon_dict kvs : jcanon (VDict kvs) = sorted kvs && all_vals jcanon kvs.
Proof. cbn [jcanon]. f_equal. unfold all_vals. induction kvs as [|[k x] r IH]; [reflexivity|]. cbn. rewrite IH. reflexivity. Qed.
Lemma msorted_dict kvs : msorted (VDict kvs) = sorted kvs && all_vals msorted kvs.
Proof. cbn [msorted]. f_equal. unfold all_vals. induction kvs as [|[k x] r IH]; [reflexivity|]. cbn. rewrite IH. reflexivity. Qed.
Lemma msorted_obj c f : msorted (VObj c f) = sorted f && all_vals msorted f.
Proof. cbn [msorted]. f_equal. unfold all_vals. induction f as [|[k x] r IH]; [reflexivity|]. cbn. rewrite IH. reflexivity. Qed.

Lemma sorted_from_weaken {A} k k' (l : list (str * A)) : scmp k k' = Lt -> sorted_from k' l = true -> sorted_from k l = true.
Proof.
  destruct l as [|[k0 v0] l]; cbn; [reflexivity|]. intros H.
  destruct (scmp k' k0) eqn:E; try discriminate. rewrite (scmp_lt_trans _ _ _ H E). auto.
Qed.

Lemma sorted_from_sorted {A} k (l : list (str * A)) : sorted_from k l = true -> sorted l = true.
Proof. destruct l as [|[k0 v0] l]; cbn; [reflexivity|]. destruct (scmp k k0); try discriminate. auto. Qed.

Lemma ins_sorted_from {A} k0 k (v : A) l :
  scmp k0 k = Lt -> sorted_from k0 l = true -> sorted_from k0 (ins k v l) = true.
Proof.
  revert k0. induction l as [|[k1 v1] l IH]; intros k0 H0 H; cbn.
  - rewrite H0. reflexivity.
  - cbn in H. destruct (scmp k0 k1) eqn:E01; try discriminate.
    destruct (scmp k k1) eqn:E; cbn.
    + apply scmp_eq in E. subst k1. rewrite H0. exact H.
    + rewrite H0. cbn. rewrite E. exact H.
    + rewrite E01. apply IH; [|exact H].
      rewrite scmp_antisym, E. reflexivity.
Qed.

Lemma ins_sorted {A} k (v : A) l : sorted l = true -> sorted (ins k v l) = true.
Proof.
  destruct l as [|[k1 v1] l]; cbn; [reflexivity|]. intros H.
  destruct (scmp k k1) eqn:E; cbn.
  - apply scmp_eq in E. subst k1. exact H.
  - rewrite E. exact H.
  - apply ins_sorted_from; [|exact H]. rewrite scmp_antisym, E. reflexivity.
Qed.

Lemma kept_sorted_from c h k l : sorted_from k l = true -> sorted_from k (kept_map c h l) = true.
Proof.
  revert k. induction l as [|[k1 v1] l IH]; intros k H; cbn; [reflexivity|].
  cbn in H. destruct (scmp k k1) eqn:E; try discriminate.
  destruct (keep c k1 v1); cbn.
  - rewrite E. apply IH. exact H.
  - apply IH. eapply sorted_from_weaken; eassumption.
Qed.

Lemma kept_sorted c h l : sorted l = true -> sorted (kept_map c h l) = true.
Proof.
  destruct l as [|[k1 v1] l]; cbn; [reflexivity|]. intros H.
  destruct (keep c k1 v1); cbn.
  - apply kept_sorted_from. exact H.
  - eapply sorted_from_sorted. apply kept_sorted_from. exact H.
Qed.

Lemma map_vals_sorted_from h k l : sorted_from k (map_vals h l) = sorted_from k l.
Proof.
  unfold map_vals. revert k. induction l as [|[k1 v1] l IH]; intros k; cbn; [reflexivity|].
  destruct (scmp k k1); try reflexivity. apply IH.
Qed.

Lemma map_vals_sorted h l : sorted (map_vals h l) = sorted l.
Proof. destruct l as [|[k1 v1] l]; cbn; [reflexivity|]. apply map_vals_sorted_from. Qed.

Lemma all_vals_ins p k v l : p v = true -> all_vals p l = true -> all_vals p (ins k v l) = true.
Proof.
  unfold all_vals. intros Hv. induction l as [|[k1 v1] l IH]; cbn; intros H.
  - rewrite Hv. reflexivity.
  - apply andb_true_iff in H as [H0 H1]. destruct (scmp k k1); cbn; rewrite ?Hv, ?H0, ?H1; cbn; auto.
Qed.

Lemma all_vals_kept p c h l :
  Forall (fun kv => p (h (snd kv)) = true) l -> all_vals p (kept_map c h l) = true.
Proof.
  unfold all_vals. induction 1 as [|[k x] l Hx _ IH]; cbn; [reflexivity|].
  destruct (keep c k x); cbn; [cbn in Hx; rewrite Hx|]; exact IH.
Qed.

Lemma all_vals_map p h l :
  Forall (fun kv => p (h (snd kv)) = true) l -> all_vals p (map_vals h l) = true.
Proof.
  unfold all_vals, map_vals. induction 1 as [|[k x] l Hx _ IH]; cbn; [reflexivity|]. cbn in Hx. rewrite Hx. exact IH.
Qed.

Theorem to_json_canon v : msorted v = true -> jcanon (to_json v) = true.
Proof.
  induction v as [| b | z | s | l IH | kvs IH | c f IH | ] using val_ind'; intros H; try reflexivity; try discriminate.
  - rewrite to_json_list. cbn [jcanon msorted] in *. rewrite forallb_forall in *. intros y Hy.
    apply in_map_iff in Hy as (x & <- & Hx). rewrite Forall_forall in IH. apply IH; auto.
  - rewrite msorted_dict in H. apply andb_true_iff in H as [Hs Ha].
    rewrite to_json_dict, jcanon_dict, map_vals_sorted, Hs. cbn [andb].
    apply all_vals_map. unfold all_vals in Ha. rewrite forallb_forall in Ha. rewrite Forall_forall in *.
    intros kv Hkv. apply IH; auto.
  - rewrite msorted_obj in H. apply andb_true_iff in H as [Hs Ha].
    rewrite to_json_obj, jcanon_dict. apply andb_true_iff. split.
    + apply ins_sorted, kept_sorted, Hs.
    + apply all_vals_ins; [reflexivity|]. apply all_vals_kept.
      unfold all_vals in Ha. rewrite forallb_forall in Ha. rewrite Forall_forall in *. intros kv Hkv. apply IH; auto.
Qed.

Section IdCanon.
  Variable dumps : val -> str.
  Variable hexH : str -> str.
  Variable repr : option str -> str.
  Variable version : str.
  Hypothesis repr_pf : forall a b x y, repr a ++ x = repr b ++ y -> a = b.
  (* json.dumps(sort_keys=True) prints different canonical JSON values differently *)
  Hypothesis dumps_inj : forall j1 j2, jcanon j1 = true -> jcanon j2 = true -> dumps j1 = dumps j2 -> j1 = j2.

  Lemma pre_separates_canon b1 e1 l1 m1 b2 e2 l2 m2 :
    wf m1 -> wf m2 -> msorted m1 = true -> msorted m2 = true ->
    id_preimage dumps hexH repr version b1 e1 l1 (Some (to_json m1))
      = id_preimage dumps hexH repr version b2 e2 l2 (Some (to_json m2)) ->
    (hexH (dumps (to_json m1)) = hexH (dumps (to_json m2)) -> dumps (to_json m1) = dumps (to_json m2)) ->
    b1 = b2 /\ e1 = e2 /\ l1 = l2 /\ nf m1 = nf m2.
  Proof.
    intros W1 W2 S1 S2 H HH.
    apply (pre_separates dumps hexH repr version repr_pf b1 e1 l1 m1 b2 e2 l2 m2 W1 W2 H HH).
    apply dumps_inj; apply to_json_canon; assumption.
  Qed.
End IdCanon.
