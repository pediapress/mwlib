(* C13 — the constructors of the metabook API and the domain of the round-trip theorems: an object built by new_obj
   (= MetabookObject.__init__ of a known class) is wf, writing an attribute or a dict entry keeps wf, a wf value
   contains no VErr, and what Collection.walk returns is wf.  Op sequences over the API (build_from) are defined here;
   that every call keeps wf is proved in ProofsEdit.v, together with the in-place edits. *)
From Coq Require Import List NArith ZArith Bool.
From MW Require Import Common.Str C13.Val C13.Gen_classes C13.Model C13.Wf C13.Proofs C13.ProofsRT C13.ProofsId.
Import ListNotations.

Lemma vals_wf_ins k v l : wf v -> vals_wf l -> vals_wf (ins k v l).
Proof.
  intros Hv. unfold vals_wf. induction l as [|[k0 v0] l IH]; cbn [ins]; intros H.
  - constructor; [exact Hv|constructor].
  - destruct (scmp k k0).
    + inversion H; subst. constructor; assumption.
    + constructor; assumption.
    + inversion H; subst. constructor; [assumption|apply IH; assumption].
Qed.

Lemma assoc_vals_wf k l v : vals_wf l -> assoc k l = Some v -> wf v.
Proof.
  unfold vals_wf. induction l as [|[k0 v0] l IH]; cbn [assoc]; [discriminate|].
  intros H. inversion H; subst. destruct (str_eqb k k0); [intros E; inversion E; subst; assumption|apply IH; assumption].
Qed.

(* one keyword argument: a well-formed value, the keyword not `type` or `self` *)
Definition arg_ok (kv : str * val) : Prop :=
  wf (snd kv) /\ str_eqb k_type (fst kv) = false /\ str_eqb k_self (fst kv) = false.

(* keyword arguments: each of them arg_ok, written out *)
Definition kw_ok (kw : list (str * val)) : Prop :=
  Forall (fun kv => wf (snd kv) /\ str_eqb k_type (fst kv) = false /\ str_eqb k_self (fst kv) = false) kw.

Lemma kw_ok_args kw : kw_ok kw <-> Forall arg_ok kw.
Proof. reflexivity. Qed.

Lemma arg_okb_spec kv : arg_okb kv = true -> arg_ok kv.
Proof.
  unfold arg_okb. rewrite !andb_true_iff, !negb_true_iff. intros [[H1 H2] H3].
  split; [apply wfb_spec, H1|split; assumption].
Qed.

(* the attribute map of a wf object, apart from the class defaults being present *)
Definition fields_ok (l : list (str * val)) : Prop :=
  vals_wf l /\ has_key k_type l = false /\ has_key k_self l = false.

Lemma fields_ok_ins k v l : arg_ok (k, v) -> fields_ok l -> fields_ok (ins k v l).
Proof.
  intros (Hv & Ht & Hs) (Hl & H1 & H2). cbn [fst snd] in *.
  split; [apply vals_wf_ins; assumption|]. rewrite !has_key_ins, Ht, Hs. split; assumption.
Qed.

Definition add_default (acc : list (str * val)) (kd : str * val) : list (str * val) :=
  if has_key (fst kd) acc then acc else ins (fst kd) (snd kd) acc.

(* __init__ builds the attribute map by inserts only: a property M of maps that an insert of an entry satisfying G
   keeps holds of what of_list and init_fields build *)
Section FoldIns.
  Variable M : list (str * val) -> Prop.
  Variable G : str * val -> Prop.
  Hypothesis M_ins : forall k v l, G (k, v) -> M l -> M (ins k v l).

  Lemma of_list_from_M kvs : forall acc,
    Forall G kvs -> M acc -> M (fold_left (fun a kv => ins (fst kv) (snd kv) a) kvs acc).
  Proof.
    induction kvs as [|[k v] kvs IH]; intros acc Hk Ha; cbn [fold_left]; [exact Ha|].
    inversion Hk; subst. apply IH; [assumption|]. apply M_ins; assumption.
  Qed.

  Lemma fold_default_M defs : forall acc, Forall G defs -> M acc -> M (fold_left add_default defs acc).
  Proof.
    induction defs as [|[k d] defs IH]; intros acc Hd Ha; cbn [fold_left]; [exact Ha|].
    inversion Hd; subst. apply IH; [assumption|]. unfold add_default. cbn [fst snd].
    destruct (has_key k acc); [exact Ha|apply M_ins; assumption].
  Qed.
End FoldIns.

Lemma of_list_ok kw : kw_ok kw -> fields_ok (of_list kw).
Proof.
  intros H. apply (of_list_from_M fields_ok arg_ok fields_ok_ins kw []); [apply kw_ok_args, H|].
  split; [constructor|split; reflexivity].
Qed.

Lemma add_default_mono acc kd k : has_key k acc = true -> has_key k (add_default acc kd) = true.
Proof.
  unfold add_default. intros H. destruct (has_key (fst kd) acc); [exact H|]. rewrite has_key_ins, H. apply orb_true_r.
Qed.

Lemma fold_default_mono defs : forall acc k, has_key k acc = true -> has_key k (fold_left add_default defs acc) = true.
Proof. induction defs as [|kd defs IH]; intros acc k H; cbn [fold_left]; [exact H|]. apply IH, add_default_mono, H. Qed.

Lemma fold_default_present defs : forall acc,
  forallb (fun kd => has_key (fst kd) (fold_left add_default defs acc)) defs = true.
Proof.
  induction defs as [|kd defs IH]; intros acc; cbn [fold_left forallb]; [reflexivity|].
  rewrite IH, andb_true_r. apply fold_default_mono. unfold add_default.
  destruct (has_key (fst kd) acc) eqn:E; [exact E|]. rewrite has_key_ins, str_eqb_refl. reflexivity.
Qed.

Definition class_row_ok (row : str * (str * list (str * val))) : bool :=
  let '(low, (name, defs)) := row in
  str_eqb (lower name) low && negb (has_key k_self defs) && negb (has_key k_type defs) && negb (has_key k_image defs)
  && forallb (fun kd => wfb (snd kd)) defs
  && (fix eqd (a b : list (str * val)) : bool :=
        match a, b with
        | [], [] => true
        | (k, _) :: a', (k', _) :: b' => str_eqb k k' && eqd a' b'
        | _, _ => false
        end) (defaults_of name) defs
  && Nat.eqb (length (defaults_of name)) (length defs).

Lemma class_rows_ok : forallb class_row_ok classes = true.
Proof. vm_compute. reflexivity. Qed.

Lemma init_fields_wf c defs kwm : class_ok c -> class_facts c defs -> fields_ok kwm -> wf (VObj c (init_fields defs kwm)).
Proof.
  intros Hc (_ & Hd & _ & _ & Ha) Hk. unfold init_fields. fold add_default.
  assert (D : Forall arg_ok ((k_image, VNull) :: defs)).
  { constructor; [split; [constructor|split; reflexivity]|].
    apply Forall_forall. intros kd Hin. apply arg_okb_spec, (proj1 (forallb_forall _ _) Ha), Hin. }
  destruct (fold_default_M fields_ok arg_ok fields_ok_ins _ kwm D Hk) as (Hw & Ht & Hs).
  constructor; [exact Hc|exact Ht|exact Hs| |exact Hw].
  rewrite Hd. pose proof (fold_default_present ((k_image, VNull) :: defs) kwm) as P.
  cbn [forallb] in P. apply andb_true_iff in P as [_ P]. exact P.
Qed.

(* MetabookObject.__init__ with keywords kw, for a class the table knows ... *)
Lemma new_obj_of_class low c defs kw : assoc low classes = Some (c, defs) -> kw_ok kw -> wf (new_obj low kw).
Proof.
  intros E Hk. unfold new_obj. rewrite E. destruct (class_lookup low c defs E) as [Hc Hf].
  apply init_fields_wf; [exact Hc|exact Hf|apply of_list_ok, Hk].
Qed.

(* ... and for any lower-cased name *)
Lemma new_obj_wf low kw : kw_ok kw -> new_obj low kw = VErr \/ wf (new_obj low kw).
Proof.
  intros Hk. destruct (assoc low classes) as [[c defs]|] eqn:E.
  - right. exact (new_obj_of_class low c defs kw E Hk).
  - left. unfold new_obj. rewrite E. reflexivity.
Qed.

Lemma new_collection_wf kw0 : kw_ok kw0 -> wf (new_obj (lower k_Collection) kw0).
Proof. eapply new_obj_of_class. reflexivity. Qed.

Lemma forallb_has_key_ins (defs : list (str * val)) k (v : val) f :
  forallb (fun kd => has_key (fst kd) f) defs = true ->
  forallb (fun kd => has_key (fst kd) (ins k v f)) defs = true.
Proof.
  rewrite !forallb_forall. intros H x Hx. rewrite has_key_ins, (H x Hx). apply orb_true_r.
Qed.

(* setattr(obj, k, x) for an attribute not called type / self *)
Lemma obj_ins_wf c f k x :
  wf (VObj c f) -> wf x -> str_eqb k_type k = false /\ str_eqb k_self k = false -> wf (VObj c (ins k x f)).
Proof.
  intros Hv Hx Hk. destruct (wf_obj_inv _ _ Hv) as (Hc & H1 & H2 & H3 & H4).
  destruct (fields_ok_ins k x f (conj Hx Hk) (conj H4 (conj H1 H2))) as (W & T & S).
  constructor; [exact Hc|exact T|exact S|apply forallb_has_key_ins, H3|exact W].
Qed.

Lemma dict_ins_wf kvs k x : wf (VDict kvs) -> wf x -> str_eqb k_type k = false -> wf (VDict (ins k x kvs)).
Proof.
  intros Hv Hx Ht. destruct (wf_dict_inv _ Hv) as [Hk Hl]. constructor.
  - rewrite has_key_ins, Ht. exact Hk.
  - apply vals_wf_ins; assumption.
Qed.

Lemma wf_field c f k x : wf (VObj c f) -> assoc k f = Some x -> wf x.
Proof. intros Hv. apply assoc_vals_wf. apply (wf_obj_inv _ _ Hv). Qed.

Lemma wf_no_err v : wf v -> has_err v = false.
Proof.
  induction v as [| b | z | s | l IH | kvs IH | c f IH | ] using val_ind'; intros H; try reflexivity.
  - apply wf_list_iff in H. rewrite has_err_list.
    induction IH as [|x r Hx _ IHr]; [reflexivity|]. inversion H as [|? ? Wx Wr]; subst. cbn [existsb].
    rewrite (Hx Wx). apply IHr, Wr.
  - destruct (wf_dict_inv _ H) as [_ Hl]. rewrite has_err_dict.
    apply any_err_false, (Forall_mp (fun kv => wf (snd kv)) _ _ IH), Hl.
  - destruct (wf_obj_inv _ _ H) as (_ & _ & _ & _ & Hl). rewrite has_err_obj.
    apply any_err_false, (Forall_mp (fun kv => wf (snd kv)) _ _ IH), Hl.
  - inversion H.
Qed.

Lemma any_err_ins_err k x l : has_err x = true -> any_err (ins k x l) = true.
Proof.
  unfold any_err. intros Hx. induction l as [|[k0 v0] l IH]; cbn [ins].
  - cbn. rewrite Hx. reflexivity.
  - destruct (scmp k k0); cbn [existsb snd]; rewrite ?Hx, ?IH; auto using orb_true_r.
Qed.

Lemma has_err_obj_ins c f k x : has_err x = true -> has_err (VObj c (ins k x f)) = true.
Proof. rewrite has_err_obj. apply any_err_ins_err. Qed.

Lemma has_err_snoc l x : has_err x = true -> has_err (VList (l ++ [x])) = true.
Proof. intros Hx. rewrite has_err_list, existsb_app. cbn. rewrite Hx. apply orb_true_r. Qed.

Lemma has_err_append_item x v : has_err x = true -> has_err (append_item x v) = true.
Proof.
  intros Hx. unfold append_item. destruct v; try reflexivity. destruct (get_items _); [|reflexivity].
  apply has_err_obj_ins, has_err_snoc, Hx.
Qed.

(* the keywords Collection.append_article passes to Article(..) *)
Lemma article_kw_ok title dt kw : kw_ok kw ->
  kw_ok ((k_title, VStr (strip title)) :: (k_displaytitle, match dt with Some d => VStr (strip d) | None => VNull end) :: kw).
Proof.
  intros H. constructor; [|constructor; [|exact H]]; cbn [fst snd]; (split; [|split; reflexivity]).
  - constructor.
  - destruct dt; constructor.
Qed.

Lemma get_items_some v l : get_items v = Some l -> exists c f, v = VObj c f /\ assoc k_items f = Some (VList l).
Proof.
  destruct v as [| | | | | |c f|]; try discriminate. cbn [get_items].
  destruct (assoc k_items f) as [[| | | |l0| | |]|] eqn:Ef; try discriminate. intros E. inversion E; subst.
  exists c, f. split; [reflexivity|exact Ef].
Qed.

Lemma get_items_wf v l : wf v -> get_items v = Some l -> Forall wf l.
Proof.
  intros Hv E. destruct (get_items_some v l E) as (c & f & -> & Ef). apply wf_list_iff, (wf_field c f k_items), Ef. exact Hv.
Qed.

(* the second part carries the induction through the list held by `items`: val_ind' gives the hypothesis for
   that list, not for its members *)
Definition walk_ok (v : val) : Prop :=
  wf v -> Forall wf (walk v) /\ (forall xs, v = VList xs -> Forall wf (flat_map walk xs)).

Lemma walk_ok_all v : walk_ok v.
Proof.
  induction v as [| b | z | s | l IH | kvs IH | c f IH | ] using val_ind'; intros H;
    try (split; [constructor; [exact H|constructor]|intros xs E; discriminate E]).
  - (* list *)
    split; [constructor; [exact H|constructor]|]. intros xs E. inversion E; subst xs. clear E.
    apply wf_list_iff in H.
    induction IH as [|y r Hy _ IHr]; cbn [flat_map]; [constructor|]. inversion H as [|? ? Wy Wr]; subst.
    apply Forall_app. split; [apply (Hy Wy)|apply IHr, Wr].
  - (* object *)
    split; [|intros xs E; discriminate E]. cbn [walk]. constructor; [exact H|].
    destruct (wf_obj_inv _ _ H) as (_ & _ & _ & _ & Hl). unfold vals_wf in Hl. clear H.
    induction IH as [|[k x] r Hx _ IHr]; [constructor|]. inversion Hl as [|? ? Wx Wr]; subst. cbn [snd] in *.
    destruct (str_eqb k k_items); [|apply IHr, Wr].
    destruct x; try constructor. apply (Hx Wx). reflexivity.
Qed.

Lemma walk_wf v : wf v -> Forall wf (walk v).
Proof. intros H. apply (walk_ok_all v H). Qed.

Inductive bop :=
| BAppend (title : str) (dt : option str) (kw : list (str * val))      (* coll.append_article(title, dt, kw..) *)
| BAddItem (low : str) (kw : list (str * val))                          (* coll.items.append(Class(kw..)) *)
| BSet (k : str) (x : val).                                             (* setattr(coll, k, x) *)

Definition bop_ok (o : bop) : Prop :=
  match o with
  | BAppend _ _ kw => kw_ok kw
  | BAddItem _ kw => kw_ok kw
  | BSet k x => wf x /\ str_eqb k_type k = false /\ str_eqb k_self k = false
  end.

Definition apply_bop (m : val) (o : bop) : val :=
  match o with
  | BAppend t dt kw => append_article t dt kw m
  | BAddItem low kw => append_item (new_obj low kw) m
  | BSet k x => set_field k x m
  end.

(* a real op sequence stops at the first call that raises: None *)
Fixpoint build_from (m : val) (ops : list bop) : option val :=
  match ops with
  | [] => Some m
  | o :: r => let m' := apply_bop m o in if has_err m' then None else build_from m' r
  end.

Lemma ex_api :
  let ops := [BAddItem (lower k_Chapter) [(k_title, VStr [67]%N)];
              BAppend [65]%N None [([114;101;118;105;115;105;111;110]%N, VInt 0)];
              BAppend [66]%N (Some [68]%N) [];
              BSet k_title (VStr [])] in
  Forall bop_ok ops /\
  exists m, build_from (new_obj (lower k_Collection) []) ops = Some m /\ length (walk_items m) = 3%nat.
Proof.
  cbv zeta. split.
  - repeat constructor.
  - eexists. split; [vm_compute; reflexivity|vm_compute; reflexivity].
Qed.
