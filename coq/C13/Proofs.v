(* C13 — induction on values, key-sorted association maps, to_json / of_json through list combinators, and what
   the proofs use of the class table. *)
From Coq Require Import List NArith ZArith Bool Lia.
From MW Require Import Common.Str C13.Val C13.Gen_classes C13.Model C13.Wf.
Import ListNotations.

Section ValInd.
  Variable P : val -> Prop.
  Hypothesis Hnull : P VNull.
  Hypothesis Hbool : forall b, P (VBool b).
  Hypothesis Hint : forall z, P (VInt z).
  Hypothesis Hstr : forall s, P (VStr s).
  Hypothesis Hlist : forall l, Forall P l -> P (VList l).
  Hypothesis Hdict : forall kvs, Forall (fun kv => P (snd kv)) kvs -> P (VDict kvs).
  Hypothesis Hobj : forall c f, Forall (fun kv => P (snd kv)) f -> P (VObj c f).
  Hypothesis Herr : P VErr.

  Fixpoint val_ind' (v : val) : P v :=
    match v with
    | VNull => Hnull
    | VBool b => Hbool b
    | VInt z => Hint z
    | VStr s => Hstr s
    | VList l => Hlist l ((fix go (l : list val) : Forall P l :=
                             match l with [] => Forall_nil _ | x :: r => Forall_cons _ (val_ind' x) (go r) end) l)
    | VDict kvs => Hdict kvs ((fix go (l : list (str * val)) : Forall (fun kv => P (snd kv)) l :=
                                 match l with [] => Forall_nil _ | (k, x) :: r => Forall_cons (k, x) (val_ind' x) (go r) end) kvs)
    | VObj c f => Hobj c f ((fix go (l : list (str * val)) : Forall (fun kv => P (snd kv)) l :=
                               match l with [] => Forall_nil _ | (k, x) :: r => Forall_cons (k, x) (val_ind' x) (go r) end) f)
    | VErr => Herr
    end.
End ValInd.

Lemma Forall_mp {A} (P Q : A -> Prop) l : Forall (fun x => P x -> Q x) l -> Forall P l -> Forall Q l.
Proof. induction 1 as [|x l Hx _ IH]; intros HP; inversion HP; subst; constructor; auto. Qed.

Lemma scmp_eq a b : scmp a b = Eq <-> a = b.
Proof.
  revert b. induction a as [|x a IH]; intros [|y b]; cbn; split; intro H; try discriminate; try reflexivity.
  - destruct (N.compare_spec x y) as [->|?|?]; try discriminate. apply IH in H. congruence.
  - inversion H; subst. rewrite N.compare_refl. apply IH. reflexivity.
Qed.

Lemma scmp_refl a : scmp a a = Eq.
Proof. apply scmp_eq. reflexivity. Qed.

Lemma scmp_antisym a : forall b, scmp b a = CompOpp (scmp a b).
Proof.
  induction a as [|x a IH]; intros [|y b]; cbn; try reflexivity.
  rewrite (N.compare_antisym x y). destruct (N.compare x y); cbn; [apply IH|reflexivity|reflexivity].
Qed.

Lemma scmp_lt_trans a : forall b c, scmp a b = Lt -> scmp b c = Lt -> scmp a c = Lt.
Proof.
  induction a as [|x a IH]; intros [|y b] [|z c]; cbn; try discriminate; try reflexivity.
  destruct (N.compare_spec x y) as [->|Hxy|Hxy]; try discriminate.
  - destruct (N.compare_spec y z) as [->|Hyz|Hyz]; try discriminate; [apply IH|reflexivity].
  - intros _. destruct (N.compare_spec y z) as [->|Hyz|Hyz]; try discriminate.
    + intros _. destruct (N.compare_spec x z); [lia|reflexivity|lia].
    + intros _. destruct (N.compare_spec x z); [lia|reflexivity|lia].
Qed.

Lemma str_eqb_scmp a b : str_eqb a b = match scmp a b with Eq => true | _ => false end.
Proof.
  destruct (scmp a b) eqn:E.
  - apply scmp_eq in E. subst. apply str_eqb_refl.
  - apply str_eqb_false. intros ->. rewrite scmp_refl in E. discriminate.
  - apply str_eqb_false. intros ->. rewrite scmp_refl in E. discriminate.
Qed.

Lemma str_eqb_sym a b : str_eqb a b = str_eqb b a.
Proof.
  destruct (str_eqb a b) eqn:E.
  - apply str_eqb_spec in E. subst. symmetry. apply str_eqb_refl.
  - symmetry. apply str_eqb_false. apply str_eqb_false in E. congruence.
Qed.

Lemma assoc_ins {A} k (v : A) l k' :
  assoc k' (ins k v l) = if str_eqb k' k then Some v else assoc k' l.
Proof.
  induction l as [|[k0 v0] l IH]; cbn.
  - reflexivity.
  - destruct (scmp k k0) eqn:E; cbn.
    + apply scmp_eq in E. subst k0. destruct (str_eqb k' k); reflexivity.
    + reflexivity.
    + rewrite IH. destruct (str_eqb k' k0) eqn:E0; [|reflexivity].
      apply str_eqb_spec in E0. subst k0.
      destruct (str_eqb k' k) eqn:E1; [|reflexivity].
      apply str_eqb_spec in E1. subst k'. rewrite scmp_refl in E. discriminate.
Qed.

Lemma has_key_ins {A} k (v : A) l k' : has_key k' (ins k v l) = str_eqb k' k || has_key k' l.
Proof. unfold has_key. rewrite assoc_ins. destruct (str_eqb k' k); reflexivity. Qed.

Lemma In_has_key {A} k (d : A) l : In (k, d) l -> has_key k l = true.
Proof.
  unfold has_key. induction l as [|[k0 v0] l IH]; cbn; [contradiction|].
  intros [H|H]; [inversion H; subst; rewrite str_eqb_refl; reflexivity|].
  destruct (str_eqb k k0); [reflexivity|apply IH; exact H].
Qed.

Lemma remove_absent {A} k (l : list (str * A)) : has_key k l = false -> remove k l = l.
Proof.
  unfold has_key. induction l as [|[k0 v0] l IH]; cbn; [reflexivity|].
  destruct (str_eqb k k0); [discriminate|]. intros H. rewrite IH; [reflexivity|exact H].
Qed.

Lemma remove_ins {A} k (v : A) l : has_key k l = false -> remove k (ins k v l) = l.
Proof.
  unfold has_key. induction l as [|[k0 v0] l IH]; cbn.
  - rewrite str_eqb_refl. reflexivity.
  - destruct (str_eqb k k0) eqn:E0; [discriminate|]. intros H.
    rewrite str_eqb_scmp in E0.
    destruct (scmp k k0) eqn:E; try discriminate; cbn; rewrite ?str_eqb_refl.
    + rewrite str_eqb_scmp, E. rewrite remove_absent; [reflexivity|]. unfold has_key. exact H.
    + rewrite str_eqb_scmp, E. rewrite IH; [reflexivity|exact H].
Qed.

Definition map_vals (h : val -> val) (l : list (str * val)) : list (str * val) :=
  map (fun kv => (fst kv, h (snd kv))) l.

Lemma assoc_map_vals h l k : assoc k (map_vals h l) = option_map h (assoc k l).
Proof.
  induction l as [|[k0 v0] l IH]; cbn; [reflexivity|]. destruct (str_eqb k k0); [reflexivity|exact IH].
Qed.

Lemma has_key_map_vals h l k : has_key k (map_vals h l) = has_key k l.
Proof. unfold has_key. rewrite assoc_map_vals. destruct (assoc k l); reflexivity. Qed.

Lemma map_vals_ins h k v l : map_vals h (ins k v l) = ins k (h v) (map_vals h l).
Proof.
  unfold map_vals. induction l as [|[k0 v0] l IH]; cbn [map ins fst snd]; [reflexivity|].
  destruct (scmp k k0); cbn [map fst snd]; [reflexivity|reflexivity|]. rewrite IH. reflexivity.
Qed.

Lemma map_vals_comp g h l : map_vals g (map_vals h l) = map_vals (fun x => g (h x)) l.
Proof. unfold map_vals. rewrite map_map. reflexivity. Qed.

Lemma map_vals_ext h h' l : Forall (fun kv => h (snd kv) = h' (snd kv)) l -> map_vals h l = map_vals h' l.
Proof.
  unfold map_vals. induction 1 as [|[k x] l Hx _ IH]; cbn; [reflexivity|]. cbn in Hx. rewrite Hx, IH. reflexivity.
Qed.

(* the entries _json keeps, with h applied to the values *)
Fixpoint kept_map (c : str) (h : val -> val) (l : list (str * val)) : list (str * val) :=
  match l with
  | [] => []
  | (k, x) :: r => if keep c k x then (k, h x) :: kept_map c h r else kept_map c h r
  end.

Lemma has_key_kept c h l k : has_key k (kept_map c h l) = true -> has_key k l = true.
Proof.
  unfold has_key. induction l as [|[k0 v0] l IH]; cbn; [discriminate|].
  destruct (keep c k0 v0); cbn; destruct (str_eqb k k0); auto.
Qed.

Lemma kept_map_ext c h h' l :
  Forall (fun kv => h (snd kv) = h' (snd kv)) l -> kept_map c h l = kept_map c h' l.
Proof.
  induction 1 as [|[k x] l Hx _ IH]; cbn; [reflexivity|]. cbn in Hx. rewrite Hx, IH. reflexivity.
Qed.

(* inserting an entry that is then dropped *)
Lemma kept_map_ins_dropped c h k v l :
  has_key k l = false -> keep c k v = false -> kept_map c h (ins k v l) = kept_map c h l.
Proof.
  unfold has_key. intros Hk Hd. induction l as [|[k0 v0] l IH]; cbn.
  - rewrite Hd. reflexivity.
  - cbn in Hk. destruct (str_eqb k k0) eqn:E0; [discriminate|].
    rewrite str_eqb_scmp in E0.
    destruct (scmp k k0) eqn:E; try discriminate; cbn; rewrite ?Hd; [reflexivity|].
    rewrite IH; [reflexivity|exact Hk].
Qed.

Lemma has_key_kept_false c h l k : has_key k l = false -> has_key k (kept_map c h l) = false.
Proof.
  intros H. destruct (has_key k (kept_map c h l)) eqn:E; [|reflexivity].
  apply has_key_kept in E. congruence.
Qed.

Lemma has_key_kept_all c h l k :
  (forall x, keep c k x = true) -> has_key k (kept_map c h l) = has_key k l.
Proof.
  unfold has_key. intros Hk. induction l as [|[k0 v0] l IH]; cbn; [reflexivity|].
  destruct (str_eqb k k0) eqn:E.
  - apply str_eqb_spec in E. subst k0. rewrite Hk. cbn. rewrite str_eqb_refl. reflexivity.
  - destruct (keep c k0 v0); cbn; rewrite ?E; exact IH.
Qed.

Lemma map_vals_kept g c h l : map_vals g (kept_map c h l) = kept_map c (fun x => g (h x)) l.
Proof.
  unfold map_vals. induction l as [|[k x] l IH]; cbn [kept_map map]; [reflexivity|].
  destruct (keep c k x); cbn [map fst snd]; rewrite IH; reflexivity.
Qed.

(* keep looks at the value only through is_null *)
Lemma keep_null c k x y : is_null x = is_null y -> keep c k x = keep c k y.
Proof. unfold keep. intros ->. reflexivity. Qed.

Lemma kept_kept c g h l :
  Forall (fun kv => is_null (h (snd kv)) = is_null (snd kv)) l ->
  kept_map c g (kept_map c h l) = kept_map c (fun x => g (h x)) l.
Proof.
  induction 1 as [|[k x] l Hx _ IH]; cbn; [reflexivity|]. cbn in Hx.
  destruct (keep c k x) eqn:E; cbn; [|exact IH].
  rewrite (keep_null c k _ _ Hx), E, IH. reflexivity.
Qed.

(* to_json / of_json in terms of the list combinators *)
Lemma to_json_obj c f : to_json (VObj c f) = VDict (ins k_type (VStr c) (kept_map c to_json f)).
Proof.
  cbn [to_json]. do 2 f_equal. induction f as [|[k x] f IH]; [reflexivity|]. cbn [kept_map]. rewrite IH. reflexivity.
Qed.

Lemma to_json_dict kvs : to_json (VDict kvs) = VDict (map_vals to_json kvs).
Proof. cbn [to_json]. f_equal. induction kvs as [|[k x] r IH]; [reflexivity|]. cbn. rewrite IH. reflexivity. Qed.

Lemma of_json_dict kvs : of_json (VDict kvs) = object_hook (map_vals of_json kvs).
Proof. cbn [of_json]. f_equal. induction kvs as [|[k x] r IH]; [reflexivity|]. cbn. rewrite IH. reflexivity. Qed.

(* c is the name of a class object_hook can build *)
Definition class_ok (c : str) : Prop := exists low defs, In (low, (c, defs)) classes.

Definition default_ok (kd : str * val) : bool :=
  negb (starts_us (fst kd)) && negb (is_null (snd kd)) && negb (has_err (snd kd)).

(* a default is an admissible keyword argument: its value passes wfb, its key is not `type` or `self` *)
Definition arg_okb (kv : str * val) : bool :=
  wfb (snd kv) && negb (str_eqb k_type (fst kv)) && negb (str_eqb k_self (fst kv)).

(* What the proofs need of a row (low, (c, defs)) of the table: the lower-cased name finds the row (so names are
   unique up to case), and the defaults are public, non-None, admissible as keywords and do not set image. *)
Definition class_facts (c : str) (defs : list (str * val)) : Prop :=
  assoc (lower c) classes = Some (c, defs) /\ defaults_of c = defs /\
  has_key k_image defs = false /\ forallb default_ok defs = true /\ forallb arg_okb defs = true.

Definition defaults_okb (defs : list (str * val)) : bool :=
  negb (has_key k_image defs) && forallb default_ok defs && forallb arg_okb defs.

(* table_lookup, table_defaults and table_defaults_ok are closed equations over the table, proved by evaluation and
   so re-checked against the regenerated table on every run; stated over all rows at once, the proof term stays
   small. *)
Lemma table_lookup :
  map (fun r => assoc (lower (fst (snd r))) classes) classes = map (fun r => Some (snd r)) classes.
Proof. reflexivity. Qed.

Lemma table_defaults : map (fun r => defaults_of (fst (snd r))) classes = map (fun r => snd (snd r)) classes.
Proof. reflexivity. Qed.

Lemma table_defaults_ok : forallb (fun r => defaults_okb (snd (snd r))) classes = true.
Proof. reflexivity. Qed.

Lemma class_row_facts low c defs : In (low, (c, defs)) classes -> class_facts c defs.
Proof.
  intros H. split; [exact (ext_in_map table_lookup _ H)|]. split; [exact (ext_in_map table_defaults _ H)|].
  pose proof (proj1 (forallb_forall _ _) table_defaults_ok _ H) as D. cbn [fst snd] in D.
  unfold defaults_okb in D. rewrite !andb_true_iff, !negb_true_iff in D. tauto.
Qed.

Lemma assoc_In {A} k (l : list (str * A)) v : assoc k l = Some v -> exists k', In (k', v) l.
Proof.
  induction l as [|[k0 v0] l IH]; cbn [assoc]; [discriminate|].
  destruct (str_eqb k k0); [intros E; inversion E; subst; exists k0; left; reflexivity|].
  intros E. destruct (IH E) as [k' H]. exists k'. right. exact H.
Qed.

Lemma class_ok_facts c : class_ok c -> class_facts c (defaults_of c).
Proof.
  intros (low & defs & H). apply class_row_facts in H. rewrite (proj1 (proj2 H)). exact H.
Qed.

Lemma class_lookup low c defs : assoc low classes = Some (c, defs) -> class_ok c /\ class_facts c defs.
Proof.
  intros H. destruct (assoc_In _ _ _ H) as [low' Hin].
  split; [exists low', defs; exact Hin|exact (class_row_facts _ _ _ Hin)].
Qed.
