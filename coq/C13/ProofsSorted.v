(* C13 — every state in the life of a Collection (API calls + in-place edits at any depth) has key-sorted maps
   (msorted), so its dump is a canonical JSON value and the printer premise of the separation theorems is the
   injectivity of json.dumps(sort_keys=True) on canonical values only.
   srt = msorted without the VErr clause: preserved by every operation unconditionally; a value without VErr that is
   srt is msorted. *)
From Coq Require Import List NArith ZArith Bool Arith.
From MW Require Import Common.Str C13.Val C13.Gen_classes C13.Model C13.Wf C13.ModelEdit C13.Proofs C13.ProofsRT C13.ProofsId
  C13.ProofsCanon C13.ProofsApi C13.ProofsEdit.
Import ListNotations.

Fixpoint srt (v : val) : bool :=
  match v with
  | VObj _ f =>
      sorted f && (fix all (l : list (str * val)) : bool := match l with [] => true | (_, x) :: r => srt x && all r end) f
  | VDict kvs =>
      sorted kvs && (fix all (l : list (str * val)) : bool := match l with [] => true | (_, x) :: r => srt x && all r end) kvs
  | VList l => forallb srt l
  | _ => true
  end.

Lemma srt_dict kvs : srt (VDict kvs) = sorted kvs && all_vals srt kvs.
Proof. cbn [srt]. f_equal. unfold all_vals. induction kvs as [|[k x] r IH]; [reflexivity|]. cbn. rewrite IH. reflexivity. Qed.
Lemma srt_obj c f : srt (VObj c f) = sorted f && all_vals srt f.
Proof. cbn [srt]. f_equal. unfold all_vals. induction f as [|[k x] r IH]; [reflexivity|]. cbn. rewrite IH. reflexivity. Qed.

Lemma all_vals_srt_msorted l :
  Forall (fun kv => srt (snd kv) = true -> has_err (snd kv) = false -> msorted (snd kv) = true) l ->
  all_vals srt l = true -> any_err l = false -> all_vals msorted l = true.
Proof.
  unfold all_vals, any_err. induction 1 as [|kv l Hx _ IH]; cbn [forallb existsb]; [reflexivity|].
  intros Hs He. apply andb_true_iff in Hs as [Hs1 Hs2]. apply orb_false_iff in He as [He1 He2].
  rewrite (Hx Hs1 He1). cbn. apply IH; assumption.
Qed.

Lemma srt_msorted v : srt v = true -> has_err v = false -> msorted v = true.
Proof.
  induction v as [| b | z | s | l IH | kvs IH | c f IH | ] using val_ind'; intros Hs He; try reflexivity; try discriminate.
  - cbn [srt msorted] in *. rewrite has_err_list in He.
    induction IH as [|x r Hx _ IHr]; [reflexivity|]. cbn [forallb existsb] in *.
    apply andb_true_iff in Hs as [Hs1 Hs2]. apply orb_false_iff in He as [He1 He2].
    rewrite (Hx Hs1 He1). cbn. apply IHr; assumption.
  - rewrite srt_dict in Hs. rewrite has_err_dict in He. rewrite msorted_dict. apply andb_true_iff in Hs as [Hs1 Hs2].
    rewrite Hs1. cbn. apply all_vals_srt_msorted; assumption.
  - rewrite srt_obj in Hs. rewrite has_err_obj in He. rewrite msorted_obj. apply andb_true_iff in Hs as [Hs1 Hs2].
    rewrite Hs1. cbn. apply all_vals_srt_msorted; assumption.
Qed.

Lemma srt_map_ins k x l :
  srt x = true -> sorted l && all_vals srt l = true -> sorted (ins k x l) && all_vals srt (ins k x l) = true.
Proof.
  intros Hx H. apply andb_true_iff in H as [H1 H2]. apply andb_true_iff. split.
  - apply ins_sorted, H1.
  - apply all_vals_ins; assumption.
Qed.

Lemma srt_obj_ins c f k x : srt (VObj c f) = true -> srt x = true -> srt (VObj c (ins k x f)) = true.
Proof. rewrite !srt_obj. intros H Hx. apply srt_map_ins; assumption. Qed.

Lemma srt_dict_ins kvs k x : srt (VDict kvs) = true -> srt x = true -> srt (VDict (ins k x kvs)) = true.
Proof. rewrite !srt_dict. intros H Hx. apply srt_map_ins; assumption. Qed.

Lemma assoc_all_vals p k l v : all_vals p l = true -> assoc k l = Some v -> p v = true.
Proof.
  unfold all_vals. induction l as [|[k0 v0] l IH]; cbn [assoc forallb]; [discriminate|].
  intros H. apply andb_true_iff in H as [H1 H2]. destruct (str_eqb k k0); [intros E; inversion E; subst; exact H1|apply IH, H2].
Qed.

Lemma srt_field c f k v : srt (VObj c f) = true -> assoc k f = Some v -> srt v = true.
Proof. rewrite srt_obj. intros H. apply andb_true_iff in H as [_ H]. apply assoc_all_vals, H. Qed.

Lemma srt_list_iff l : srt (VList l) = true <-> Forall (fun x => srt x = true) l.
Proof. cbn [srt]. rewrite forallb_forall, Forall_forall. reflexivity. Qed.

Lemma class_defaults_srt : forallb (fun row => all_vals srt (snd (snd row))) classes = true.
Proof. vm_compute. reflexivity. Qed.

Lemma all_vals_Forall p l : all_vals p l = true -> Forall (fun kv => p (snd kv) = true) l.
Proof. intros H. apply Forall_forall, forallb_forall, H. Qed.

Lemma new_obj_srt low kw : all_vals srt kw = true -> srt (new_obj low kw) = true.
Proof.
  intros Hk. unfold new_obj. destruct (assoc low classes) as [[name defs]|] eqn:E; [|reflexivity].
  destruct (assoc_In _ _ _ E) as [k' Hin].
  pose proof (proj1 (forallb_forall _ _) class_defaults_srt _ Hin) as Hc. cbn [snd] in Hc.
  rewrite srt_obj. unfold init_fields. fold add_default.
  apply (fold_default_M _ (fun kv => srt (snd kv) = true) srt_map_ins); [constructor; [reflexivity|apply all_vals_Forall, Hc]|].
  apply (of_list_from_M _ (fun kv => srt (snd kv) = true) srt_map_ins); [apply all_vals_Forall, Hk|reflexivity].
Qed.

Lemma srt_write_closed : write_closed (fun v => srt v = true) (fun _ => True) (fun kw => all_vals srt kw = true).
Proof.
  constructor.
  - intros c f k x Hv Hx _. apply srt_obj_ins; assumption.
  - intros kvs k x Hv Hx _. apply srt_dict_ins; assumption.
  - exact srt_field.
  - exact srt_list_iff.
  - exact I.
  - intros low kw Hk. right. apply new_obj_srt, Hk.
  - intros title dt kw Hk. unfold all_vals. cbn [forallb snd]. destruct dt; exact Hk.
Qed.

Definition edit_srt (e : edit) : bool :=
  match e with
  | ESet _ x | EAppend x | EInsert _ x | EListAppend _ x | EInner _ _ _ x => srt x
  | EPop _ | EReverse => true
  end.

Lemma edit_srt_ok e : edit_srt e = true -> edit_okP (P := fun v => srt v = true) (K := fun _ => True) e.
Proof. destruct e; cbn [edit_srt edit_okP]; auto. Qed.

Definition xop_srt (o : xop) : bool :=
  match o with
  | XApi (BAppend _ _ kw) => all_vals srt kw
  | XApi (BAddItem _ kw) => all_vals srt kw
  | XApi (BSet _ x) => srt x
  | XEdit _ e => edit_srt e
  end.

Lemma xop_srt_ok o : xop_srt o = true ->
  xop_okP (P := fun v => srt v = true) (K := fun _ => True) (KW := fun kw => all_vals srt kw = true) o.
Proof. destruct o as [[t dt kw|low kw|k x]|p e]; cbn [xop_srt xop_okP bop_okP]; auto using edit_srt_ok. Qed.

Lemma live_from_srt ops m m' : srt m = true -> forallb xop_srt ops = true -> live_from m ops = Some m' -> srt m' = true.
Proof.
  intros Hm Ho. apply (live_from_P srt_write_closed ops m m' Hm).
  apply Forall_forall. intros o Hin. apply xop_srt_ok. exact (proj1 (forallb_forall _ _) Ho o Hin).
Qed.

Lemma wf_srt_canon m : wf m -> srt m = true -> msorted m = true /\ jcanon (to_json m) = true.
Proof.
  intros W S. assert (M : msorted m = true) by (apply srt_msorted; [exact S|apply wf_no_err, W]).
  split; [exact M|apply to_json_canon, M].
Qed.
