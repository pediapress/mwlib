(* C11 — the fuels of the model are sufficient.

   `resolve W t = resolve_aux W (S (length W)) t [t]` and `rendered W r = imgs_of W (length W) r` are used by
   the specification (`fetched`, `needed`) and by the Fetcher model alike.  This file shows that the
   out-of-fuel branch of `resolve_aux` is never taken with that fuel, that any larger fuel yields the same
   result, and that `rendered` is (as a set) the fuel-free reachability through current template revisions;
   both get an inductive, fuel-free characterisation. *)
From Coq Require Import List NArith Bool Arith Lia.
From MW Require Import C11.Model C11.Proofs.
Import ListNotations.

Lemma find_page_In_titles : forall W t p, find_page W t = Some p -> In t (map p_title W).
Proof.
  induction W as [|q W IH]; intros t p H; cbn [find_page] in H.
  - discriminate.
  - cbn [map In]. destruct (N.eqb (p_title q) t) eqn:E.
    + left. apply N.eqb_eq. exact E.
    + right. apply (IH t p). exact H.
Qed.

Lemma page_exists_In_titles : forall W t, page_exists W t = true -> In t (map p_title W).
Proof.
  intros W t H. unfold page_exists in H. destruct (find_page W t) as [p|] eqn:E.
  - apply (find_page_In_titles W t p). exact E.
  - discriminate.
Qed.

Lemma cur_of_page_exists : forall W t r, cur_of W t = Some r -> page_exists W t = true.
Proof.
  intros W t r H. unfold cur_of in H. unfold page_exists. destruct (find_page W t) as [p|].
  - reflexivity.
  - discriminate.
Qed.

Lemma nodup_pages_length : forall W l,
  NoDup l -> (forall x, In x l -> page_exists W x = true) -> length l <= length W.
Proof.
  intros W l Hnd Hp. rewrite <- (map_length p_title W). apply NoDup_incl_length.
  - exact Hnd.
  - intros x Hx. apply page_exists_In_titles. apply Hp. exact Hx.
Qed.

(* resolve_aux with the out-of-fuel case made visible: None = fuel exhausted *)
Fixpoint resolve_aux_m (W : wiki) (fuel : nat) (t : title) (seen : list title)
  : option (list (title * title) * option title) :=
  match fuel with
  | O => None
  | S f => match cur_of W t with
           | Some r => match r_redirect r with
                       | Some t' => if memN t' seen then Some ([(t, t')], None)
                                    else match resolve_aux_m W f t' (t' :: seen) with
                                         | Some (h, fin) => Some ((t, t') :: h, fin)
                                         | None => None
                                         end
                       | None => Some ([], Some t)
                       end
           | None => Some ([], Some t)
           end
  end.

(* f is where a chain ends: a missing page (or one without revisions), or a page whose current revision is no redirect *)
Definition terminal (W : wiki) (f : title) : Prop := forall r, cur_of W f = Some r -> r_redirect r = None.

(* the runs of `resolve_aux_m` that answer: it stops at a terminal title, or hops into `seen` and gives up,
   or hops to an unseen title and goes on from there with one unit of fuel less *)
Lemma resolve_aux_m_ind :
  forall W (P : nat -> title -> list title -> list (title * title) -> option title -> Prop),
  (forall n t seen, terminal W t -> P (S n) t seen [] (Some t)) ->
  (forall n t r t' seen, cur_of W t = Some r -> r_redirect r = Some t' -> In t' seen ->
     P (S n) t seen [(t, t')] None) ->
  (forall n t r t' seen h fin, cur_of W t = Some r -> r_redirect r = Some t' -> ~ In t' seen ->
     P n t' (t' :: seen) h fin -> P (S n) t seen ((t, t') :: h) fin) ->
  forall fuel t seen h fin, resolve_aux_m W fuel t seen = Some (h, fin) -> P fuel t seen h fin.
Proof.
  intros W P Hstop Hseen Hhop fuel. induction fuel as [|fuel IH]; intros t seen h fin H; cbn [resolve_aux_m] in H.
  - discriminate.
  - destruct (cur_of W t) as [r|] eqn:Ec.
    + destruct (r_redirect r) as [t'|] eqn:Er.
      * destruct (memN t' seen) eqn:Em.
        -- injection H as Hh Hf. subst h fin. apply (Hseen fuel t r t' seen Ec Er). apply memN_In. exact Em.
        -- destruct (resolve_aux_m W fuel t' (t' :: seen)) as [[h' fin']|] eqn:Em'; [|discriminate].
           injection H as Hh Hf. subst h fin. apply (Hhop fuel t r t' seen h' fin' Ec Er).
           ++ apply memN_false. exact Em.
           ++ apply IH. exact Em'.
      * injection H as Hh Hf. subst h fin. apply Hstop.
        intros r0 Ec0. rewrite Ec in Ec0. injection Ec0 as Ec0. subst r0. exact Er.
    + injection H as Hh Hf. subst h fin. apply Hstop. intros r0 Ec0. rewrite Ec in Ec0. discriminate.
Qed.

Lemma resolve_aux_m_agrees : forall W f t seen x,
  resolve_aux_m W f t seen = Some x -> resolve_aux W f t seen = x.
Proof.
  intros W f t seen [h fin]. revert f t seen h fin. apply (resolve_aux_m_ind W).
  - intros n t seen Ht. cbn [resolve_aux].
    destruct (cur_of W t) as [r|] eqn:Ec; [rewrite (Ht r Ec)|]; reflexivity.
  - intros n t r t' seen Ec Er Hin. apply memN_In in Hin. cbn [resolve_aux]. rewrite Ec, Er, Hin. reflexivity.
  - intros n t r t' seen h fin Ec Er Hnew IH. apply memN_false in Hnew.
    cbn [resolve_aux]. rewrite Ec, Er, Hnew, IH. reflexivity.
Qed.

(* once it answers, more fuel gives the same answer *)
Lemma resolve_aux_m_mono : forall W f t seen x,
  resolve_aux_m W f t seen = Some x -> forall f', f <= f' -> resolve_aux_m W f' t seen = Some x.
Proof.
  intros W f t seen [h fin]. revert f t seen h fin.
  apply (resolve_aux_m_ind W (fun f t seen h fin =>
           forall f', f <= f' -> resolve_aux_m W f' t seen = Some (h, fin))).
  - intros n t seen Ht [|f'] Hf; [lia|]. cbn [resolve_aux_m].
    destruct (cur_of W t) as [r|] eqn:Ec; [rewrite (Ht r Ec)|]; reflexivity.
  - intros n t r t' seen Ec Er Hin [|f'] Hf; [lia|]. apply memN_In in Hin.
    cbn [resolve_aux_m]. rewrite Ec, Er, Hin. reflexivity.
  - intros n t r t' seen h fin Ec Er Hnew IH [|f'] Hf; [lia|]. apply memN_false in Hnew.
    cbn [resolve_aux_m]. rewrite Ec, Er, Hnew, (IH f') by lia. reflexivity.
Qed.

(* invariant of the loop: `seen` = current title :: titles already left behind; no repetition; every title
   left behind has a page (it had a current revision that redirected on), so there are at most |W| of them *)
Lemma resolve_aux_m_some : forall W f t past,
  NoDup (t :: past) -> (forall x, In x past -> page_exists W x = true) ->
  S (length W) <= length past + f ->
  resolve_aux_m W f t (t :: past) <> None.
Proof.
  intros W f. induction f as [|f IH]; intros t past Hnd Hp H1.
  - exfalso. assert (Hl : length past <= length W).
    { apply nodup_pages_length; [ inversion Hnd; assumption | exact Hp ]. }
    lia.
  - cbn [resolve_aux_m]. destruct (cur_of W t) as [r|] eqn:Ec; [|discriminate].
    destruct (r_redirect r) as [t'|] eqn:Er; [|discriminate].
    destruct (memN t' (t :: past)) eqn:Em; [discriminate|].
    destruct (resolve_aux_m W f t' (t' :: t :: past)) as [[h fin]|] eqn:Em'; [discriminate|].
    exfalso. apply (IH t' (t :: past)).
    + constructor; [ apply memN_false; exact Em | exact Hnd ].
    + intros x [Hx|Hx].
      * subst x. apply (cur_of_page_exists W t r). exact Ec.
      * apply Hp. exact Hx.
    + cbn [length]. lia.
    + exact Em'.
Qed.

Lemma resolve_never_out_of_fuel : forall W t, resolve_aux_m W (S (length W)) t [t] <> None.
Proof.
  intros W t. apply resolve_aux_m_some.
  - constructor; [ intros [] | constructor ].
  - intros x [].
  - cbn [length]. lia.
Qed.

Lemma resolve_m_resolve : forall W t, resolve_aux_m W (S (length W)) t [t] = Some (resolve W t).
Proof.
  intros W t. destruct (resolve_aux_m W (S (length W)) t [t]) as [x|] eqn:E.
  - apply resolve_aux_m_agrees in E. unfold resolve. rewrite E. reflexivity.
  - exfalso. exact (resolve_never_out_of_fuel W t E).
Qed.

(* h is the list of redirect hops (source, target) that leads from t to f through CURRENT revisions *)
Inductive redir_path (W : wiki) : title -> list (title * title) -> title -> Prop :=
| rp_nil : forall t, redir_path W t [] t
| rp_step : forall t r t' h f, cur_of W t = Some r -> r_redirect r = Some t' -> redir_path W t' h f ->
    redir_path W t ((t, t') :: h) f.

Lemma redir_path_app : forall W x h1 y, redir_path W x h1 y -> forall h2 z, redir_path W y h2 z ->
  redir_path W x (h1 ++ h2) z.
Proof.
  intros W x h1 y H. induction H as [t | t r t' h f Ec Er _ IH]; intros h2 z H2.
  - exact H2.
  - cbn [app]. apply (rp_step W t r t' (h ++ h2) z Ec Er). apply IH. exact H2.
Qed.

Lemma redir_path_terminal_nil : forall W f h g, terminal W f -> redir_path W f h g -> h = [] /\ g = f.
Proof.
  intros W f h g Ht H. inversion H as [t | t r t' h' f' Ec Er Hp]; subst.
  - split; reflexivity.
  - exfalso. rewrite (Ht r Ec) in Er. discriminate.
Qed.

(* the chain is deterministic: a path that ends in a terminal title extends every other path from the same start *)
Lemma redir_path_prefix : forall W t h2 g, redir_path W t h2 g ->
  forall h1 f, redir_path W t h1 f -> terminal W f ->
  exists h3, h1 = h2 ++ h3 /\ redir_path W g h3 f.
Proof.
  intros W t h2 g H. induction H as [t | t r t' h g Ec Er _ IH]; intros h1 f H1 Hf.
  - exists h1. split; [reflexivity | exact H1].
  - inversion H1 as [t0 | t0 r0 t1 h1' f0 Ec0 Er0 Hp0]; subst.
    + exfalso. rewrite (Hf r Ec) in Er. discriminate.
    + rewrite Ec in Ec0. injection Ec0 as Ec0. subst r0.
      rewrite Er in Er0. injection Er0 as Er0. subst t1.
      destruct (IH h1' f Hp0 Hf) as [h3 [Heq Hp3]].
      exists h3. split; [cbn [app]; rewrite Heq; reflexivity | exact Hp3].
Qed.

(* a chain that runs into a circle reaches no terminal title: going round once more shortens the rest of the way *)
Lemma cycle_no_terminal : forall W t h1 b c, redir_path W t h1 b -> redir_path W b c b -> c <> [] ->
  forall h f, redir_path W t h f -> terminal W f -> False.
Proof.
  intros W t h1 b c Hp1 Hc Hne h f Hp Hf.
  destruct (redir_path_prefix W t h1 b Hp1 h f Hp Hf) as [h3 [_ Hp3]].
  assert (Hn : forall n h', length h' < n -> redir_path W b h' f -> False).
  { induction n as [|n IH]; intros h' Hl Hp'; [lia|].
    destruct (redir_path_prefix W b c b Hc h' f Hp' Hf) as [h4 [Heq Hp4]].
    apply (IH h4); [|exact Hp4].
    subst h'. rewrite app_length in Hl. destruct c as [|x c]; [congruence|]. cbn [length] in Hl. lia. }
  exact (Hn (S (length h3)) h3 (le_n _) Hp3).
Qed.

(* a title met before (the start or the target of an earlier hop) splits the path *)
Lemma redir_path_split : forall W t h a, redir_path W t h a -> forall b, In b (t :: map snd h) ->
  exists h1 h2, h = h1 ++ h2 /\ redir_path W t h1 b /\ redir_path W b h2 a.
Proof.
  intros W t h a H. induction H as [t | t r t' h f Ec Er Hp IH]; intros b Hb.
  - destruct Hb as [Hb|[]]. subst b. exists [], []. split; [reflexivity|]. split; apply rp_nil.
  - destruct Hb as [Hb|Hb].
    + subst b. exists [], ((t, t') :: h). split; [reflexivity|]. split; [apply rp_nil|].
      apply (rp_step W t r t' h f Ec Er Hp).
    + cbn [map snd] in Hb. destruct (IH b Hb) as [h1 [h2 [Heq [Hp1 Hp2]]]].
      exists ((t, t') :: h1), h2. split; [cbn [app]; rewrite Heq; reflexivity|].
      split; [apply (rp_step W t r t' h1 b Ec Er Hp1) | exact Hp2].
Qed.

(* what resolve_aux computes when it does not run out of fuel *)
Lemma resolve_aux_m_sound : forall W fuel t seen h fin,
  resolve_aux_m W fuel t seen = Some (h, fin) ->
  match fin with
  | Some f => redir_path W t h f /\ terminal W f
  | None => exists h0 a b, h = h0 ++ [(a, b)] /\ redir_path W t h0 a /\ redir_path W a [(a, b)] b /\
                           In b (seen ++ map snd h0)
  end.
Proof.
  intros W. apply (resolve_aux_m_ind W).
  - intros _ t seen Ht. split; [apply rp_nil | exact Ht].
  - intros _ t r t' seen Ec Er Hin. exists [], t, t'. split; [reflexivity|].
    split; [apply rp_nil|]. split; [apply (rp_step W t r t' [] t' Ec Er); apply rp_nil|].
    cbn [map]. rewrite app_nil_r. exact Hin.
  - intros _ t r t' seen h fin Ec Er _ IH. destruct fin as [f|].
    + destruct IH as [Hp Hf]. split; [apply (rp_step W t r t' h f Ec Er Hp) | exact Hf].
    + destruct IH as [h0 [a [b [Heq [Hp [Hab Hin]]]]]].
      exists ((t, t') :: h0), a, b. split; [cbn [app]; rewrite Heq; reflexivity|].
      split; [apply (rp_step W t r t' h0 a Ec Er Hp)|]. split; [exact Hab|].
      cbn [map snd]. apply in_app_iff. apply in_app_iff in Hin. cbn [In] in Hin |- *. tauto.
Qed.

Lemma resolve_sound : forall W t h fin, resolve W t = (h, fin) ->
  match fin with
  | Some f => redir_path W t h f /\ terminal W f
  | None => exists h0 a b, h = h0 ++ [(a, b)] /\ redir_path W t h0 a /\ redir_path W a [(a, b)] b /\
                           In b (t :: map snd h0)
  end.
Proof.
  intros W t h fin H. apply (resolve_aux_m_sound W (S (length W)) t [t]). rewrite resolve_m_resolve, H. reflexivity.
Qed.

Lemma resolve_none_cycle : forall W t h, resolve W t = (h, None) ->
  exists h1 b c, redir_path W t h1 b /\ c <> [] /\ redir_path W b c b.
Proof.
  intros W t h H. destruct (resolve_sound W t h None H) as [h0 [a [b [Heq [Hp [Hab Hin]]]]]].
  destruct (redir_path_split W t h0 a Hp b Hin) as [h1 [h2 [Heq2 [Hp1 Hp2]]]].
  exists h1, b, (h2 ++ [(a, b)]). split; [exact Hp1|]. split.
  - intros Hnil. apply app_eq_nil in Hnil. destruct Hnil as [_ Hnil]. discriminate.
  - apply (redir_path_app W b h2 a Hp2 [(a, b)] b Hab).
Qed.

(* resolve succeeds with f exactly when the chain of current-revision redirects from t ends in f *)
Lemma resolve_some_iff : forall W t h f,
  resolve W t = (h, Some f) <-> redir_path W t h f /\ terminal W f.
Proof.
  intros W t h f. split; [apply (resolve_sound W t h (Some f))|].
  intros [Hp Hf]. destruct (resolve W t) as [h' [f'|]] eqn:E.
  - destruct (resolve_sound W t h' (Some f') E) as [Hp' Hf'].
    destruct (redir_path_prefix W t h' f' Hp' h f Hp Hf) as [h3 [Heq Hp3]].
    destruct (redir_path_terminal_nil W f' h3 f Hf' Hp3) as [Hn Hff]. subst h3 f.
    rewrite app_nil_r in Heq. subst h. reflexivity.
  - exfalso. destruct (resolve_none_cycle W t h' E) as [h1 [b [c [Hp1 [Hne Hc]]]]].
    exact (cycle_no_terminal W t h1 b c Hp1 Hc Hne h f Hp Hf).
Qed.

Lemma resolve_none_iff_no_end : forall W t,
  snd (resolve W t) = None <-> ~ exists h f, redir_path W t h f /\ terminal W f.
Proof.
  intros W t. split.
  - intros H [h [f Hpf]]. apply resolve_some_iff in Hpf. rewrite Hpf in H. discriminate.
  - intros H. destruct (resolve W t) as [h [f|]] eqn:E; [|reflexivity].
    exfalso. apply H. exists h, f. apply resolve_some_iff. exact E.
Qed.

(* a successful chain never hops to a title it has seen *)
Lemma resolve_aux_m_nodup : forall W fuel t seen h fin,
  resolve_aux_m W fuel t seen = Some (h, fin) ->
  match fin with
  | Some _ => NoDup (map snd h) /\ forall x, In x (map snd h) -> ~ In x seen
  | None => True
  end.
Proof.
  intros W. apply (resolve_aux_m_ind W).
  - intros _ t seen _. split; [constructor | intros x []].
  - intros _ t r t' seen _ _ _. exact I.
  - intros _ t r t' seen h fin _ _ Hnew IH. destruct fin as [f|]; [|exact I].
    destruct IH as [Hnd Hns]. cbn [map snd]. split.
    + constructor; [|exact Hnd]. intros Hin. apply (Hns t' Hin). left. reflexivity.
    + intros x [Hx|Hx].
      * subst x. exact Hnew.
      * intros Hs. apply (Hns x Hx). right. exact Hs.
Qed.

Definition final_rev_fuel (W : wiki) (fuel : nat) (t : title) : option rev :=
  match resolve_aux W fuel t [t] with (_, Some f) => cur_of W f | (_, None) => None end.

(* the served revision: the current revision, itself no redirect, of the title where the chain ends *)
Lemma final_rev_iff : forall W t r,
  final_rev W t = Some r <-> exists h f, redir_path W t h f /\ cur_of W f = Some r /\ r_redirect r = None.
Proof.
  intros W t r. unfold final_rev. split.
  - intros H. destruct (resolve W t) as [h [f|]] eqn:E; [|discriminate].
    apply resolve_some_iff in E. destruct E as [Hp Hf]. exists h, f.
    split; [exact Hp|]. split; [exact H | apply Hf; exact H].
  - intros [h [f [Hp [Ec Er]]]].
    assert (E : resolve W t = (h, Some f)).
    { apply resolve_some_iff. split; [exact Hp|]. intros r0 Ec0. rewrite Ec in Ec0.
      injection Ec0 as Ec0. subst r0. exact Er. }
    rewrite E. exact Ec.
Qed.

Lemma used_titles_reds_iff : forall W ts a b,
  In (a, b) (used_titles_reds W ts) <-> exists t, In t ts /\ In (a, b) (fst (resolve W t)).
Proof. intros W ts a b. unfold used_titles_reds. apply in_flat_map. Qed.

(* follow the template titles of `l` one after the other, each time into the CURRENT revision of the template *)
Fixpoint walk (W : wiki) (r : rev) (l : list title) : option rev :=
  match l with
  | [] => Some r
  | t :: l' => if memN t (r_tpls r)
               then match cur_of W t with Some r1 => walk W r1 l' | None => None end
               else None
  end.

Lemma walk_cons : forall W r t l r',
  walk W r (t :: l) = Some r' <-> In t (r_tpls r) /\ exists r1, cur_of W t = Some r1 /\ walk W r1 l = Some r'.
Proof.
  intros W r t l r'. cbn [walk]. split.
  - intros H. destruct (memN t (r_tpls r)) eqn:Em; [|discriminate].
    destruct (cur_of W t) as [r1|] eqn:Ec; [|discriminate].
    split; [ apply memN_In; exact Em | exists r1; split; [reflexivity | exact H] ].
  - intros [Hin [r1 [Ec Hw]]]. apply memN_In in Hin. rewrite Hin, Ec. exact Hw.
Qed.

Lemma imgs_of_walk : forall W f r i,
  In i (imgs_of W f r) <-> exists l r', length l <= f /\ walk W r l = Some r' /\ In i (r_imgs r').
Proof.
  intros W f. induction f as [|f IH]; intros r i.
  - cbn [imgs_of]. rewrite app_nil_r. split.
    + intros H. exists [], r. split; [cbn [length]; lia | split; [reflexivity | exact H]].
    + intros [l [r' [Hl [Hw Hi]]]]. destruct l as [|t l]; [|cbn [length] in Hl; lia].
      cbn [walk] in Hw. injection Hw as Hw. subst r'. exact Hi.
  - cbn [imgs_of]. rewrite in_app_iff, in_flat_map. split.
    + intros [H|[t [Ht Hi]]].
      * exists [], r. split; [cbn [length]; lia | split; [reflexivity | exact H]].
      * destruct (cur_of W t) as [r1|] eqn:Ec; [|destruct Hi].
        apply IH in Hi. destruct Hi as [l [r' [Hl [Hw Hi]]]].
        exists (t :: l), r'. split; [cbn [length]; lia|]. split; [|exact Hi].
        apply walk_cons. split; [exact Ht|]. exists r1. split; [exact Ec | exact Hw].
    + intros [l [r' [Hl [Hw Hi]]]]. destruct l as [|t l].
      * cbn [walk] in Hw. injection Hw as Hw. subst r'. left. exact Hi.
      * right. apply walk_cons in Hw. destruct Hw as [Ht [r1 [Ec Hw]]].
        exists t. split; [exact Ht|]. rewrite Ec. apply IH.
        exists l, r'. split; [cbn [length] in Hl; lia | split; [exact Hw | exact Hi]].
Qed.

Lemma walk_app : forall W a r b,
  walk W r (a ++ b) = match walk W r a with Some r1 => walk W r1 b | None => None end.
Proof.
  intros W a. induction a as [|t a IH]; intros r b.
  - reflexivity.
  - cbn [app walk]. destruct (memN t (r_tpls r)); [|reflexivity].
    destruct (cur_of W t) as [r1|]; [|reflexivity]. apply IH.
Qed.

Lemma walk_pages : forall W l r r', walk W r l = Some r' -> forall t, In t l -> page_exists W t = true.
Proof.
  intros W l. induction l as [|t l IH]; intros r r' Hw x Hx.
  - destruct Hx.
  - apply walk_cons in Hw. destruct Hw as [_ [r1 [Ec Hw]]]. destruct Hx as [Hx|Hx].
    + subst x. apply (cur_of_page_exists W t r1). exact Ec.
    + apply (IH r1 r' Hw). exact Hx.
Qed.

(* cut the loops out of a walk: after stepping through title t one is at `cur_of W t`, whatever came before *)
Lemma walk_shorten : forall W l r r', walk W r l = Some r' ->
  exists l', NoDup l' /\ walk W r l' = Some r'.
Proof.
  intros W l. induction l as [|t l IH]; intros r r' Hw.
  - exists []. split; [constructor | exact Hw].
  - apply walk_cons in Hw. destruct Hw as [Ht [r1 [Ec Hw]]].
    destruct (IH r1 r' Hw) as [l' [Hnd Hw']].
    destruct (in_dec N.eq_dec t l') as [Hin|Hnin].
    + apply in_split in Hin. destruct Hin as [a [b Hab]]. subst l'.
      exists (t :: b). split.
      * apply (NoDup_app_r a (t :: b)). exact Hnd.
      * rewrite walk_app in Hw'. destruct (walk W r1 a) as [r0|] eqn:Ea; [|discriminate].
        apply walk_cons in Hw'. destruct Hw' as [_ [r1' [Ec' Hb]]].
        apply walk_cons. split; [exact Ht|]. exists r1'. split; [exact Ec' | exact Hb].
    + exists (t :: l'). split; [constructor; assumption|].
      apply walk_cons. split; [exact Ht|]. exists r1. split; [exact Ec | exact Hw'].
Qed.

Lemma walk_bounded : forall W l r r', walk W r l = Some r' ->
  exists l', length l' <= length W /\ walk W r l' = Some r'.
Proof.
  intros W l r r' Hw. destruct (walk_shorten W l r r' Hw) as [l' [Hnd Hw']].
  exists l'. split; [|exact Hw']. apply nodup_pages_length; [exact Hnd|].
  apply (walk_pages W l' r r' Hw').
Qed.

(* r' is reachable from r through current revisions of transcluded templates *)
Inductive treach (W : wiki) : rev -> rev -> Prop :=
| treach_refl : forall r, treach W r r
| treach_step : forall r t r1 r2, In t (r_tpls r) -> cur_of W t = Some r1 -> treach W r1 r2 -> treach W r r2.

Lemma treach_walk : forall W r r', treach W r r' <-> exists l, walk W r l = Some r'.
Proof.
  intros W r r'. split.
  - intros H. induction H as [r | r t r1 r2 Ht Ec _ [l Hl]].
    + exists []. reflexivity.
    + exists (t :: l). apply walk_cons. split; [exact Ht|]. exists r1. split; [exact Ec | exact Hl].
  - intros [l Hl]. revert r Hl. induction l as [|t l IH]; intros r Hl.
    + cbn [walk] in Hl. injection Hl as Hl. subst r'. apply treach_refl.
    + apply walk_cons in Hl. destruct Hl as [Ht [r1 [Ec Hw]]].
      apply (treach_step W r t r1 r' Ht Ec). apply IH. exact Hw.
Qed.

(* fuel-free reading of `imgs_of` for every sufficient fuel: a walk can be cut down to at most |W| steps *)
Lemma imgs_of_is_reachability : forall W f r i, length W <= f ->
  (In i (imgs_of W f r) <-> exists r', treach W r r' /\ In i (r_imgs r')).
Proof.
  intros W f r i Hf. rewrite imgs_of_walk. split.
  - intros [l [r' [_ [Hw Hi]]]]. exists r'. split; [apply treach_walk; exists l; exact Hw | exact Hi].
  - intros [r' [Ht Hi]]. apply treach_walk in Ht. destruct Ht as [l Hw].
    destruct (walk_bounded W l r r' Hw) as [l' [Hl Hw']]. exists l', r'. split; [lia | split; assumption].
Qed.

Lemma rendered_is_reachability : forall W r i,
  In i (rendered W r) <-> exists r', treach W r r' /\ In i (r_imgs r').
Proof. intros W r i. unfold rendered. apply imgs_of_is_reachability. apply le_n. Qed.

(* less fuel never yields an image that is not rendered (soundness of every fuel) *)
Lemma imgs_of_any_fuel_sound : forall W f r i, In i (imgs_of W f r) -> In i (rendered W r).
Proof.
  intros W f r i H. apply rendered_is_reachability. apply imgs_of_walk in H.
  destruct H as [l [r' [_ [Hw Hi]]]]. exists r'. split; [apply treach_walk; exists l; exact Hw | exact Hi].
Qed.

(* a wiki with a redirect chain (2, 3, 1), a redirect circle (4, 8) and a cyclic template graph (5, 6) *)
Definition fx_W : wiki :=
  [ mkPage 1 false 0 [] [mkRev 10 None [5] [7]];
    mkPage 2 false 0 [] [mkRev 20 (Some 3) [] []];
    mkPage 3 false 0 [] [mkRev 30 (Some 1) [] []];
    mkPage 4 false 0 [] [mkRev 40 (Some 8) [] []];
    mkPage 8 false 0 [] [mkRev 80 (Some 4) [] []];
    mkPage 5 false 0 [] [mkRev 50 None [6] [9]];
    mkPage 6 false 0 [] [mkRev 60 None [5] [11]] ]%N.

