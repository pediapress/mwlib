(* C11 — the result limit is invisible: a wiki that serves a query's values in slices of ANY size >= 1 is read
   completely by the client of ModelContinue.v (stop condition translated from sapi.py). *)
From Coq Require Import List NArith Bool Arith Lia.
From MW Require Import C11.ModelContinue C11.Gen_continue C11.ProofsContinue C11.ModelSliced.
Import ListNotations.

Lemma merge_one : forall q pre x, merge [(q, pre)] [(q, x)] = [(q, pre ++ x)].
Proof. intros q pre x. unfold merge. cbn [fold_left fst snd extend_at]. now rewrite N.eqb_refl. Qed.

Lemma merge_nil_one : forall q x, merge [] [(q, x)] = [(q, x)].
Proof. reflexivity. Qed.

Lemma skipn_add : forall {A} (b a : nat) (l : list A), skipn a (skipn b l) = skipn (b + a) l.
Proof.
  intros A b. induction b as [|b IH]; intros a l; [reflexivity|].
  destruct l as [|x l]; [now rewrite !skipn_nil|]. cbn [skipn Nat.add]. apply IH.
Qed.

Lemma sliced_chain_from : forall limit db q, (1 <= limit)%nat ->
  forall n kw, length (skipn (offset_of kw) (db q)) = n ->
  exists sl, Chain (sliced_server limit db) q kw sl /\ (length sl <= S n)%nat /\
             (forall pre, fold_left merge sl [(q, pre)] = [(q, pre ++ skipn (offset_of kw) (db q))]) /\
             fold_left merge sl [] = [(q, skipn (offset_of kw) (db q))].
Proof.
  intros limit db q Hl n. induction n as [n IH] using lt_wf_ind. intros kw Hn.
  set (rest := skipn (offset_of kw) (db q)) in *.
  destruct (length rest <=? limit) eqn:E.
  - exists [[(q, rest)]]. split; [|split; [|split]].
    + apply Chain_end. unfold sliced_server. fold rest. now rewrite E.
    + cbn [length]. lia.
    + intros pre. cbn [fold_left]. apply merge_one.
    + reflexivity.
  - apply Nat.leb_gt in E.
    set (v := N.of_nat (offset_of kw + limit)).
    assert (Hoff : offset_of (Some v) = (offset_of kw + limit)%nat) by (unfold v; cbn [offset_of]; apply Nat2N.id).
    assert (Hrest : skipn (offset_of (Some v)) (db q) = skipn limit rest).
    { rewrite Hoff. unfold rest. now rewrite skipn_add. }
    assert (Hlen : length (skipn limit rest) = (n - limit)%nat) by (rewrite skipn_length; lia).
    destruct (IH (n - limit)%nat ltac:(lia) (Some v)) as [sl [Hc [Hls [Hpre Hnil]]]].
    { rewrite Hrest. exact Hlen. }
    exists ([(q, firstn limit rest)] :: sl). split; [|split; [|split]].
    + eapply Chain_more; [| |exact Hc].
      * unfold sliced_server. fold rest. destruct (length rest <=? limit) eqn:E2; [apply Nat.leb_le in E2; lia|reflexivity].
      * intro Heq. assert (Ho : offset_of kw = offset_of (Some v)) by now rewrite Heq. rewrite Hoff in Ho. lia.
    + cbn [length]. lia.
    + intros pre. cbn [fold_left]. rewrite merge_one, Hpre, Hrest, <- app_assoc. now rewrite firstn_skipn.
    + cbn [fold_left]. rewrite merge_nil_one, Hpre, Hrest. now rewrite firstn_skipn.
Qed.

Lemma sliced_chain : forall limit db q, (1 <= limit)%nat ->
  exists sl, Chain (sliced_server limit db) q None sl /\ (length sl <= S (length (db q)))%nat /\
             full_answer sl = [(q, db q)].
Proof.
  intros limit db q Hl.
  destruct (sliced_chain_from limit db q Hl (length (db q)) None eq_refl) as [sl [Hc [Hls [_ Hnil]]]].
  exists sl. split; [exact Hc|]. split; [exact Hls|exact Hnil].
Qed.

(* whatever the result limit, whatever the client has counted: the query returns all values *)
Lemma sliced_query_complete : forall limit db q fuel n, (1 <= limit)%nat -> (S (length (db q)) <= fuel)%nat ->
  snd (query gen_stop (sliced_server limit db) fuel n q) = Some [(q, db q)].
Proof.
  intros limit db q fuel n Hl Hf.
  destruct (sliced_chain limit db q Hl) as [sl [Hc [Hls Hfull]]].
  rewrite (query_complete _ _ _ Hc fuel n) by lia. cbn [snd]. now rewrite Hfull.
Qed.

Definition ex_db (q : N) : list N := if N.eqb q 1 then [11; 12; 13; 14; 15; 16; 17]%N else [21; 22; 23]%N.
