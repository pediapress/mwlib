(* C11 — property theorems only, each a lemma of the Proofs files or a few lines from them, each followed by
   Print Assumptions; the check re-compiles this file on every run.

   W: static abstract wiki, M: metabook (title, optional revision id), L: API batch size (any nat; L = 0 is
   treated as 1), fi: fetch images (false = the no-images option), sched: ANY sequence of scheduling decisions
   (which pending call completes next, whether the dispatcher finds the API idle).  The model is that of the
   Fetcher as of the C11 fix commits in /repo (4906af9 8808eaf 8d69ad3 3ee1a3d = /verif/fixes/C11-*.diff). *)
From Coq Require Import List NArith Bool.
From MW Require Import C11.Model C11.Proofs C11.Proofs2 C11.Proofs3 C11.ProofsFuel.
From MW Require Import C11.ModelContinue C11.Gen_continue C11.ProofsContinue C11.ModelSliced C11.ProofsSliced.
From MW Require Import C11.ModelMerge C11.ProofsMerge.
Import ListNotations.

(* Termination with an explicit measure: every scheduling decision on a non-final state strictly decreases
   `measure` (weights of the pending calls + 8 per queued image + 3 per queued description page) ... *)
Theorem C11_measure_decreases : forall W L fi s o, pending s <> [] -> measure W (step W L fi s o) < measure W s.
Proof. exact step_measure. Qed.
Print Assumptions C11_measure_decreases.

(* ... hence any schedule at least as long as the initial measure ends in a final state (nothing pending,
   nothing queued). *)
Theorem C11_terminates : forall W M L fi sched,
  measure W (init W L fi M) <= length sched -> final (run W L fi sched (init W L fi M)) = true.
Proof. intros W M L fi sched H. apply final_pending. apply terminates. exact H. Qed.
Print Assumptions C11_terminates.

(* For every wiki, metabook, batch size and EVERY schedule: the final archive holds exactly `fetched W fi M`,
   a function of the wiki and the metabook only. *)
Theorem C11_complete_and_faithful : forall W M L fi sched,
  final (run W L fi sched (init W L fi M)) = true ->
  forall x, In x (stored (run W L fi sched (init W L fi M))) <-> In x (fetched W fi M).
Proof. intros W M L fi sched H. apply complete_and_faithful. apply final_pending. exact H. Qed.
Print Assumptions C11_complete_and_faithful.

(* complete: everything the property asks for (`needed`: served texts of listed articles with redirects
   resolved, their images through nested templates with info, file, description page, contributors with bots
   out and anonymous counted) is in the archive ... *)
Theorem C11_needed_in_archive : forall W M L fi sched,
  final (run W L fi sched (init W L fi M)) = true ->
  forall x, In x (needed W fi M) -> In x (stored (run W L fi sched (init W L fi M))).
Proof.
  intros W M L fi sched H x Hx. apply (C11_complete_and_faithful W M L fi sched H).
  unfold fetched. apply in_or_app. left. exact Hx.
Qed.
Print Assumptions C11_needed_in_archive.

(* ... and what is there beyond `needed` are only images of the CURRENT revision of a page that is listed
   with a pinned revision (prop=images of a revid describes the current revision). *)
Theorem C11_nothing_else_but_current_revision_images : forall W M L fi sched,
  final (run W L fi sched (init W L fi M)) = true ->
  forall x, In x (stored (run W L fi sched (init W L fi M))) -> ~ In x (needed W fi M) ->
  fi = true /\ exists rv p r i, In rv (mb_revids M) /\ find_rev W rv = Some (p, r) /\
     In i (match current p with Some c => rendered W c | None => [] end) /\ In x (img_items W i).
Proof.
  intros W M L fi sched H x Hx Hn. apply fetched_extra; [|exact Hn].
  apply (C11_complete_and_faithful W M L fi sched H). exact Hx.
Qed.
Print Assumptions C11_nothing_else_but_current_revision_images.

(* faithful + missing skipped: a page record in the archive is either title t (listed, or the target of a
   listed redirect revision) holding the text of the revision the wiki serves for t after resolving the whole
   redirect chain — so a missing title, a dead end or a circle leaves NO record — or a listed revision id
   holding that revision's own text. *)
Theorem C11_missing_skipped : forall W M L fi sched,
  final (run W L fi sched (init W L fi M)) = true ->
  forall t r src, In (IArt t r src) (stored (run W L fi sched (init W L fi M))) ->
  (r = None /\ In t (title_roots W M) /\ exists rv, final_rev W t = Some rv /\ src = r_id rv) \/
  (exists rid p rr, r = Some rid /\ In rid (mb_revids M) /\ find_rev W rid = Some (p, rr) /\
                    t = p_title p /\ r_id rr = src /\ r = Some src).
Proof.
  intros W M L fi sched H t r src Hx.
  destruct (fetched_articles_faithful W fi M t r src) as [Ht|[Er [Hin [p [rr [Hf [Et Es]]]]]]].
  - apply (C11_complete_and_faithful W M L fi sched H). exact Hx.
  - left. exact Ht.
  - right. exists src, p, rr. repeat split; assumption.
Qed.
Print Assumptions C11_missing_skipped.

(* the archive does not depend on the schedule nor on the batch size *)
Theorem C11_schedule_and_batch_independent : forall W M L L' fi sched sched',
  final (run W L fi sched (init W L fi M)) = true ->
  final (run W L' fi sched' (init W L' fi M)) = true ->
  forall x, In x (stored (run W L fi sched (init W L fi M))) <-> In x (stored (run W L' fi sched' (init W L' fi M))).
Proof.
  intros W M L L' fi sched sched' H H' x.
  rewrite (C11_complete_and_faithful W M L fi sched H), (C11_complete_and_faithful W M L' fi sched' H'). reflexivity.
Qed.
Print Assumptions C11_schedule_and_batch_independent.

(* the tree before /repo commit 4906af9: the contributor loop iterates a list nothing fills, so no lookup stores anything *)
Theorem C11_contributors_refuted : forall W asked, lookup_contributors_unfixed W [] asked = [].
Proof. reflexivity. Qed.
Print Assumptions C11_contributors_refuted.

(* Non-vacuity.  Wiki: article 1 (old revision 10 uses image 7, current revision 11 uses template 5),
   page 2 = redirect to 3, page 3 = redirect to 1 (a chain), page 4 = redirect to 4 (a circle),
   template 5 uses image 6, images 6 and 7 exist; user 2 is a bot.  Metabook: 2, 4, 9 (missing), 1@10.
   L = 1, a schedule of 60 decisions. *)
Example C11_example :
  let s := run ex_W 1 true ex_sched (init ex_W 1 true ex_M) in
  Nat.leb (measure ex_W (init ex_W 1 true ex_M)) 60 = true /\ final s = true /\
  In (IArt 2 None 11)%N (stored s) /\ In (IArt 1 (Some 10) 10)%N (stored s) /\
  In (IFile 6)%N (stored s) /\ In (IFile 7)%N (stored s) /\ In (IDesc 6)%N (stored s) /\
  In (IAuth 2 [1] 2)%N (stored s) /\ In (IAuth 6 [3] 1)%N (stored s) /\
  (forall src, ~ In (IArt 4 None src)%N (stored s)) /\ (forall src, ~ In (IArt 9 None src)%N (stored s)).
Proof. exact example_run. Qed.
Print Assumptions C11_example.

(* ------------------------------------------------------------------ the fuels of the model are sufficient
   (`resolve` and `rendered` are shared by the specification and the Fetcher model; the theorems below show
   that their recursion bounds never cut a result short and give both a fuel-free reading) *)

(* every fuel of at least |W|+1 gives the result of `resolve` (whose own fuel is |W|+1) *)
Theorem C11_resolve_fuel_sufficient : forall W t f, S (length W) <= f -> resolve_aux W f t [t] = resolve W t.
Proof.
  intros W t f H. apply resolve_aux_m_agrees.
  apply (resolve_aux_m_mono W (S (length W))); [apply resolve_m_resolve | exact H].
Qed.
Print Assumptions C11_resolve_fuel_sufficient.

(* `resolve_aux_m` is `resolve_aux` with the out-of-fuel branch made visible (None): it agrees with
   resolve_aux whenever it answers ... *)
Theorem C11_resolve_marker_agrees : forall W f t seen x,
  resolve_aux_m W f t seen = Some x -> resolve_aux W f t seen = x.
Proof. exact resolve_aux_m_agrees. Qed.
Print Assumptions C11_resolve_marker_agrees.

(* ... and with the fuel of `resolve` it always answers: the out-of-fuel branch is never taken. *)
Theorem C11_resolve_never_out_of_fuel : forall W t, resolve_aux_m W (S (length W)) t [t] <> None.
Proof. exact resolve_never_out_of_fuel. Qed.
Print Assumptions C11_resolve_never_out_of_fuel.

(* fuel-free: resolve answers (h, Some f) exactly when h is the chain of current-revision redirect hops
   from t to f and f is a missing page or a page whose current revision is no redirect ... *)
Theorem C11_resolve_is_redirect_chain : forall W t h f,
  resolve W t = (h, Some f) <-> redir_path W t h f /\ terminal W f.
Proof. exact resolve_some_iff. Qed.
Print Assumptions C11_resolve_is_redirect_chain.

(* ... and yields no page exactly when the chain from t runs into a circle; *)
Theorem C11_resolve_none_is_circle : forall W t,
  snd (resolve W t) = None <-> exists h1 b c, redir_path W t h1 b /\ c <> [] /\ redir_path W b c b.
Proof.
  intros W t. split.
  - intros H. destruct (resolve W t) as [h fin] eqn:E. cbn [snd] in H. subst fin.
    apply (resolve_none_cycle W t h E).
  - intros [h1 [b [c [Hp1 [Hne Hc]]]]]. destruct (resolve W t) as [h [f|]] eqn:E; [|reflexivity].
    exfalso. apply resolve_some_iff in E. destruct E as [Hp Hf].
    exact (cycle_no_terminal W t h1 b c Hp1 Hc Hne h f Hp Hf).
Qed.
Print Assumptions C11_resolve_none_is_circle.

(* then all hops are reported up to and including the one that closes the circle. *)
Theorem C11_resolve_circle_hops : forall W t h, resolve W t = (h, None) ->
  exists h0 a b, h = h0 ++ [(a, b)] /\ redir_path W t h b /\ In b (t :: map snd h0).
Proof.
  intros W t h H. destruct (resolve_sound W t h None H) as [h0 [a [b [Heq [Hp [Hab Hin]]]]]].
  exists h0, a, b. split; [exact Heq|]. split; [|exact Hin].
  subst h. apply (redir_path_app W t h0 a Hp [(a, b)] b Hab).
Qed.
Print Assumptions C11_resolve_circle_hops.

(* a successful chain visits no title twice *)
Theorem C11_resolve_chain_nodup : forall W t h f, resolve W t = (h, Some f) -> NoDup (t :: map snd h).
Proof.
  intros W t h f H. pose proof (resolve_m_resolve W t) as Hm. rewrite H in Hm.
  destruct (resolve_aux_m_nodup W _ t [t] h (Some f) Hm) as [Hnd Hns].
  constructor; [|exact Hnd]. intros Hin. apply (Hns t Hin). left. reflexivity.
Qed.
Print Assumptions C11_resolve_chain_nodup.

(* the served revision does not depend on the fuel, and is the current, non-redirect revision at the end of the chain *)
Theorem C11_final_rev_fuel_irrelevant : forall W fuel t,
  S (length W) <= fuel -> final_rev_fuel W fuel t = final_rev W t.
Proof.
  intros W fuel t H. unfold final_rev_fuel, final_rev. rewrite (C11_resolve_fuel_sufficient W t fuel H). reflexivity.
Qed.
Print Assumptions C11_final_rev_fuel_irrelevant.

Theorem C11_final_rev_is_chain_end : forall W t r,
  final_rev W t = Some r <-> exists h f, redir_path W t h f /\ cur_of W f = Some r /\ r_redirect r = None.
Proof. exact final_rev_iff. Qed.
Print Assumptions C11_final_rev_is_chain_end.

(* template graphs may be circular: every fuel of at least |W| yields the same SET of images as `rendered`
   (whose own fuel is |W|); more fuel only repeats images *)
Theorem C11_rendered_fuel_sufficient : forall W r f i,
  length W <= f -> (In i (imgs_of W f r) <-> In i (rendered W r)).
Proof.
  intros W r f i Hf. unfold rendered.
  rewrite (imgs_of_is_reachability W f r i Hf), (imgs_of_is_reachability W (length W) r i (le_n _)). reflexivity.
Qed.
Print Assumptions C11_rendered_fuel_sufficient.

(* fuel-free: the rendered images are those of the revisions reachable through current template revisions *)
Theorem C11_rendered_is_reachability : forall W r i,
  In i (rendered W r) <-> exists r', treach W r r' /\ In i (r_imgs r').
Proof. exact rendered_is_reachability. Qed.
Print Assumptions C11_rendered_is_reachability.

(* the image answer for a list of titles, without any fuel *)
Theorem C11_used_titles_imgs_fuel_free : forall W ts i,
  In i (used_titles_imgs W ts) <->
  exists t h f r r', In t ts /\ redir_path W t h f /\ cur_of W f = Some r /\ r_redirect r = None /\
                     treach W r r' /\ In i (r_imgs r').
Proof.
  intros W ts i. unfold used_titles_imgs. rewrite in_flat_map. split.
  - intros [t [Ht Hi]]. destruct (final_rev W t) as [r|] eqn:E; [|destruct Hi].
    apply final_rev_iff in E. destruct E as [h [f [Hp [Ec Er]]]].
    apply rendered_is_reachability in Hi. destruct Hi as [r' [Hr Hi]].
    exists t, h, f, r, r'. repeat split; assumption.
  - intros [t [h [f [r [r' [Ht [Hp [Ec [Er [Hr Hi]]]]]]]]]]. exists t. split; [exact Ht|].
    assert (E : final_rev W t = Some r).
    { apply final_rev_iff. exists h, f. repeat split; assumption. }
    rewrite E. apply rendered_is_reachability. exists r'. split; assumption.
Qed.
Print Assumptions C11_used_titles_imgs_fuel_free.

(* non-vacuity: a redirect chain 2 -> 3 -> 1, a circle 4 -> 8 -> 4, a missing title, a fuel that IS too small,
   templates 5 <-> 6 that include each other *)
Example C11_fuel_example :
  resolve fx_W 2%N = ([(2, 3); (3, 1)]%N, Some 1%N) /\
  resolve fx_W 4%N = ([(4, 8); (8, 4)]%N, None) /\
  resolve fx_W 99%N = ([], Some 99%N) /\
  resolve_aux fx_W 2 2%N [2%N] <> resolve fx_W 2%N /\
  rendered fx_W (mkRev 10 None [5] [7])%N = [7; 9; 11; 9; 11; 9; 11; 9]%N /\
  imgs_of fx_W 1 (mkRev 10 None [5] [7])%N = [7; 9]%N.
Proof. vm_compute. repeat split; try reflexivity. intros H. discriminate. Qed.
Print Assumptions C11_fuel_example.

(* ------------------------------------------------------------------------------------------------------------
   Query continuation is PER QUERY (coq/C11/ModelContinue.v: merge_data, _handle_query_continue, _do_request of
   sapi.py; `gen_stop` is the `if` test of _handle_query_continue, translated from the source on every run by
   vt/gen/c11_sapi.py, which also pins the statements of the three functions and every write to `qccount`). *)

(* the translated give-up condition: a query is given up iff the wiki hands out again the continuation value it
   has just been sent - whatever the client's counter of continuation rounds says *)
Theorem C11_continue_stop_only_on_repeat : forall same qccount, gen_stop same qccount = same.
Proof. exact gen_stop_spec. Qed.
Print Assumptions C11_continue_stop_only_on_repeat.

(* one query: when the wiki serves the answer in slices sl along a chain of fresh continuation values, the client
   returns the merge of ALL slices, for every value of its counter, and counts one round per continuation *)
Theorem C11_continue_query_complete : forall srv q sl, Chain srv q None sl ->
  forall fuel n, (length sl <= fuel)%nat ->
  query gen_stop srv fuel n q = ((n + N.of_nat (pred (length sl)))%N, Some (full_answer sl)).
Proof. exact query_complete. Qed.
Print Assumptions C11_continue_query_complete.

(* no cross-query state: for ANY server (also one that repeats values or never ends) and ANY list of queries made
   one after the other on one client, every answer is the one a fresh client gives to that query alone *)
Theorem C11_continue_no_cross_query_state : forall srv fuel qs n,
  snd (run_queries gen_stop srv fuel n qs) = map (fun q => snd (query gen_stop srv fuel 0%N q)) qs.
Proof. exact run_queries_answers. Qed.
Print Assumptions C11_continue_no_cross_query_state.

(* hence in a fetch of any size every query is answered in full *)
Theorem C11_continue_every_query_of_a_fetch_complete : forall srv fuel qs n,
  (forall q, In q qs -> exists sl, Chain srv q None sl /\ (length sl <= fuel)%nat) ->
  forall i q, nth_error qs i = Some q ->
  exists sl, Chain srv q None sl /\
             nth_error (snd (run_queries gen_stop srv fuel n qs)) i = Some (Some (full_answer sl)).
Proof.
  intros srv fuel qs n Hall i q Hi.
  destruct (Hall q (nth_error_In _ _ Hi)) as [sl [Hc Hf]].
  exists sl. split; [exact Hc|].
  rewrite run_queries_answers. rewrite nth_error_map, Hi. cbn [option_map].
  now rewrite (query_complete _ _ _ Hc fuel 0%N Hf).
Qed.
Print Assumptions C11_continue_every_query_of_a_fetch_complete.

(* non-vacuity: two queries of three slices each, asked 1, 2, 1 on one client: 6 rounds, all answers complete *)
Example C11_continue_example :
  run_queries gen_stop (srv_of ex_script) 5 0%N [1; 2; 1]%N
  = (6, [Some [(7, [1;2;3;4;5]); (8, [9])]; Some [(8, [1;2;3])]; Some [(7, [1;2;3;4;5]); (8, [9])]])%N.
Proof. vm_compute. reflexivity. Qed.
Print Assumptions C11_continue_example.

(* the hypothesis matters: a give-up condition that looks at the counter (bound 3) makes the answer to a query
   depend on the queries made before it *)
Theorem C11_continue_counting_stop_refuted :
  exists srv fuel qs i, nth_error (snd (run_queries (stop_counting 3%N) srv fuel 0%N qs)) i
                     <> nth_error (map (fun q => snd (query (stop_counting 3%N) srv fuel 0%N q)) qs) i.
Proof. exists (srv_of ex_script), 5%nat, [1; 2; 1]%N, 2%nat. vm_compute. discriminate. Qed.
Print Assumptions C11_continue_counting_stop_refuted.

(* ------------------------------------------------------------------------------------------------------------
   The API result limit is invisible (quantifier: "result limits from 1 to 50 with continuation" - here ANY
   limit >= 1): `sliced_server limit db` serves the values db q of a query in slices of `limit` values with the
   next offset as continuation value (coq/C11/ModelSliced.v). *)

(* the slices form a chain of fresh continuation values whose merge is the whole list *)
Theorem C11_sliced_answers_chain : forall limit db q, (1 <= limit)%nat ->
  exists sl, Chain (sliced_server limit db) q None sl /\ (length sl <= S (length (db q)))%nat /\
             full_answer sl = [(q, db q)].
Proof. exact sliced_chain. Qed.
Print Assumptions C11_sliced_answers_chain.

(* one query, any limit, any value of the client's counter: all values are returned *)
Theorem C11_result_limit_invisible : forall limit db q fuel n, (1 <= limit)%nat -> (S (length (db q)) <= fuel)%nat ->
  snd (query gen_stop (sliced_server limit db) fuel n q) = Some [(q, db q)].
Proof. exact sliced_query_complete. Qed.
Print Assumptions C11_result_limit_invisible.

(* a fetch of any size (any list of queries on one client), any limit: every answer is the whole list *)
Theorem C11_result_limit_invisible_whole_fetch : forall limit db fuel qs n, (1 <= limit)%nat ->
  (forall q, In q qs -> (S (length (db q)) <= fuel)%nat) ->
  snd (run_queries gen_stop (sliced_server limit db) fuel n qs) = map (fun q => Some [(q, db q)]) qs.
Proof.
  intros limit db fuel qs n Hl Hf. rewrite run_queries_answers. apply map_ext_in.
  intros q Hq. apply sliced_query_complete; [exact Hl | apply Hf; exact Hq].
Qed.
Print Assumptions C11_result_limit_invisible_whole_fetch.

(* non-vacuity (limit 2, lists of 7 and 3 values, queries 1, 2, 1: 7 continuation rounds, all complete) and the
   same fetch with a give-up condition that counts all rounds (bound 3): the later queries are cut short *)
Example C11_sliced_example :
  run_queries gen_stop (sliced_server 2 ex_db) 8 0%N [1; 2; 1]%N
  = (7%N, [Some [(1, [11; 12; 13; 14; 15; 16; 17])]; Some [(2, [21; 22; 23])]; Some [(1, [11; 12; 13; 14; 15; 16; 17])]]%N) /\
  run_queries (stop_counting 3%N) (sliced_server 2 ex_db) 8 0%N [1; 2; 1]%N
  = (5%N, [Some [(1, [11; 12; 13; 14; 15; 16; 17])]; Some [(2, [21; 22])]; Some [(1, [11; 12])]]%N).
Proof. vm_compute. split; reflexivity. Qed.
Print Assumptions C11_sliced_example.

(* ------------------------------------------------------------------------------------------------------------
   sapi.merge_data on nested JSON values (coq/C11/ModelMerge.v; None = ValueError).  Its statements are pinned by
   vt/gen/c11_sapi.py; it is run against the real function on random nested values on every check. *)

(* lists are extended, atoms are left alone, values of different types do not merge *)
Theorem C11_merge_data_lists_extend : forall d s, merge_val (VList d) (VList s) = Some (VList (d ++ s)).
Proof. reflexivity. Qed.
Print Assumptions C11_merge_data_lists_extend.

Theorem C11_merge_data_type_mismatch : forall dst src,
  match dst, src with
  | VAtom _, VAtom _ | VList _, VList _ | VDict _, VDict _ => True
  | _, _ => merge_val dst src = None
  end.
Proof. intros [a|l|d] [b|m|s]; cbn; trivial. Qed.
Print Assumptions C11_merge_data_type_mismatch.

(* a key dst does not have is added at the end; a key it has is merged in place and nothing else moves *)
Theorem C11_merge_data_new_key : forall d k v, ~ In k (map fst d) ->
  merge_val (VDict d) (VDict [(k, v)]) = Some (VDict (d ++ [(k, v)])).
Proof. intros d k v Hn. rewrite merge_val_dict. cbn [go_with]. rewrite upd_with_new by exact Hn. reflexivity. Qed.
Print Assumptions C11_merge_data_new_key.

Theorem C11_merge_data_old_key : forall d1 d2 k x v, ~ In k (map fst d1) ->
  merge_val (VDict (d1 ++ (k, x) :: d2)) (VDict [(k, v)])
  = match merge_val x v with Some y => Some (VDict (d1 ++ (k, y) :: d2)) | None => None end.
Proof. exact merge_val_old_key. Qed.
Print Assumptions C11_merge_data_old_key.

(* the `merge` used by the continuation theorems above is merge_data on dicts of lists (same key order) *)
Theorem C11_merge_data_flat_case : forall a b, merge_val (of_flat a) (of_flat b) = Some (of_flat (merge a b)).
Proof. exact merge_val_flat. Qed.
Print Assumptions C11_merge_data_flat_case.

(* non-vacuity: {"pages": {"7": {"title": "T", "images": [1, 2]}}} merged with the next slice
   {"pages": {"7": {"title": "T", "images": [3]}, "8": {"title": "U"}}} (keys 1 = pages, 2 = title, 3 = images);
   a list met by a dict *)
Example C11_merge_data_example :
  (merge_val (VDict [(1, VDict [(7, VDict [(2, VAtom 100); (3, VList [1; 2])])])])
             (VDict [(1, VDict [(7, VDict [(2, VAtom 100); (3, VList [3])]); (8, VDict [(2, VAtom 101)])])])
   = Some (VDict [(1, VDict [(7, VDict [(2, VAtom 100); (3, VList [1; 2; 3])]); (8, VDict [(2, VAtom 101)])])]) /\
   merge_val (VDict [(1, VList [1])]) (VDict [(1, VDict [])]) = None)%N.
Proof. vm_compute. split; reflexivity. Qed.
Print Assumptions C11_merge_data_example.
