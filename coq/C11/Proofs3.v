(* C11 — what the initial calls promise is the schedule- and batch-free specification `fetched`;
   final theorems. *)
From Coq Require Import List NArith Bool Arith Lia.
From MW Require Import C11.Model C11.Proofs C11.Proofs2.
Import ListNotations.

Lemma unsched_nil : forall imgs, unsched [] imgs = imgs.
Proof. intros imgs. induction imgs as [|a l IH]; [reflexivity|]. unfold unsched in *. cbn [filter]. rewrite IH. reflexivity. Qed.

(* the items of a list of images, under the images option *)
Definition imgs_items (W : wiki) (fi : bool) (l : list title) : list item :=
  if fi then flat_map (img_items W) l else [].

Lemma imgs_items_app : forall W fi a b, imgs_items W fi (a ++ b) = imgs_items W fi a ++ imgs_items W fi b.
Proof. intros W fi a b. destruct fi; [apply flat_map_app | reflexivity]. Qed.

Lemma imgs_items_flat_map : forall W fi {A} (g : A -> list title) l,
  imgs_items W fi (flat_map g l) = flat_map (fun a => imgs_items W fi (g a)) l.
Proof.
  intros W fi A g l. destruct fi; cbn [imgs_items]; [apply flat_map_flat_map|].
  induction l as [|a l IH]; [reflexivity | exact IH].
Qed.

Lemma redir_items_flat_map : forall {A} (g : A -> list (title * title)) l,
  redir_items (flat_map g l) = flat_map (fun a => redir_items (g a)) l.
Proof.
  intros A g l. unfold redir_items. induction l as [|a l IH]; cbn [flat_map]; [reflexivity|].
  rewrite map_app, IH. reflexivity.
Qed.

(* with nothing scheduled yet, an enqueue call promises its redirects and everything about its images *)
Lemma fut_enq_nil : forall W (fi : bool) reds imgs,
  fut_enq W [] reds (if fi then imgs else []) = redir_items reds ++ imgs_items W fi imgs.
Proof. intros W fi reds imgs. unfold fut_enq. rewrite unsched_nil. destruct fi; reflexivity. Qed.

(* the answers for a list of titles (revisions) are the answers for its members, one after the other *)
Lemma used_titles_reds_each : forall W l, used_titles_reds W l = flat_map (fun t => used_titles_reds W [t]) l.
Proof. intros W l. apply flat_map_ext. intros t. cbn [used_titles_reds flat_map]. symmetry. apply app_nil_r. Qed.

Lemma used_titles_imgs_each : forall W l, used_titles_imgs W l = flat_map (fun t => used_titles_imgs W [t]) l.
Proof. intros W l. apply flat_map_ext. intros t. cbn [used_titles_imgs flat_map]. symmetry. apply app_nil_r. Qed.

Lemma used_revs_imgs_each : forall W l, used_revs_imgs W l = flat_map (fun rv => used_revs_imgs W [rv]) l.
Proof. intros W l. apply flat_map_ext. intros rv. cbn [used_revs_imgs flat_map]. symmetry. apply app_nil_r. Qed.

(* Both the specification and the initial calls are sums over the listed items: a title whose text is served
   contributes `title_items`, a listed revision `rev_items` and whatever the target of its redirect contributes. *)
Definition title_items (W : wiki) (fi : bool) (t : title) : list item :=
  art_title_items W t ++ imgs_items W fi (used_titles_imgs W [t]).

Definition rev_items (W : wiki) (fi : bool) (rv : revid) : list item :=
  art_rev_items W rv ++ imgs_items W fi (html_rev_imgs W rv ++ used_revs_imgs W [rv]).

Definition target (W : wiki) (rv : revid) : list title :=
  match find_rev W rv with
  | Some (_, r) => match r_redirect r with Some x => [x] | None => [] end
  | None => []
  end.

Lemma title_roots_targets : forall W M, title_roots W M = mb_titles M ++ flat_map (target W) (mb_revids M).
Proof. reflexivity. Qed.

Lemma fetched_per_item : forall W fi M,
  same (fetched W fi M) (flat_map (title_items W fi) (title_roots W M) ++ flat_map (rev_items W fi) (mb_revids M)).
Proof.
  intros W fi M.
  change (fetched W fi M) with
    ((flat_map (art_title_items W) (title_roots W M) ++ flat_map (art_rev_items W) (mb_revids M) ++
      imgs_items W fi (needed_imgs W M)) ++ imgs_items W fi (extra_imgs W M)).
  unfold needed_imgs, extra_imgs.
  rewrite imgs_items_app, used_titles_imgs_each, used_revs_imgs_each, !imgs_items_flat_map.
  unfold title_items, rev_items. rewrite !flat_map_pointwise_app.
  rewrite (flat_map_ext _ _ (fun rv => imgs_items_app W fi (html_rev_imgs W rv) (used_revs_imgs W [rv]))).
  rewrite flat_map_pointwise_app. auto 12 with sub.
Qed.

Lemma reds_in_title_items : forall W t, incl (redir_items (used_titles_reds W [t])) (art_title_items W t).
Proof.
  intros W t. unfold art_title_items, exp_title_items, used_titles_reds. cbn [flat_map]. rewrite app_nil_r.
  fold (redir_items (fst (resolve W t))). auto with sub.
Qed.

(* the three initial calls that concern title t: its parse, its share of the link-table request, its expansion *)
Lemma title_promise : forall W fi t,
  same (fut_call W fi [] (mk_enq fi [] (used_titles_imgs W [t])) ++
        (redir_items (used_titles_reds W [t]) ++ imgs_items W fi (used_titles_imgs W [t])) ++
        fut_call W fi [] (CExpTitle t))
       (title_items W fi t).
Proof.
  intros W fi t. pose proof (reds_in_title_items W t) as Hr.
  unfold mk_enq, title_items. cbn [fut_call]. rewrite fut_enq_nil. cbn [redir_items map app]. auto 9 with sub.
Qed.

(* expanding a listed revision promises the revision's own items and, if it redirects, all of its target's *)
Lemma exp_rev_promise : forall W fi rv,
  same (fut_call W fi [] (CExpRev rv)) (art_rev_items W rv ++ flat_map (title_items W fi) (target W rv)).
Proof.
  intros W fi rv. cbn [fut_call]. unfold art_rev_items, target. destruct (find_rev W rv) as [[p r]|]; [|reflexivity].
  destruct (r_redirect r) as [x|]; cbn [flat_map]; rewrite !app_nil_r; [|auto with sub].
  pose proof (reds_in_title_items W x) as Hr. rewrite fut_enq_nil. unfold title_items. auto 12 with sub.
Qed.

(* the three initial calls that concern revision rv: its parse, its share of the link-table request, its expansion *)
Lemma rev_promise : forall W fi rv,
  same (fut_call W fi [] (mk_enq fi [] (html_rev_imgs W rv)) ++ imgs_items W fi (used_revs_imgs W [rv]) ++
        fut_call W fi [] (CExpRev rv))
       (flat_map (title_items W fi) (target W rv) ++ rev_items W fi rv).
Proof.
  intros W fi rv. rewrite exp_rev_promise. unfold mk_enq, rev_items. cbn [fut_call].
  rewrite fut_enq_nil, imgs_items_app. cbn [redir_items map app]. auto 12 with sub.
Qed.

Lemma init_per_item : forall W L fi M,
  same (total W fi (init W L fi M))
       (flat_map (title_items W fi) (title_roots W M) ++ flat_map (rev_items W fi) (mb_revids M)).
Proof.
  intros W L fi M. unfold total, init, init_calls. cbn [stored pending scheduled todo desc_todo fut_desc flat_map]. cbv zeta.
  rewrite !app_nil_r. cbn [app]. rewrite !flat_map_app.
  (* a link-table request for a block promises what one request per member of the block would *)
  rewrite (flat_map_blocks (fun b => mk_enq fi (used_titles_reds W b) (used_titles_imgs W b)) (fut_call W fi [])
             (fun t => redir_items (used_titles_reds W [t]) ++ imgs_items W fi (used_titles_imgs W [t]))).
  2: { intros b. unfold mk_enq. cbn [fut_call].
       rewrite fut_enq_nil, used_titles_reds_each, used_titles_imgs_each, redir_items_flat_map, imgs_items_flat_map.
       symmetry. apply flat_map_pointwise_app. }
  rewrite (flat_map_blocks (fun b => mk_enq fi [] (used_revs_imgs W b)) (fut_call W fi [])
             (fun rv => imgs_items W fi (used_revs_imgs W [rv]))).
  2: { intros b. unfold mk_enq. cbn [fut_call].
       rewrite fut_enq_nil, used_revs_imgs_each, imgs_items_flat_map. reflexivity. }
  rewrite !flat_map_map, title_roots_targets, flat_map_app, flat_map_flat_map, <- app_assoc.
  rewrite <- (flat_map_same_ext _ _ (mb_titles M) (title_promise W fi)).
  rewrite <- flat_map_pointwise_app, <- (flat_map_same_ext _ _ (mb_revids M) (rev_promise W fi)).
  rewrite !flat_map_pointwise_app. auto 12 with sub.
Qed.

Lemma init_total : forall W L fi M, same (total W fi (init W L fi M)) (fetched W fi M).
Proof. intros W L fi M. rewrite fetched_per_item. apply init_per_item. Qed.

Lemma init_consistent : forall W L fi M, consistent (init W L fi M).
Proof. intros. unfold consistent, init. cbn. split; [reflexivity | congruence]. Qed.

Lemma complete_and_faithful : forall W M L fi sched,
  pending (run W L fi sched (init W L fi M)) = [] ->
  forall x, In x (stored (run W L fi sched (init W L fi M))) <-> In x (fetched W fi M).
Proof.
  intros W M L fi sched Hfin. apply same_iff.
  rewrite (closure W L fi sched _ (init_consistent W L fi M) Hfin). apply init_total.
Qed.

Lemma fetched_extra : forall W fi M x, In x (fetched W fi M) -> ~ In x (needed W fi M) ->
  fi = true /\ exists rv p r i, In rv (mb_revids M) /\ find_rev W rv = Some (p, r) /\
     In i (match current p with Some c => rendered W c | None => [] end) /\ In x (img_items W i).
Proof.
  intros W fi M x H Hn. unfold fetched in H. apply in_app_or in H. destruct H as [H|H]; [contradiction|].
  destruct fi; [|destruct H]. split; [reflexivity|].
  unfold extra_imgs, used_revs_imgs in H. apply in_flat_map in H. destruct H as [i [Hi Hx]].
  apply in_flat_map in Hi. destruct Hi as [rv [Hrv Hi]].
  destruct (find_rev W rv) as [[p r]|] eqn:Hf; [|destruct Hi].
  exists rv, p, r, i. tauto.
Qed.

Lemma art_not_in_auth_items : forall W k t r src, ~ In (IArt t r src) (auth_items W k).
Proof.
  intros W k t r src H. unfold auth_items in H. destruct (resolve W k) as [h [f|]]; cbn in H; intuition discriminate.
Qed.

Lemma art_not_in_img_items : forall W l t r src, ~ In (IArt t r src) (flat_map (img_items W) l).
Proof.
  intros W l t r src H. apply in_flat_map in H. destruct H as [i [_ H]]. unfold img_items in H.
  destruct (img_ok W i); [|destruct H]. cbn [app In] in H. destruct H as [H|[H|H]]; try discriminate.
  apply in_app_or in H. destruct H as [H|H].
  - destruct (page_exists W i); cbn in H; intuition discriminate.
  - apply art_not_in_auth_items in H. exact H.
Qed.

Lemma in_art_title_items : forall W t' t r src, In (IArt t r src) (art_title_items W t') ->
  t = t' /\ r = None /\ exists rv, final_rev W t = Some rv /\ src = r_id rv.
Proof.
  intros W t' t r src H. unfold art_title_items, exp_title_items in H. rewrite !in_app_iff in H.
  destruct H as [[H|H]|H].
  - apply in_map_iff in H. destruct H as [h [Hh _]]. discriminate.
  - destruct (final_rev W t') as [rv|] eqn:Hf; [|destruct H]. destruct H as [H|[]]. inversion H. subst.
    split; [reflexivity|]. split; [reflexivity|]. exists rv. split; [exact Hf | reflexivity].
  - destruct (final_rev W t'); [|destruct H]. apply art_not_in_auth_items in H. destruct H.
Qed.

Lemma in_art_rev_items : forall W rv t r src, In (IArt t r src) (art_rev_items W rv) ->
  exists p rr, find_rev W rv = Some (p, rr) /\ t = p_title p /\ r = Some (r_id rr) /\ src = r_id rr.
Proof.
  intros W rv t r src H. unfold art_rev_items in H. destruct (find_rev W rv) as [[p rr]|] eqn:Hf; [|destruct H].
  apply in_app_or in H. destruct H as [H|H]; [|apply art_not_in_auth_items in H; destruct H].
  unfold exp_rev_items in H. apply in_app_or in H. destruct H as [H|H].
  - destruct (r_redirect rr); [|destruct H]. destruct (is_current p rr); cbn in H; intuition discriminate.
  - destruct H as [H|[]]. inversion H. subst. exists p, rr. tauto.
Qed.

Lemma find_rev_in_id : forall rs rv r, find_rev_in rs rv = Some r -> r_id r = rv.
Proof.
  intros rs rv r. induction rs as [|a l IH]; cbn [find_rev_in]; [discriminate|].
  destruct (N.eqb (r_id a) rv) eqn:Ea; [|exact IH].
  intros E. injection E as E. subst a. apply N.eqb_eq. exact Ea.
Qed.

Lemma find_rev_id : forall W rv p r, find_rev W rv = Some (p, r) -> r_id r = rv.
Proof.
  intros W rv p r. induction W as [|q W' IH]; cbn [find_rev]; [discriminate|].
  destruct (find_rev_in (p_revs q) rv) as [r0|] eqn:Hq; [|exact IH].
  intros E. injection E as _ E. subst r0. exact (find_rev_in_id _ _ _ Hq).
Qed.

(* articles: what is fetched is what the wiki serves; nothing is fetched for what does not exist *)
Lemma fetched_articles_faithful : forall W fi M t r src, In (IArt t r src) (fetched W fi M) ->
  (r = None /\ In t (title_roots W M) /\ exists rv, final_rev W t = Some rv /\ src = r_id rv) \/
  (r = Some src /\ In src (mb_revids M) /\ exists p rr, find_rev W src = Some (p, rr) /\ t = p_title p /\ r_id rr = src).
Proof.
  intros W fi M t r src H. unfold fetched, needed in H. rewrite !in_app_iff in H.
  destruct H as [[H|[H|H]]|H].
  - apply in_flat_map in H. destruct H as [t' [Ht' H]]. apply in_art_title_items in H. destruct H as [E1 [E2 H]].
    subst. left. split; [reflexivity|]. split; [exact Ht' | exact H].
  - apply in_flat_map in H. destruct H as [rv [Hrv H]].
    apply in_art_rev_items in H. destruct H as [p [rr [Hf [Et [Er Es]]]]].
    assert (Erv : rv = src) by (rewrite Es; symmetry; exact (find_rev_id W rv p rr Hf)). subst rv.
    right. split; [rewrite Er, <- Es; reflexivity|]. split; [exact Hrv|].
    exists p, rr. split; [exact Hf|]. split; [exact Et | symmetry; exact Es].
  - destruct fi; [|destruct H]. apply art_not_in_img_items in H. destruct H.
  - destruct fi; [|destruct H]. apply art_not_in_img_items in H. destruct H.
Qed.

(* the loop of _lookup_contributors before /repo commit 4906af9: it iterates the pending list of the api, which
   nothing ever fills (_add_to_titles_pending_contributor_lookup, fetch.py:749-765, looks every title up individually) *)
Definition lookup_contributors_unfixed (W : wiki) (pending_titles : list title) (asked : title) : list item :=
  flat_map (fun t => if N.eqb t asked then auth_items W t else []) pending_titles.

Definition ex_W : wiki :=
  [ mkPage 1 false 2 [(1, false); (2, true)] [mkRev 10 None [] [7]; mkRev 11 None [5] []];
    mkPage 2 false 0 [] [mkRev 20 (Some 3) [] []];
    mkPage 3 false 0 [] [mkRev 30 (Some 1) [] []];
    mkPage 4 false 0 [] [mkRev 40 (Some 4) [] []];
    mkPage 5 false 0 [] [mkRev 50 None [] [6]];
    mkPage 6 true 1 [(3, false)] [mkRev 60 None [] []];
    mkPage 7 true 0 [(4, false)] [mkRev 70 None [] []] ]%N.
Definition ex_M : metabook := [(2, None); (4, None); (9, None); (1, Some 10)]%N.
Definition ex_sched : list op := map (fun n => (n, Nat.even n)) (seq 0 60).

(* x is the text stored for title t, listed by name (no revision id) *)
Definition art_of_title (t : title) (x : item) : bool :=
  match x with IArt t' None _ => N.eqb t' t | _ => false end.

Lemma no_art_of_title : forall t l, existsb (art_of_title t) l = false -> forall src, ~ In (IArt t None src) l.
Proof.
  intros t l H src Hin. assert (E : existsb (art_of_title t) l = true).
  { apply existsb_exists. exists (IArt t None src). split; [exact Hin | apply N.eqb_refl]. }
  rewrite E in H. discriminate.
Qed.

Lemma example_run :
  let s := run ex_W 1 true ex_sched (init ex_W 1 true ex_M) in
  Nat.leb (measure ex_W (init ex_W 1 true ex_M)) 60 = true /\ final s = true /\
  In (IArt 2 None 11)%N (stored s) /\ In (IArt 1 (Some 10) 10)%N (stored s) /\
  In (IFile 6)%N (stored s) /\ In (IFile 7)%N (stored s) /\ In (IDesc 6)%N (stored s) /\
  In (IAuth 2 [1] 2)%N (stored s) /\ In (IAuth 6 [3] 1)%N (stored s) /\
  (forall src, ~ In (IArt 4 None src)%N (stored s)) /\ (forall src, ~ In (IArt 9 None src)%N (stored s)).
Proof.
  cbv zeta. set (s := run ex_W 1 true ex_sched (init ex_W 1 true ex_M)).
  split; [vm_compute; reflexivity|]. split; [vm_compute; reflexivity|].
  (* the archive, evaluated once *)
  let l := eval vm_compute in (stored s) in assert (E : stored s = l) by (vm_compute; reflexivity).
  rewrite E. clear E s.
  do 7 (split; [repeat first [left; reflexivity | right]|]).
  split; apply no_art_of_title; reflexivity.
Qed.
