(* C11 — query continuation is per query: lemmas about ModelContinue.v with the stop condition translated from
   sapi.py (Gen_continue.v). *)
From Coq Require Import List NArith Bool Lia.
From MW Require Import C11.ModelContinue C11.Gen_continue.
Import ListNotations.
Local Open Scope N_scope.

(* The translated `if` test of _handle_query_continue gives a query up exactly when the wiki repeats the
   continuation value it has just been sent, whatever the client has counted so far. *)
Lemma gen_stop_spec : forall same n, gen_stop same n = same.
Proof. intros same n. reflexivity. Qed.

Lemma handle_spec : forall n v last, handle_query_continue gen_stop n v last = (n + 1, same_qc v last).
Proof. intros n v last. unfold handle_query_continue. now rewrite gen_stop_spec. Qed.

Lemma same_qc_false : forall v kw, kw <> Some v -> same_qc v kw = false.
Proof.
  intros v [l|] Hne; cbn [same_qc]; [|reflexivity].
  destruct (N.eqb v l) eqn:E; [|reflexivity].
  apply N.eqb_eq in E. subst l. now elim Hne.
Qed.

(* completeness of one query, any accumulated result, any counter value *)
Lemma do_request_chain : forall srv q sl kw, Chain srv q kw sl ->
  forall fuel n acc, (length sl <= fuel)%nat ->
  do_request gen_stop srv fuel n q kw kw acc = (n + N.of_nat (pred (length sl)), Some (fold_left merge sl acc)).
Proof.
  intros srv q sl kw Hc.
  induction Hc as [kw d Hs | kw d v sl Hs Hne Hc IH]; intros fuel n acc Hf.
  - destruct fuel as [|f]; [cbn [length] in Hf; lia|].
    cbn [do_request]. rewrite Hs. cbn [length pred fold_left N.of_nat]. now rewrite N.add_0_r.
  - destruct fuel as [|f]; [cbn [length] in Hf; lia|].
    cbn [do_request]. rewrite Hs. rewrite handle_spec. rewrite (same_qc_false _ _ Hne).
    cbn [length] in Hf. rewrite IH by lia.
    cbn [fold_left length pred].
    f_equal. destruct sl as [|d' sl']; [inversion Hc|]. cbn [length pred]. lia.
Qed.

Lemma query_complete : forall srv q sl, Chain srv q None sl ->
  forall fuel n, (length sl <= fuel)%nat ->
  query gen_stop srv fuel n q = (n + N.of_nat (pred (length sl)), Some (full_answer sl)).
Proof. intros srv q sl Hc fuel n Hf. unfold query, full_answer. now apply do_request_chain. Qed.

(* the answer of a query does not depend on the counter: for ANY server (also one that repeats continuation
   values, or never ends: then both sides give the query up / run out of fuel at the same request) *)
Lemma do_request_counter_irrelevant : forall srv fuel n n' q kw last acc,
  snd (do_request gen_stop srv fuel n q kw last acc) = snd (do_request gen_stop srv fuel n' q kw last acc).
Proof.
  intros srv fuel. induction fuel as [|f IH]; intros n n' q kw last acc; [reflexivity|].
  cbn [do_request]. destruct (srv q kw) as [d [v|]]; [|reflexivity].
  rewrite !handle_spec. destruct (same_qc v last); [reflexivity|]. apply IH.
Qed.

Lemma run_queries_answers : forall srv fuel qs n,
  snd (run_queries gen_stop srv fuel n qs) = map (fun q => snd (query gen_stop srv fuel 0 q)) qs.
Proof.
  intros srv fuel qs. induction qs as [|q r IH]; intros n; [reflexivity|].
  cbn [run_queries map].
  destruct (query gen_stop srv fuel n q) as [n1 a] eqn:E1.
  specialize (IH n1). destruct (run_queries gen_stop srv fuel n1 r) as [n2 rest] eqn:E2.
  cbn [snd] in *. f_equal; [|exact IH].
  change a with (snd (n1, a)). rewrite <- E1. unfold query. apply do_request_counter_irrelevant.
Qed.

(* the counter only counts: after the fetch it is the sum of the rounds *)
Lemma run_queries_counter : forall srv fuel qs n,
  fst (run_queries gen_stop srv fuel n qs) = fold_left (fun c q => fst (query gen_stop srv fuel c q)) qs n.
Proof.
  intros srv fuel qs. induction qs as [|q r IH]; intros n; [reflexivity|].
  cbn [run_queries fold_left].
  destruct (query gen_stop srv fuel n q) as [n1 a] eqn:E1.
  specialize (IH n1). destruct (run_queries gen_stop srv fuel n1 r) as [n2 rest] eqn:E2.
  cbn [fst] in *. exact IH.
Qed.

Definition ex_script : script :=
  [ (1, [ ([(7, [1;2])], Some 10); ([(7, [3;4])], Some 11); ([(7, [5]); (8, [9])], None) ]);
    (2, [ ([(8, [1])], Some 20); ([(8, [2])], Some 21); ([(8, [3])], None) ]) ].

Lemma ex_chain_1 : Chain (srv_of ex_script) 1 None [[(7, [1;2])]; [(7, [3;4])]; [(7, [5]); (8, [9])]].
Proof.
  eapply Chain_more; [reflexivity|discriminate|].
  eapply Chain_more; [reflexivity|intro H; inversion H|].
  apply Chain_end. reflexivity.
Qed.

(* a give-up test that also looks at the client's counter of ALL continuation rounds: stop on a repeated answer
   or once the counter exceeds `bound` *)
Definition stop_counting (bound : N) (same : bool) (qccount : N) : bool := same || (bound <? qccount).
