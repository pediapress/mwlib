(* C11 — lists compared as sets (`same`), blocks, the termination measure, the shape of a scheduling step. *)
From Coq Require Import List NArith Bool Arith Lia Setoid Morphisms.
From MW Require Import C11.Model.
Import ListNotations.

Lemma memN_In : forall x l, memN x l = true <-> In x l.
Proof.
  intros x l. unfold memN. rewrite existsb_exists. split.
  - intros [y [Hy He]]. apply N.eqb_eq in He. subst. exact Hy.
  - intros H. exists x. split; [exact H | apply N.eqb_refl].
Qed.

Lemma memN_false : forall x l, memN x l = false <-> ~ In x l.
Proof.
  intros x l. rewrite <- memN_In. destruct (memN x l).
  - split; intros H; [discriminate | exfalso; apply H; reflexivity].
  - split; intros H; [discriminate | reflexivity].
Qed.

Lemma nth_remove_In : forall {A} (l : list A) i d x, i < length l ->
  (In x l <-> x = nth i l d \/ In x (remove_nth i l)).
Proof.
  intros A l. induction l as [|a l IH]; intros i d x Hi; cbn in Hi; [lia|].
  destruct i as [|i]; cbn [nth remove_nth].
  - cbn. split; intros [H|H]; auto.
  - assert (Hi' : i < length l) by lia. specialize (IH i d x Hi'). cbn. rewrite IH. tauto.
Qed.

Lemma flat_map_map : forall {A B C} (g : A -> B) (f : B -> list C) l,
  flat_map f (map g l) = flat_map (fun a => f (g a)) l.
Proof. intros A B C g f l. induction l as [|a l IH]; cbn; [reflexivity | rewrite IH; reflexivity]. Qed.

Lemma map_filter_flat_map : forall {A B} (g : A -> B) (p : A -> bool) l,
  map g (filter p l) = flat_map (fun a => if p a then [g a] else []) l.
Proof.
  intros A B g p l. induction l as [|a l IH]; [reflexivity|]. cbn [filter flat_map].
  destruct (p a); cbn [map app]; rewrite IH; reflexivity.
Qed.

Lemma NoDup_app_r : forall {A} (a b : list A), NoDup (a ++ b) -> NoDup b.
Proof.
  intros A a. induction a as [|x a IH]; intros b H.
  - exact H.
  - cbn [app] in H. inversion H as [|y l Hn Hnd]; subst. apply IH. exact Hnd.
Qed.

(* Archives, futures and work lists are compared as sets.  An inclusion between concatenations is found by
   `auto with sub`: split the left-hand side, then find each part on the right or inside a hypothesis. *)
Definition same {A} (a b : list A) : Prop := incl a b /\ incl b a.

Create HintDb sub.
#[global] Hint Resolve incl_refl incl_nil_l incl_app conj | 0 : sub.
#[global] Hint Resolve incl_appl incl_appr | 2 : sub.
#[global] Hint Unfold same : sub.

Lemma same_iff : forall {A} (a b : list A), same a b <-> forall x, In x a <-> In x b.
Proof.
  intros A a b. split.
  - intros [H1 H2] x. split; [apply H1 | apply H2].
  - intros H. split; intros x; apply H.
Qed.

#[global] Instance same_equiv {A} : Equivalence (@same A).
Proof.
  split.
  - intros a. split; apply incl_refl.
  - intros a b [H1 H2]. split; assumption.
  - intros a b c [H1 H2] [H3 H4]. split; eapply incl_tran; eassumption.
Qed.

#[global] Instance app_same {A} : Proper (same ==> same ==> same) (@app A).
Proof. intros a a' [H1 H2] b b' [H3 H4]. split; auto with sub. Qed.

Lemma incl_flat_map : forall {A B} (f g : A -> list B) r l,
  (forall a, incl (f a) (g a ++ r)) -> incl (flat_map f l) (flat_map g l ++ r).
Proof.
  intros A B f g r l H. induction l as [|a l IH]; cbn [flat_map]; [apply incl_nil_l|].
  apply incl_app; [apply (incl_tran (H a)) | apply (incl_tran IH)]; auto with sub.
Qed.

Lemma incl_flat_map_l : forall {A B} (f : A -> list B) l l', incl l l' -> incl (flat_map f l) (flat_map f l').
Proof.
  intros A B f l l' H x Hx. apply in_flat_map in Hx. destruct Hx as [a [Ha Hx]].
  apply in_flat_map. exists a. split; [apply H; exact Ha | exact Hx].
Qed.

#[global] Instance flat_map_same {A B} (f : A -> list B) : Proper (same ==> same) (flat_map f).
Proof. intros l l' [H1 H2]. split; apply incl_flat_map_l; assumption. Qed.

Lemma flat_map_same_ext : forall {A B} (f g : A -> list B) l,
  (forall a, same (f a) (g a)) -> same (flat_map f l) (flat_map g l).
Proof.
  intros A B f g l H. induction l as [|a l IH]; cbn [flat_map]; [reflexivity|]. rewrite (H a), IH. reflexivity.
Qed.

Lemma flat_map_pointwise_app : forall {A B} (f g : A -> list B) l,
  same (flat_map (fun a => f a ++ g a) l) (flat_map f l ++ flat_map g l).
Proof.
  intros A B f g l. induction l as [|a l IH]; cbn [flat_map]; [reflexivity|]. rewrite IH. auto 9 with sub.
Qed.

Lemma flat_map_flat_map : forall {A B C} (f : A -> list B) (g : B -> list C) l,
  flat_map g (flat_map f l) = flat_map (fun a => flat_map g (f a)) l.
Proof.
  intros A B C f g l. induction l as [|a l IH]; cbn [flat_map]; [reflexivity|]. rewrite flat_map_app, IH. reflexivity.
Qed.

Lemma flat_map_nth_remove : forall {A B} (f : A -> list B) l i d, i < length l ->
  same (flat_map f l) (f (nth i l d) ++ flat_map f (remove_nth i l)).
Proof.
  intros A B f l. induction l as [|a l IH]; intros i d Hi; cbn in Hi; [lia|].
  destruct i as [|i]; cbn [nth remove_nth flat_map]; [reflexivity|].
  rewrite (IH i d) by lia. auto 9 with sub.
Qed.

Lemma sumw_app : forall W a b, sumw W (a ++ b) = sumw W a + sumw W b.
Proof. intros W a b. induction a as [|c a IH]; cbn; [reflexivity | rewrite IH; lia]. Qed.

Lemma sumw_nth_remove : forall W l i d, i < length l ->
  sumw W l = weight W (nth i l d) + sumw W (remove_nth i l).
Proof.
  intros W l. induction l as [|a l IH]; intros i d Hi; cbn in Hi; [lia|].
  destruct i as [|i]; cbn [nth remove_nth sumw].
  - reflexivity.
  - assert (Hi' : i < length l) by lia. specialize (IH i d Hi'). rewrite IH. lia.
Qed.

Lemma sumw_map_const1 : forall W {A} (f : A -> call) l, (forall a, weight W (f a) = 1) -> sumw W (map f l) = length l.
Proof. intros W A f l H. induction l as [|a l IH]; cbn; [reflexivity|]. rewrite H. rewrite IH. reflexivity. Qed.

Lemma chunks_In : forall {A} fuel k (l : list A) x, length l <= fuel ->
  ((exists b, In b (chunks fuel (S k) l) /\ In x b) <-> In x l).
Proof.
  intros A fuel k. induction fuel as [|f IH]; intros l x Hl.
  - destruct l; cbn in Hl; [|lia]. cbn. split; [intros [b [[] _]] | intros []].
  - destruct l as [|a l].
    + cbn. split; [intros [b [[] _]] | intros []].
    + cbn [chunks].
      assert (Hsk : length (skipn (S k) (a :: l)) <= f).
      { rewrite skipn_length. cbn [length] in *. lia. }
      specialize (IH (skipn (S k) (a :: l)) x Hsk).
      split.
      * intros [b [[Hb|Hb] Hx]].
        -- subst b. rewrite <- (firstn_skipn (S k) (a :: l)). apply in_or_app. left. exact Hx.
        -- rewrite <- (firstn_skipn (S k) (a :: l)). apply in_or_app. right. apply IH. exists b. split; assumption.
      * intros Hx. rewrite <- (firstn_skipn (S k) (a :: l)) in Hx. apply in_app_or in Hx. destruct Hx as [Hx|Hx].
        -- exists (firstn (S k) (a :: l)). split; [left; reflexivity | exact Hx].
        -- apply IH in Hx. destruct Hx as [b [Hb Hx]]. exists b. split; [right; exact Hb | exact Hx].
Qed.

Lemma split_blocks_In : forall {A} L (l : list A) x,
  ((exists b, In b (split_blocks L l) /\ In x b) <-> In x l).
Proof. intros A L l x. unfold split_blocks, bl. apply chunks_In. lia. Qed.

(* one call per block promises what one call per element would, so the batch size does not matter *)
Lemma flat_map_blocks : forall {A B C} (mk : list A -> C) (F : C -> list B) (f : A -> list B),
  (forall b, same (F (mk b)) (flat_map f b)) ->
  forall L l, same (flat_map F (map mk (split_blocks L l))) (flat_map f l).
Proof.
  intros A B C mk F f HF L l. apply same_iff. intros x. rewrite flat_map_map, !in_flat_map. split.
  - intros [b [Hb Hx]]. apply (proj1 (HF b)) in Hx. apply in_flat_map in Hx. destruct Hx as [i [Hi Hx]].
    exists i. split; [|exact Hx]. apply (split_blocks_In L l i). exists b. split; assumption.
  - intros [i [Hi Hx]]. apply (split_blocks_In L l i) in Hi. destruct Hi as [b [Hb Hi]].
    exists b. split; [exact Hb|]. apply (proj2 (HF b)). apply in_flat_map. exists i. split; assumption.
Qed.

Lemma chunks_length : forall {A} fuel k (l : list A), length (chunks fuel (S k) l) <= length l.
Proof.
  intros A fuel k. induction fuel as [|f IH]; intros l; cbn [chunks]; [cbn; lia|].
  destruct l as [|a l]; [cbn; lia|].
  cbn [length]. specialize (IH (skipn (S k) (a :: l))). rewrite skipn_length in IH. cbn [length] in IH. lia.
Qed.

Lemma chunks_info_weight : forall W fuel k (l : list title),
  sumw W (map CInfo (chunks fuel (S k) l)) <= 7 * length l.
Proof.
  intros W fuel k. induction fuel as [|f IH]; intros l; cbn [chunks]; [cbn; lia|].
  destruct l as [|a l]; [cbn; lia|].
  cbn [map sumw weight].
  specialize (IH (skipn (S k) (a :: l))).
  assert (Hlen : length (firstn (S k) (a :: l)) + length (skipn (S k) (a :: l)) = length (a :: l)).
  { rewrite <- (firstn_skipn (S k) (a :: l)) at 3. rewrite app_length. reflexivity. }
  assert (Hpos : 1 <= length (firstn (S k) (a :: l))) by (cbn; lia).
  lia.
Qed.

Lemma enqueue_length : forall imgs td sch, length (fst (enqueue imgs td sch)) <= length td + length imgs.
Proof.
  intros imgs. induction imgs as [|i rest IH]; intros td sch; cbn [enqueue].
  - cbn. lia.
  - destruct (memN i sch).
    + specialize (IH td sch). cbn [length]. lia.
    + specialize (IH (td ++ [i]) (sch ++ [i])). rewrite app_length in IH. cbn [length] in *. lia.
Qed.

Lemma measure_add : forall W s its cs, measure W (add s its cs) = measure W s + sumw W cs.
Proof. intros W s its cs. unfold measure, add. cbn. rewrite sumw_app. lia. Qed.

Lemma filter_length_le : forall {A} (f : A -> bool) l, length (filter f l) <= length l.
Proof. intros A f l. induction l as [|a l IH]; cbn; [lia|]. destruct (f a); cbn; lia. Qed.

Lemma mk_enq_weight : forall W fi reds imgs, weight W (mk_enq fi reds imgs) <= 1 + 8 * length imgs.
Proof. intros W fi reds imgs. unfold mk_enq. destruct fi; cbn; lia. Qed.

Lemma exec_measure : forall W L fi c s, measure W (exec W L fi c s) < measure W s + weight W c.
Proof.
  intros W L fi c s. destruct c as [reds imgs|t|rv|k|block|i| |block]; cbn [exec].
  - pose proof (enqueue_length imgs (todo s) (scheduled s)) as Hl.
    destruct (enqueue imgs (todo s) (scheduled s)) as [td sch] eqn:He. cbn [fst] in Hl.
    unfold measure. cbn [pending todo desc_todo weight]. lia.
  - rewrite measure_add. cbn [weight]. destruct (final_rev W t); cbn; lia.
  - cbn [weight]. destruct (find_rev W rv) as [[p r]|]; [|lia].
    rewrite measure_add. destruct (r_redirect r) as [x|].
    + cbn [app sumw weight].
      pose proof (mk_enq_weight W fi (used_titles_reds W [x]) (used_titles_imgs W [x])). lia.
    + cbn. lia.
  - rewrite measure_add. cbn. lia.
  - cbn [weight]. cbv zeta.
    pose proof (filter_length_le (img_ok W) block) as Hf. fold (info_ok W block) in Hf.
    set (ok := info_ok W block) in *.
    assert (Hs1 : measure W (add s (map IInfo ok) (map CDownload ok)) = measure W s + length ok).
    { rewrite measure_add. rewrite sumw_map_const1 by reflexivity. reflexivity. }
    destruct ok as [|o ok'] eqn:Hok.
    + rewrite Hs1. cbn [length]. lia.
    + cbn [desc_todo add]. destruct (desc_todo s) as [l|] eqn:Hd.
      * unfold measure in *. cbn [pending todo desc_todo add] in *. rewrite Hd in *. rewrite app_length. cbn [length] in *. lia.
      * unfold measure in *. cbn [pending todo desc_todo add] in *. rewrite Hd in *. rewrite sumw_app. cbn [sumw weight length] in *.
        lia.
  - rewrite measure_add. cbn. lia.
  - cbn [weight]. destruct (desc_todo s) as [l|] eqn:Hd; [|lia].
    unfold measure. cbn [pending todo desc_todo]. rewrite Hd. rewrite !sumw_app.
    rewrite (sumw_map_const1 W CDesc) by reflexivity. rewrite (sumw_map_const1 W CEdits) by reflexivity.
    pose proof (chunks_length (length l) (Nat.pred L) l) as Hc. unfold split_blocks, bl. lia.
  - rewrite measure_add. cbn. lia.
Qed.

Lemma dispatch_measure : forall W L s, measure W (dispatch L s) <= measure W s.
Proof.
  intros W L s. unfold measure, dispatch. cbn [pending todo desc_todo length]. rewrite sumw_app.
  pose proof (chunks_info_weight W (length (todo s)) (Nat.pred L) (todo s)) as H.
  unfold split_blocks, bl. lia.
Qed.

(* the state a completing call sees: itself taken out of `pending` *)
Definition without (i : nat) (s : state) : state :=
  mkState (remove_nth i (pending s)) (scheduled s) (todo s) (desc_todo s) (stored s).

(* a step on a non-final state completes some pending call and then possibly dispatches; it does dispatch
   when nothing is pending any more *)
Lemma step_cases : forall W L fi s o, pending s <> [] ->
  exists i, i < length (pending s) /\
    let s1 := exec W L fi (nth i (pending s) CHandle) (without i s) in
    (step W L fi s o = s1 /\ pending s1 <> []) \/ step W L fi s o = dispatch L s1.
Proof.
  intros W L fi s o Hne. unfold step, without. destruct (pending s) as [|c0 rest]; [congruence|].
  set (i := Nat.modulo (fst o) (length (c0 :: rest))).
  assert (Hi : i < length (c0 :: rest)) by (apply Nat.mod_upper_bound; discriminate).
  exists i. split; [exact Hi|]. rewrite (nth_indep (c0 :: rest) c0 CHandle Hi). cbv zeta.
  destruct (snd o); [right; reflexivity|]. cbn [orb].
  destruct (pending (exec W L fi _ _)); [right; reflexivity | left; split; [reflexivity | discriminate]].
Qed.

Lemma measure_without : forall W s i, i < length (pending s) ->
  measure W (without i s) + weight W (nth i (pending s) CHandle) = measure W s.
Proof.
  intros W s i Hi. unfold measure, without. cbn [pending todo desc_todo].
  rewrite (sumw_nth_remove W (pending s) i CHandle Hi). lia.
Qed.

Lemma step_measure : forall W L fi s o, pending s <> [] -> measure W (step W L fi s o) < measure W s.
Proof.
  intros W L fi s o Hne. destruct (step_cases W L fi s o Hne) as [i [Hi Hs]].
  pose proof (exec_measure W L fi (nth i (pending s) CHandle) (without i s)) as He.
  pose proof (measure_without W s i Hi) as Hm.
  destruct Hs as [[Hs _]|Hs]; rewrite Hs.
  - lia.
  - pose proof (dispatch_measure W L (exec W L fi (nth i (pending s) CHandle) (without i s))). lia.
Qed.

Lemma pending_dec : forall s, pending s = [] \/ pending s <> [].
Proof. intros s. destruct (pending s); [left; reflexivity | right; discriminate]. Qed.

Lemma step_final : forall W L fi s o, pending s = [] -> step W L fi s o = s.
Proof. intros W L fi s o H. unfold step. rewrite H. reflexivity. Qed.

Lemma run_final : forall W L fi sched s, pending s = [] -> run W L fi sched s = s.
Proof.
  intros W L fi sched. induction sched as [|o sched IH]; intros s H; cbn; [reflexivity|].
  rewrite step_final by exact H. apply IH. exact H.
Qed.

Lemma run_invariant : forall W L fi (P : state -> Prop), (forall s o, P s -> P (step W L fi s o)) ->
  forall sched s, P s -> P (run W L fi sched s).
Proof.
  intros W L fi P HP sched. induction sched as [|o sched IH]; intros s H; [exact H|].
  apply IH. apply HP. exact H.
Qed.

Lemma measure_pos : forall W s, pending s <> [] -> 1 <= measure W s.
Proof.
  intros W s H. unfold measure. destruct (pending s) as [|c rest]; [congruence|]. cbn [sumw].
  assert (1 <= weight W c) by (destruct c; cbn; lia). lia.
Qed.

Lemma terminates : forall W L fi sched s, measure W s <= length sched -> pending (run W L fi sched s) = [].
Proof.
  intros W L fi sched. induction sched as [|o sched IH]; intros s Hm; destruct (pending_dec s) as [Hp|Hne].
  - exact Hp.
  - pose proof (measure_pos W s Hne). cbn [length] in Hm. lia.
  - rewrite run_final by exact Hp. exact Hp.
  - pose proof (step_measure W L fi s o Hne) as Hs. apply (IH (step W L fi s o)). cbn [length] in Hm. lia.
Qed.

Lemma final_pending : forall s, final s = true <-> pending s = [].
Proof. intros s. unfold final, isnil. destruct (pending s); split; intros H; congruence. Qed.
