(* C11 — merge_data on nested values: equations, and the flat `merge` of ModelContinue.v as its dict-of-lists case *)
From Coq Require Import List NArith Bool Lia.
From MW Require Import C11.ModelContinue C11.ModelMerge.
Import ListNotations.
Local Open Scope N_scope.

Fixpoint upd_with (f : val -> option val) (k : N) (v : val) (d : list (N * val)) : option (list (N * val)) :=
  match d with
  | [] => Some [(k, v)]
  | (k', x) :: d' =>
      if N.eqb k k' then match f x with Some y => Some ((k', y) :: d') | None => None end
      else match upd_with f k v d' with Some d'' => Some ((k', x) :: d'') | None => None end
  end.

Fixpoint go_with (s d : list (N * val)) : option (list (N * val)) :=
  match s with
  | [] => Some d
  | (k, v) :: r => match upd_with (fun x => merge_val x v) k v d with Some d1 => go_with r d1 | None => None end
  end.

(* the equations of merge_val (the nested fixpoints of the definition, named) *)
Lemma merge_val_dict : forall s d, merge_val (VDict d) (VDict s) = option_map VDict (go_with s d).
Proof.
  intros s d. cbn [merge_val]. f_equal. revert d.
  induction s as [|[k v] r IH]; intro d; [reflexivity|].
  cbn [go_with].
  match goal with |- match ?U d with _ => _ end = _ =>
    assert (HU : forall d0, U d0 = upd_with (fun x => merge_val x v) k v d0) end.
  { intro d0. induction d0 as [|[k' x] d0 IHd]; [reflexivity|].
    cbn [upd_with]. destruct (N.eqb k k'); [reflexivity|]. now rewrite IHd. }
  rewrite HU. destruct (upd_with _ k v d) as [d1|]; [apply IH|reflexivity].
Qed.

Lemma merge_val_atom : forall a b, merge_val (VAtom a) (VAtom b) = Some (VAtom a).
Proof. reflexivity. Qed.

(* a key that dst does not have is added at the end with src's value *)
Lemma upd_with_new : forall f k v d, ~ In k (map fst d) -> upd_with f k v d = Some (d ++ [(k, v)]).
Proof.
  intros f k v d. induction d as [|[k' x] d IH]; intro Hn; [reflexivity|].
  cbn [upd_with]. destruct (N.eqb k k') eqn:E.
  - apply N.eqb_eq in E. subst k'. elim Hn. now left.
  - cbn [app]. rewrite IH; [reflexivity|]. intro Hi. apply Hn. now right.
Qed.

(* a key that dst has is merged in place: nothing else moves or changes *)
Lemma merge_val_old_key : forall d1 d2 k x v, ~ In k (map fst d1) ->
  merge_val (VDict (d1 ++ (k, x) :: d2)) (VDict [(k, v)])
  = match merge_val x v with Some y => Some (VDict (d1 ++ (k, y) :: d2)) | None => None end.
Proof.
  intros d1 d2 k x v Hn. rewrite merge_val_dict. cbn [go_with].
  assert (H : upd_with (fun x0 => merge_val x0 v) k v (d1 ++ (k, x) :: d2)
              = match merge_val x v with Some y => Some (d1 ++ (k, y) :: d2) | None => None end).
  { induction d1 as [|[k' x'] d1 IH].
    - cbn [app upd_with]. now rewrite N.eqb_refl.
    - cbn [app upd_with]. destruct (N.eqb k k') eqn:E.
      + apply N.eqb_eq in E. subst k'. elim Hn. now left.
      + rewrite IH by (intro Hi; apply Hn; now right). now destruct (merge_val x v). }
  rewrite H. now destruct (merge_val x v).
Qed.

Definition lift (kl : N * list N) : N * val := (fst kl, VList (snd kl)).

Lemma upd_flat : forall k l d,
  upd_with (fun x => merge_val x (VList l)) k (VList l) (map lift d) = Some (map lift (extend_at k l d)).
Proof.
  intros k l d. induction d as [|[k' l'] d IH]; [reflexivity|].
  cbn [map lift fst snd upd_with extend_at]. destruct (N.eqb k k'); [reflexivity|].
  rewrite IH. reflexivity.
Qed.

Lemma go_flat : forall s d, go_with (map lift s) (map lift d) = Some (map lift (merge d s)).
Proof.
  intros s. induction s as [|[k l] r IH]; intro d; [reflexivity|].
  cbn [map lift fst snd go_with]. rewrite upd_flat. rewrite IH. reflexivity.
Qed.

(* the flat model of ModelContinue.v is merge_data on dicts of lists, keys in the same order *)
Lemma merge_val_flat : forall a b, merge_val (of_flat a) (of_flat b) = Some (of_flat (merge a b)).
Proof. intros a b. unfold of_flat. rewrite merge_val_dict. fold lift. now rewrite go_flat. Qed.
