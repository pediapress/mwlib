(* C11 — the work-list closure: the set  stored ∪ future(pending, todo, desc_todo)  is the same in every
   reachable state, whatever call completes next, whatever the batch size. *)
From Coq Require Import List NArith Bool Arith Lia Setoid Morphisms.
From MW Require Import C11.Model C11.Proofs.
Import ListNotations.

Definition redir_items (reds : list (title * title)) : list item := map (fun h => IRedir (fst h) (snd h)) reds.

Definition unsched (sch : list title) (imgs : list title) : list title := filter (fun i => negb (memN i sch)) imgs.

Definition fut_enq (W : wiki) (sch : list title) (reds : list (title * title)) (imgs : list title) : list item :=
  redir_items reds ++ flat_map (img_items W) (unsched sch imgs).

(* what a pending call will still add to the archive (directly or through the calls it starts) *)
Definition fut_call (W : wiki) (fi : bool) (sch : list title) (c : call) : list item :=
  match c with
  | CEnq reds imgs => fut_enq W sch reds imgs
  | CExpTitle t => art_title_items W t
  | CExpRev rv =>
      match find_rev W rv with
      | None => []
      | Some (p, r) =>
          exp_rev_items p r ++ auth_items W (p_title p) ++
          match r_redirect r with
          | Some x => art_title_items W x ++ fut_enq W sch (used_titles_reds W [x]) (if fi then used_titles_imgs W [x] else [])
          | None => []
          end
      end
  | CEdits k => auth_items W k
  | CInfo b => flat_map (img_items W) b
  | CDownload i => [IFile i]
  | CHandle => []
  | CDesc b => map IDesc (filter (page_exists W) b)
  end.

(* what handle_new_basepath will start for images whose info has arrived: description pages, contributors *)
Definition desc_items (W : wiki) (l : list title) : list item :=
  map IDesc (filter (page_exists W) l) ++ flat_map (auth_items W) l.

Definition fut_desc (W : wiki) (d : option (list title)) : list item :=
  match d with Some l => desc_items W l | None => [] end.

Definition total (W : wiki) (fi : bool) (s : state) : list item :=
  stored s ++ flat_map (fut_call W fi (scheduled s)) (pending s) ++ flat_map (img_items W) (todo s) ++ fut_desc W (desc_todo s).

Lemma memN_app : forall x a b, memN x (a ++ b) = memN x a || memN x b.
Proof. intros. unfold memN. apply existsb_app. Qed.

Lemma unsched_In : forall sch imgs i, In i (unsched sch imgs) <-> In i imgs /\ ~ In i sch.
Proof.
  intros sch imgs i. unfold unsched. rewrite filter_In. rewrite negb_true_iff. rewrite memN_false. tauto.
Qed.

Lemma enqueue_spec : forall imgs td sch, exists new,
  enqueue imgs td sch = (td ++ new, sch ++ new) /\ same new (unsched sch imgs).
Proof.
  intros imgs. induction imgs as [|a rest IH]; intros td sch; cbn [enqueue unsched filter].
  - exists []. rewrite !app_nil_r. split; reflexivity.
  - change (filter _ rest) with (unsched sch rest). destruct (memN a sch) eqn:Hm; cbn [negb].
    + apply IH.
    + destruct (IH (td ++ [a]) (sch ++ [a])) as [new [He Hn]]. exists (a :: new). split.
      * rewrite He, <- !app_assoc. reflexivity.
      * apply same_iff. intros i. cbn [In]. rewrite (proj1 (same_iff _ _) Hn i), !unsched_In, in_app_iff. cbn [In].
        clear. destruct (N.eq_dec a i); tauto.
Qed.

(* Scheduling further images `new` only shrinks a future, and only by items of those images. *)
Lemma unsched_sched : forall sch new imgs,
  incl (unsched (sch ++ new) imgs) (unsched sch imgs) /\ incl (unsched sch imgs) (unsched (sch ++ new) imgs ++ new).
Proof.
  intros sch new imgs. split; intros i Hi; apply unsched_In in Hi.
  - apply unsched_In. rewrite in_app_iff in Hi. tauto.
  - apply in_or_app. destruct (in_dec N.eq_dec i new) as [Hn|Hn]; [right; exact Hn | left].
    apply unsched_In. rewrite in_app_iff. tauto.
Qed.

Lemma fut_enq_sched : forall W sch new reds imgs,
  incl (fut_enq W (sch ++ new) reds imgs) (fut_enq W sch reds imgs) /\
  incl (fut_enq W sch reds imgs) (fut_enq W (sch ++ new) reds imgs ++ flat_map (img_items W) new).
Proof.
  intros W sch new reds imgs. destruct (unsched_sched sch new imgs) as [H1 H2].
  apply (incl_flat_map_l (img_items W)) in H1, H2. rewrite flat_map_app in H2.
  unfold fut_enq. split; [auto with sub|]. apply incl_app; [auto with sub|]. apply (incl_tran H2). auto 9 with sub.
Qed.

Lemma fut_call_sched : forall W fi sch new c,
  incl (fut_call W fi (sch ++ new) c) (fut_call W fi sch c) /\
  incl (fut_call W fi sch c) (fut_call W fi (sch ++ new) c ++ flat_map (img_items W) new).
Proof.
  (* only CEnq and CExpRev look at what is scheduled *)
  intros W fi sch new c. destruct c as [reds imgs|t|rv|k|block|i| |block]; cbn [fut_call]; auto with sub.
  - apply fut_enq_sched.
  - destruct (find_rev W rv) as [[p r]|]; [|auto with sub]. destruct (r_redirect r) as [y|]; [|auto with sub].
    destruct (fut_enq_sched W sch new (used_titles_reds W [y]) (if fi then used_titles_imgs W [y] else [])) as [H1 H2].
    split; [auto 9 with sub|]. do 3 (apply incl_app; [auto 9 with sub|]). apply (incl_tran H2). auto 9 with sub.
Qed.

Lemma pending_sched : forall W fi sch new cs,
  incl (flat_map (fut_call W fi (sch ++ new)) cs) (flat_map (fut_call W fi sch) cs) /\
  incl (flat_map (fut_call W fi sch) cs) (flat_map (fut_call W fi (sch ++ new)) cs ++ flat_map (img_items W) new).
Proof.
  intros W fi sch new cs. split.
  - rewrite <- (app_nil_r (flat_map (fut_call W fi sch) cs)). apply incl_flat_map. intros c.
    rewrite app_nil_r. apply fut_call_sched.
  - apply incl_flat_map. intros c. apply fut_call_sched.
Qed.

Lemma total_add : forall W fi s its cs,
  same (total W fi (add s its cs)) ((its ++ flat_map (fut_call W fi (scheduled s)) cs) ++ total W fi s).
Proof.
  intros W fi s its cs. unfold total, add. cbn [stored pending scheduled todo desc_todo].
  rewrite flat_map_app. auto 12 with sub.
Qed.

(* a call that stores `its` and starts `cs` keeps the total when that is what its future says *)
Lemma exec_add_total : forall W fi s c its cs,
  same (fut_call W fi (scheduled s) c) (its ++ flat_map (fut_call W fi (scheduled s)) cs) ->
  same (total W fi (add s its cs)) (fut_call W fi (scheduled s) c ++ total W fi s).
Proof. intros W fi s c its cs H. rewrite H. apply total_add. Qed.

Lemma total_without : forall W fi s i, i < length (pending s) ->
  same (total W fi s) (fut_call W fi (scheduled s) (nth i (pending s) CHandle) ++ total W fi (without i s)).
Proof.
  intros W fi s i Hi. unfold total, without. cbn [stored pending scheduled todo desc_todo].
  rewrite (flat_map_nth_remove _ (pending s) i CHandle Hi). auto 12 with sub.
Qed.

Lemma desc_items_app : forall W l l', same (desc_items W (l ++ l')) (desc_items W l ++ desc_items W l').
Proof. intros W l l'. unfold desc_items. rewrite filter_app, map_app, flat_map_app. auto 9 with sub. Qed.

Lemma img_items_ok : forall W a, img_ok W a = true -> img_items W a = [IInfo a] ++ [IFile a] ++ desc_items W [a].
Proof.
  intros W a H. unfold img_items, desc_items. rewrite H. cbn [filter flat_map].
  destruct (page_exists W a); cbn [map app]; rewrite app_nil_r; reflexivity.
Qed.

(* an image without info has no items; one with info has its info, its file, and what desc_items lists *)
Lemma img_items_block : forall W block,
  same (flat_map (img_items W) block)
       (map IInfo (info_ok W block) ++ flat_map (fun i => [IFile i]) (info_ok W block) ++ desc_items W (info_ok W block)).
Proof.
  intros W block. unfold info_ok. induction block as [|a block IH]; [reflexivity|].
  cbn [flat_map filter]. rewrite IH. clear IH. destruct (img_ok W a) eqn:Ha.
  - rewrite (img_items_ok W a Ha). cbn [map flat_map].
    change (a :: filter (img_ok W) block) with ([a] ++ filter (img_ok W) block). rewrite desc_items_app.
    change (IInfo a :: ?l) with ([IInfo a] ++ l). auto 12 with sub.
  - unfold img_items at 1. rewrite Ha. reflexivity.
Qed.

Lemma desc_blocks : forall W fi sch L l,
  same (flat_map (fut_call W fi sch) (map CDesc (split_blocks L l))) (map IDesc (filter (page_exists W) l)).
Proof.
  intros W fi sch L l. rewrite map_filter_flat_map. apply flat_map_blocks. intros b. rewrite <- map_filter_flat_map. reflexivity.
Qed.

Lemma info_blocks : forall W fi sch L l,
  same (flat_map (fut_call W fi sch) (map CInfo (split_blocks L l))) (flat_map (img_items W) l).
Proof. intros W fi sch L l. apply flat_map_blocks. intros b. reflexivity. Qed.

(* fetch_imageinfo hands its images over to handle_new_basepath, which it starts unless one is under way *)
Lemma total_more_desc : forall W fi s ok,
  same (total W fi match desc_todo s with
                   | Some l => mkState (pending s) (scheduled s) (todo s) (Some (l ++ ok)) (stored s)
                   | None => mkState (pending s ++ [CHandle]) (scheduled s) (todo s) (Some ok) (stored s)
                   end)
       (total W fi s ++ desc_items W ok).
Proof.
  intros W fi s ok. unfold total. destruct (desc_todo s) as [l|]; cbn [stored pending scheduled todo desc_todo fut_desc].
  - rewrite desc_items_app. auto 12 with sub.
  - rewrite flat_map_app. cbn [flat_map fut_call app]. auto 14 with sub.
Qed.

Lemma exec_total : forall W L fi c s,
  same (total W fi (exec W L fi c s)) (fut_call W fi (scheduled s) c ++ total W fi s).
Proof.
  intros W L fi c s. destruct c as [reds imgs|t|rv|k|block|i| |block]; cbn [exec].
  - (* CEnq: the images that were not scheduled move from the call's future to `todo` *)
    destruct (enqueue_spec imgs (todo s) (scheduled s)) as [new [He Hn]]. rewrite He.
    destruct (pending_sched W fi (scheduled s) new (pending s)) as [Hp1 Hp2].
    unfold total. cbn [stored pending scheduled todo desc_todo fut_call]. unfold fut_enq.
    rewrite flat_map_app, <- Hn. fold (redir_items reds). split; [auto 12 with sub|].
    do 2 (apply incl_app; [auto 12 with sub|]). apply incl_app; [apply (incl_tran Hp2)|]; auto 12 with sub.
  - apply exec_add_total. cbn [fut_call]. unfold art_title_items.
    destruct (final_rev W t); cbn [flat_map fut_call]; rewrite ?app_nil_r; reflexivity.
  - destruct (find_rev W rv) as [[p r]|] eqn:Hf; [|cbn [fut_call]; rewrite Hf; reflexivity].
    apply exec_add_total. cbn [fut_call]. rewrite Hf.
    destruct (r_redirect r) as [y|]; cbn [app flat_map fut_call mk_enq]; rewrite ?app_nil_r; auto 12 with sub.
  - apply exec_add_total. cbn [flat_map fut_call]. rewrite !app_nil_r. reflexivity.
  - cbv zeta. cbn [fut_call]. rewrite img_items_block.
    set (ok := info_ok W block).
    pose proof (total_add W fi s (map IInfo ok) (map CDownload ok)) as Hs1. rewrite flat_map_map in Hs1. cbn [fut_call] in Hs1.
    destruct ok as [|o ok'] eqn:Hok.
    + rewrite Hs1. reflexivity.
    + rewrite <- Hok in *. rewrite total_more_desc, Hs1. auto 12 with sub.
  - apply exec_add_total. reflexivity.
  - cbn [fut_call app]. destruct (desc_todo s) as [l|] eqn:Hd; [|reflexivity].
    unfold total. cbn [stored pending scheduled todo desc_todo fut_desc]. rewrite Hd. cbn [fut_desc]. unfold desc_items.
    rewrite !flat_map_app, desc_blocks, flat_map_map. cbn [fut_call app]. rewrite app_nil_r. auto 12 with sub.
  - apply exec_add_total. cbn [flat_map fut_call]. rewrite !app_nil_r. reflexivity.
Qed.

Lemma dispatch_total : forall W L fi s, same (total W fi (dispatch L s)) (total W fi s).
Proof.
  intros W L fi s. unfold total, dispatch. cbn [stored pending scheduled todo desc_todo flat_map].
  rewrite flat_map_app, info_blocks. auto 12 with sub.
Qed.

Lemma step_total : forall W L fi s o, same (total W fi (step W L fi s o)) (total W fi s).
Proof.
  intros W L fi s o. destruct (pending_dec s) as [Hp|Hne]; [rewrite step_final by exact Hp; reflexivity|].
  destruct (step_cases W L fi s o Hne) as [i [Hi Hs]].
  rewrite (total_without W fi s i Hi). change (scheduled s) with (scheduled (without i s)).
  destruct Hs as [[Hs _]|Hs]; rewrite Hs; [|rewrite dispatch_total]; apply exec_total.
Qed.

Lemma run_total : forall W L fi sched s, same (total W fi (run W L fi sched s)) (total W fi s).
Proof.
  intros W L fi sched s. apply (run_invariant W L fi (fun s' => same (total W fi s') (total W fi s))).
  - intros s' o H. rewrite step_total. exact H.
  - reflexivity.
Qed.

(* what every reachable state satisfies: work is queued (`todo`) only while calls are pending, and while
   descriptions are outstanding (`desc_todo`) the handler call that fetches them is pending *)
Definition consistent (s : state) : Prop :=
  (pending s = [] -> todo s = []) /\ (desc_todo s <> None -> In CHandle (pending s)).

Lemma add_handle_pending : forall s its cs, (desc_todo s <> None -> In CHandle (pending s)) ->
  desc_todo (add s its cs) <> None -> In CHandle (pending (add s its cs)).
Proof. intros s its cs H Hd. cbn [add pending]. apply in_or_app. left. exact (H Hd). Qed.

(* a completing call other than CHandle itself leaves CHandle pending while descriptions are outstanding;
   CHandle either finishes them or starts itself again *)
Lemma exec_handle_pending : forall W L fi c s,
  (c <> CHandle -> desc_todo s <> None -> In CHandle (pending s)) ->
  desc_todo (exec W L fi c s) <> None -> In CHandle (pending (exec W L fi c s)).
Proof.
  intros W L fi c s H. destruct c as [reds imgs|t|rv|k|block|i| |block]; cbn [exec].
  - destruct (enqueue imgs (todo s) (scheduled s)) as [td sch]. cbn [desc_todo pending]. apply H. discriminate.
  - apply add_handle_pending, H. discriminate.
  - destruct (find_rev W rv) as [[p r]|]; [apply add_handle_pending|]; apply H; discriminate.
  - apply add_handle_pending, H. discriminate.
  - cbv zeta. destruct (info_ok W block) as [|o ok'].
    + apply add_handle_pending, H. discriminate.
    + (* handle_new_basepath is under way, or is started now *)
      cbn [add desc_todo]. destruct (desc_todo s) as [l|]; cbn [add pending]; intros _; rewrite !in_app_iff.
      * left. apply H; discriminate.
      * right. left. reflexivity.
  - apply add_handle_pending, H. discriminate.
  - destruct (desc_todo s) as [l|] eqn:Hd0; [cbn [desc_todo] | rewrite Hd0]; intros Hd; congruence.
  - apply add_handle_pending, H. discriminate.
Qed.

Lemma step_consistent : forall W L fi s o, consistent s -> consistent (step W L fi s o).
Proof.
  intros W L fi s o [H1 H2]. destruct (pending_dec s) as [Hp|Hne].
  - rewrite step_final by exact Hp. split; assumption.
  - destruct (step_cases W L fi s o Hne) as [i [Hi Hs]]. cbv zeta in Hs.
    set (c := nth i (pending s) CHandle) in *.
    assert (Hd : desc_todo (exec W L fi c (without i s)) <> None -> In CHandle (pending (exec W L fi c (without i s)))).
    { apply exec_handle_pending. cbn [without desc_todo pending]. intros Hc Hd.
      apply (nth_remove_In (pending s) i CHandle CHandle Hi) in H2; [|exact Hd]. fold c in H2.
      destruct H2 as [E|E]; [exfalso; apply Hc; symmetry; exact E | exact E]. }
    destruct Hs as [[Hs Hn]|Hs]; rewrite Hs; split.
    + intros Hp. contradiction.
    + exact Hd.
    + reflexivity.
    + cbn [dispatch desc_todo pending]. intros Hx. apply in_or_app. left. apply Hd. exact Hx.
Qed.

Lemma final_total : forall W fi s, consistent s -> pending s = [] -> total W fi s = stored s.
Proof.
  intros W fi s [H1 H2] Hp. unfold total. rewrite Hp. rewrite (H1 Hp).
  destruct (desc_todo s) as [l|] eqn:Hd.
  - exfalso. assert (Hx : Some l <> None) by discriminate. specialize (H2 Hx). rewrite Hp in H2. exact H2.
  - cbn. apply app_nil_r.
Qed.

(* from any consistent state, whatever the schedule: once nothing is pending, the archive is the total of that state *)
Lemma closure : forall W L fi sched s, consistent s -> pending (run W L fi sched s) = [] ->
  same (stored (run W L fi sched s)) (total W fi s).
Proof.
  intros W L fi sched s Hi Hfin.
  rewrite <- (final_total W fi _ (run_invariant W L fi consistent (step_consistent W L fi) sched s Hi) Hfin).
  apply run_total.
Qed.
