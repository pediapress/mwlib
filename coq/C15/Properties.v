(* C15 — property theorems only, each followed by Print Assumptions; the check re-compiles this
   file on every run. *)
From Coq Require Import List NArith Bool.
From MW Require Import Common.Str C15.Model C15.Proofs C15.ModelMkdirs C15.ProofsMkdirs.
Import ListNotations.

(* Every path created (makedirs) or written (open "wb") by extractall, for ANY list of member
   names over arbitrary code points and any destination (absolute, or relative to an absolute
   cwd; with or without trailing separators) other than the root, is the destination itself
   (makedirs only) or lies lexically inside it: D ++ "/" ++ c1/../cn with every ci non-empty,
   slash-free and different from "." and "..".  Written files are strictly inside. *)
Theorem C15_contained : forall cwd dst names,
  isabs cwd = true ->
  all_slash (dest_dir cwd dst) = false ->
  let D := dest_dir cwd dst in
  let '(ops, _) := extractall cwd dst names in
  Forall (fun o => inside_or_eq D (op_path o)) ops /\
  Forall (fun o => match o with OpenWrite p => inside D p | _ => True end) ops.
Proof.
  intros cwd dst names Hcwd Hroot D.
  pose proof (extractall_contained cwd dst names Hcwd Hroot) as H. fold D in H.
  destruct (extractall cwd dst names) as [ops o]. cbn [fst] in H. split.
  - exact (Forall_impl _ (op_contained_path D) H).
  - exact (Forall_impl _ (op_contained_write D) H).
Qed.
Print Assumptions C15_contained.

(* An archive with an escaping member is rejected at that member; the effects of the run are
   exactly those of the (contained, by C15_contained) members before it. *)
Theorem C15_reject_leaves_outside_clean : forall cwd dst pre name post,
  let D := dest_dir cwd dst in
  Forall (fun n => ~ escapes D n) pre ->
  escapes D name ->
  exists ops t,
    extractall cwd dst (pre ++ name :: post) = (ops, Rejected t) /\
    extractall cwd dst pre = (ops, Done).
Proof. intros cwd dst pre name post D. exact (extract_members_rejects D pre name post). Qed.
Print Assumptions C15_reject_leaves_outside_clean.

(* Clean components never contain "..": the lexical containment is real containment as long as
   the destination holds no symlinks (a fresh mkdtemp directory). *)
Theorem C15_inside_has_no_dotdot : forall D p, inside D p ->
  exists r, p = D ++ slash :: r /\ ~ In dotdot (split_on slash r) /\ ~ In [] (split_on slash r).
Proof.
  intros D p (r & Hp & Hr). exists r. split; [exact Hp|]. rewrite Forall_forall in Hr.
  split; intros Hin; apply Hr in Hin; destruct Hin as (H1 & _ & H3 & _); congruence.
Qed.
Print Assumptions C15_inside_has_no_dotdot.

(* Non-vacuity: a concrete run.  cwd="/w", dst="out/", members "a/b", "../out2/x", "c". *)
Example C15_example :
  let cwd := [47;119]%N in let dst := [111;117;116;47]%N in
  isabs cwd = true /\ all_slash (dest_dir cwd dst) = false /\
  extractall cwd dst [[97;47;98]; [46;46;47;111;117;116;50;47;120]; [99]]%N
  = ([Makedirs [47;119;47;111;117;116;47;97]%N; OpenWrite [47;119;47;111;117;116;47;97;47;98]%N],
     Rejected [47;119;47;111;117;116;50;47;120]%N).
Proof. vm_compute. repeat split. Qed.
Print Assumptions C15_example.

(* ---- os.makedirs (ModelMkdirs.v): the ancestor chain it creates.
   `world` = the answers of the file system (exists / isdir / mkdir / open) as an arbitrary function
   of the calls made so far, i.e. every deterministic evolution of the rest of the file system. *)

(* os.makedirs(p) for p strictly inside D, with D existing in every state: every path handed to
   os.mkdir (hence every directory created) is strictly inside D -- never D, a parent of D or a
   sibling -- whichever intermediate directories already exist; the fuel S (length p) suffices. *)
Theorem C15_makedirs_creates_only_inside : forall (W : world) D p h,
  D <> [] -> ends_with_char slash D = false ->
  (forall h', o_exists (W h') D = true) ->
  inside D p ->
  let '(calls, o) := makedirs W (makedirs_fuel p) h p in
  Forall (fun s => inside D (sysop_path s)) calls /\ o <> MOutOfFuel.
Proof.
  intros W D p h Hne Hend Hex Hin.
  pose proof (makedirs_inside W D Hne Hend Hex (makedirs_fuel p) h p Hin) as H1.
  pose proof (makedirs_fuel_enough W (makedirs_fuel p) h p (makedirs_fuel_lt p)) as H2.
  destruct (makedirs W (makedirs_fuel p) h p) as [calls o]. split; [exact H1 | exact H2].
Qed.
Print Assumptions C15_makedirs_creates_only_inside.

(* The fuel used by the model is enough for every name (no hypothesis on name). *)
Theorem C15_makedirs_fuel_enough : forall (W : world) fuel h name,
  length name < fuel -> snd (makedirs W fuel h name) <> MOutOfFuel.
Proof. exact makedirs_fuel_enough. Qed.
Print Assumptions C15_makedirs_fuel_enough.

(* The whole extraction, system call by system call (expand_ops = the isdir guard of
   nuwiki.py:314, os.makedirs, open "wb", against the evolving file system): as long as the
   destination D stays an existing directory, every mkdir and every open-for-write of
   extractall, for any member names, is on a path strictly inside D. *)
Theorem C15_extractall_mkdirs_contained : forall (W : world) cwd dst names h0,
  isabs cwd = true ->
  all_slash (dest_dir cwd dst) = false ->
  let D := dest_dir cwd dst in
  (forall h, o_exists (W h) D = true) ->
  (forall h, o_isdir (W h) D = true) ->
  let '(calls, o) := expand_ops W h0 (fst (extractall cwd dst names)) in
  Forall (fun s => inside D (sysop_path s)) calls /\
  Forall (inside D) (created calls) /\
  o <> XMakedirs MOutOfFuel.
Proof.
  intros W cwd dst names h0 Hcwd Hroot D Hex Hdir.
  pose proof (extractall_calls_inside W cwd dst names h0 Hcwd Hroot Hex Hdir) as H1. fold D in H1.
  pose proof (expand_ops_fuel W (fst (extractall cwd dst names)) h0) as H2.
  destruct (expand_ops W h0 (fst (extractall cwd dst names))) as [calls o].
  split; [exact H1|]. split; [exact (created_inside D calls H1) | exact H2].
Qed.
Print Assumptions C15_extractall_mkdirs_contained.

(* Instance: a file system holding the directories fs0 (D among them) that changes only through
   the calls of the extraction itself. *)
Theorem C15_extractall_mkdirs_contained_fs : forall fs0 cwd dst names,
  isabs cwd = true ->
  all_slash (dest_dir cwd dst) = false ->
  let D := dest_dir cwd dst in
  In (normpath D) fs0 ->
  let '(calls, o) := expand_ops (fs_world fs0) [] (fst (extractall cwd dst names)) in
  Forall (inside D) (created calls) /\ o <> XMakedirs MOutOfFuel.
Proof.
  intros fs0 cwd dst names Hcwd Hroot D Hin.
  destruct (fs_world_keeps fs0 D Hin) as [Hex Hdir].
  pose proof (C15_extractall_mkdirs_contained (fs_world fs0) cwd dst names [] Hcwd Hroot Hex Hdir) as H.
  fold D in H.
  destruct (expand_ops (fs_world fs0) [] (fst (extractall cwd dst names))) as [calls o].
  destruct H as (_ & H2 & H3). split; [exact H2 | exact H3].
Qed.
Print Assumptions C15_extractall_mkdirs_contained_fs.

(* Non-vacuity: D="/w/out" and "/w/out/a" exist; makedirs("/w/out/a/b/c") creates exactly
   "/w/out/a/b" and "/w/out/a/b/c"; and the hypotheses of the theorems hold for this D and world. *)
Example C15_makedirs_example :
  let D := [47;119;47;111;117;116]%N in
  let fs0 := [D; D ++ [47;97]]%N in
  D <> [] /\ ends_with_char slash D = false /\
  o_exists (fs_world fs0 []) D = true /\ o_isdir (fs_world fs0 []) D = true /\
  makedirs_fs fs0 (D ++ [47;97;47;98;47;99])%N
  = ([D ++ [47;97;47;98]; D ++ [47;97;47;98;47;99]]%N, MDone).
Proof. vm_compute. repeat split. discriminate. Qed.
Print Assumptions C15_makedirs_example.

(* Non-vacuity of the lifted theorem: cwd="/w", dst="out/", only "/w/out" exists; members
   "a/b/c", "d/", "a/e": five system calls, all below /w/out. *)
Example C15_expand_example :
  let cwd := [47;119]%N in let dst := [111;117;116;47]%N in
  let D := [47;119;47;111;117;116]%N in
  dest_dir cwd dst = D /\ In (normpath D) [D] /\
  expand_ops (fs_world [D]) [] (fst (extractall cwd dst [[97;47;98;47;99]; [100;47]; [97;47;101]]%N))
  = ([SMkdir (D ++ [47;97])%N MkOk; SMkdir (D ++ [47;97;47;98])%N MkOk;
      SOpen (D ++ [47;97;47;98;47;99])%N true;
      SMkdir (D ++ [47;100])%N MkOk;
      SOpen (D ++ [47;97;47;101])%N true], XDone).
Proof. vm_compute. repeat split. left. reflexivity. Qed.
Print Assumptions C15_expand_example.
