(* C15 — os.makedirs creates only directories strictly inside the destination, and the lift of
   extractall_contained (Proofs.v) from `Makedirs p` effects to individual mkdir calls. *)
From Coq Require Import List NArith Bool Lia.
From MW Require Import Common.Str C15.Model C15.Proofs C15.ModelMkdirs.
Import ListNotations.

(* the head of posixpath.split is posixpath.dirname *)
Lemma split_eq p : split p = (dirname p, rev (take_to_slash_rev (rev p))).
Proof. reflexivity. Qed.

Lemma take_to_slash_rev_app l rest :
  no_char slash l -> take_to_slash_rev (l ++ slash :: rest) = l.
Proof.
  induction l as [|x l IH]; intros H; cbn [app take_to_slash_rev].
  - rewrite N.eqb_refl. reflexivity.
  - destruct (N.eqb_spec x slash) as [->|Hne].
    + exfalso. apply H. left. reflexivity.
    + f_equal. apply IH. intros Hin. apply H. right. exact Hin.
Qed.

Lemma take_drop_rev r : take_to_slash_rev r ++ drop_to_slash_rev r = r.
Proof.
  induction r as [|x r IH]; cbn [take_to_slash_rev drop_to_slash_rev]; [reflexivity|].
  destruct (N.eqb x slash); [reflexivity|]. cbn [app]. f_equal. exact IH.
Qed.

Lemma rstrip_slash_rev_length r : length (rstrip_slash_rev r) <= length r.
Proof.
  induction r as [|x r IH]; cbn [rstrip_slash_rev length]; [lia|].
  destruct (N.eqb x slash); cbn [length]; lia.
Qed.

Lemma dirname_length p : length (dirname p) <= length (drop_to_slash_rev (rev p)).
Proof.
  unfold dirname. destruct (is_nil _ || all_slash _); rewrite rev_length; [lia|apply rstrip_slash_rev_length].
Qed.

Lemma split_length p : length (fst (split p)) + length (snd (split p)) <= length p.
Proof.
  rewrite split_eq. cbn [fst snd]. pose proof (dirname_length p) as Hd.
  pose proof (f_equal (@length N) (take_drop_rev (rev p))) as E. rewrite app_length, rev_length in E.
  rewrite rev_length. lia.
Qed.

Lemma split_app h l :
  h <> [] -> ends_with_char slash h = false -> no_char slash l ->
  split (h ++ slash :: l) = (h, l).
Proof.
  intros Hne He Hl. rewrite split_eq. rewrite dirname_app by assumption. f_equal.
  rewrite rev_app_distr. cbn [rev]. rewrite <- app_assoc. cbn [app].
  rewrite take_to_slash_rev_app.
  - apply rev_involutive.
  - intros Hin. apply Hl. apply in_rev. exact Hin.
Qed.

Lemma split_inside D p :
  D <> [] -> ends_with_char slash D = false -> inside D p ->
  exists hd tl, split p = (hd, tl) /\ clean tl /\ inside_or_eq D hd /\ p = hd ++ slash :: tl.
Proof.
  intros Hne He Hin. destruct (inside_last D p Hin) as (hd & c & -> & Hc & Hhd).
  exists hd, c. split; [|split; [exact Hc | split; [exact Hhd | reflexivity]]].
  destruct (inside_or_eq_ends D hd Hne He Hhd) as [Hne' He'].
  apply split_app; [exact Hne' | exact He' | apply Hc].
Qed.

Definition ends_nonslash (D : str) : Prop := exists A x, D = A ++ [x] /\ x <> slash.

Lemma ends_nonslash_iff D : ends_nonslash D <-> D <> [] /\ ends_with_char slash D = false.
Proof.
  split.
  - intros (A & x & -> & Hx). split; [destruct A; discriminate|].
    rewrite ends_with_char_unit. apply N.eqb_neq. exact Hx.
  - intros [Hne He]. destruct (exists_last Hne) as (A & x & ->). exists A, x. split; [reflexivity|].
    rewrite ends_with_char_unit in He. apply N.eqb_neq. exact He.
Qed.

(* the head is D exactly when there is one component below D *)
Lemma split_inside_head_is_D D r :
  ends_nonslash D -> Forall clean (split_on slash r) ->
  (fst (split (D ++ slash :: r)) = D <-> length (split_on slash r) = 1).
Proof.
  intros HD Hr. apply ends_nonslash_iff in HD as [Hne He].
  assert (Hin : inside D (D ++ slash :: r)) by (exists r; split; [reflexivity | exact Hr]).
  destruct (split_inside D _ Hne He Hin) as (hd & c & -> & Hc & Hhd & E). cbn [fst].
  destruct Hhd as [-> | (r' & -> & _)].
  - apply app_inv_head in E. injection E as ->.
    rewrite split_on_no_char by apply Hc. split; intros _; reflexivity.
  - rewrite <- app_assoc in E. apply app_inv_head in E. cbn [app] in E. injection E as ->.
    rewrite split_on_app, app_length.
    pose proof (split_on_nonnil slash r') as N1. pose proof (split_on_nonnil slash c) as N2.
    destruct (split_on slash r'); [congruence|]. destruct (split_on slash c); [congruence|].
    cbn [length]. split.
    + intros E'. apply (f_equal (@length N)) in E'. rewrite app_length in E'. cbn [length] in E'. lia.
    + lia.
Qed.

Definition sys_inside (D : str) (s : sysop) : Prop := inside D (sysop_path s).

Lemma do_mkdir_fst W h new name :
  fst (do_mkdir W h new name) = new ++ [SMkdir name (o_mkdir (W (h ++ new)) name)].
Proof. reflexivity. Qed.

Lemma do_mkdir_not_oof W h new name : snd (do_mkdir W h new name) <> MOutOfFuel.
Proof. unfold do_mkdir. cbn [snd]. destruct (o_mkdir (W (h ++ new)) name); discriminate. Qed.

Lemma do_mkdir_inside W D h new name :
  Forall (sys_inside D) new -> inside D name -> Forall (sys_inside D) (fst (do_mkdir W h new name)).
Proof.
  intros Hnew Hin. rewrite do_mkdir_fst. apply Forall_app. split; [exact Hnew|].
  constructor; [exact Hin | constructor].
Qed.

Lemma makedirs_fuel_lt name : length name < makedirs_fuel name.
Proof. unfold makedirs_fuel. lia. Qed.

(* With D present in every state, os.makedirs(p) for p strictly inside D calls mkdir only on paths
   strictly inside D, whatever else exists: the recursion goes up to the head only when the head
   does not exist, so it stops below D. *)
Lemma makedirs_inside W D :
  D <> [] -> ends_with_char slash D = false ->
  (forall h, o_exists (W h) D = true) ->
  forall fuel h p, inside D p -> Forall (sys_inside D) (fst (makedirs W fuel h p)).
Proof.
  intros HD He Hex. induction fuel as [|f IH]; intros h p Hin; [constructor|].
  destruct (split_inside D p HD He Hin) as (hd & tl & Hsp & Hcl & Hhd & _).
  destruct Hcl as (Hne & Hnd & _ & _).
  cbn [makedirs]. rewrite Hsp. cbn [fst snd].
  destruct tl as [|t tl']; [congruence|]. cbn [is_nil fst snd negb andb].
  pose proof (do_mkdir_inside W D h [] p (Forall_nil _) Hin) as Hleaf.
  destruct (is_nil hd); cbn [negb andb]; [exact Hleaf|].
  destruct (o_exists (W h) hd) eqn:Eex; cbn [negb andb]; [exact Hleaf|].
  destruct Hhd as [-> | Hhd]; [rewrite Hex in Eex; discriminate|].
  specialize (IH h hd Hhd).
  destruct (makedirs W f h hd) as [new o]. cbn [fst] in IH.
  rewrite (proj2 (str_eqb_false (t :: tl') [dot]) Hnd).
  destruct o; [apply do_mkdir_inside; assumption | apply do_mkdir_inside; assumption | exact IH | exact IH].
Qed.

Lemma created_in ops p : In p (created ops) -> In (SMkdir p MkOk) ops.
Proof.
  induction ops as [|s ops IH]; cbn [created]; [intros []|].
  destruct s as [q r | q ok].
  - destruct r; cbn [In]; intros H.
    + destruct H as [-> | H]; [left; reflexivity | right; apply IH; exact H].
    + right. apply IH. exact H.
    + right. apply IH. exact H.
  - intros H. right. apply IH. exact H.
Qed.

Lemma created_inside D ops :
  Forall (sys_inside D) ops -> Forall (inside D) (created ops).
Proof.
  intros H. apply Forall_forall. intros p Hp. apply created_in in Hp.
  rewrite Forall_forall in H. apply (H _ Hp).
Qed.

Lemma split_head_shorter p : snd (split p) <> [] -> length (fst (split p)) < length p.
Proof.
  intros H. pose proof (split_length p) as L.
  destruct (snd (split p)); [congruence|]. cbn [length] in L. lia.
Qed.

(* fuel: S (length name) is enough for EVERY name (not only those inside D): makedirs recurses
   on the head only when the tail is not empty, and then the head is shorter *)
Lemma makedirs_fuel_enough W : forall fuel h name,
  length name < fuel -> snd (makedirs W fuel h name) <> MOutOfFuel.
Proof.
  induction fuel as [|f IH]; intros h name Hlen; [lia|].
  cbn [makedirs].
  set (ht := if is_nil (snd (split name)) then split (fst (split name)) else split name).
  assert (Hht : snd ht <> [] -> length (fst ht) < length name).
  { unfold ht. destruct (is_nil (snd (split name))).
    - intros Ht. apply split_head_shorter in Ht. pose proof (split_length name). lia.
    - apply split_head_shorter. }
  destruct (is_nil (fst ht)); cbn [negb andb]; [apply do_mkdir_not_oof|].
  destruct (is_nil (snd ht)) eqn:E2; cbn [negb andb]; [apply do_mkdir_not_oof|].
  destruct (o_exists (W h) (fst ht)); cbn [negb andb]; [apply do_mkdir_not_oof|].
  assert (Hl : length (fst ht) < f).
  { assert (Hn : snd ht <> []) by (intros E; rewrite E in E2; discriminate).
    specialize (Hht Hn). lia. }
  specialize (IH h (fst ht) Hl).
  destruct (makedirs W f h (fst ht)) as [new o]. cbn [snd] in IH.
  assert (Hgo : snd (if str_eqb (snd ht) [dot] then (new, MDone) else do_mkdir W h new name)
                <> MOutOfFuel).
  { destruct (str_eqb (snd ht) [dot]); [discriminate | apply do_mkdir_not_oof]. }
  destruct o; [exact Hgo | exact Hgo | discriminate | exact IH].
Qed.

(* os.makedirs(D) itself, D existing with its parent: one refused mkdir(D), nothing created.
   (extract_member never makes this call: see the isdir guard in expand_ops.) *)
Lemma makedirs_existing_dir W D h :
  ends_nonslash D ->
  o_exists (W h) (dirname D) = true ->
  o_mkdir (W h) D <> MkOk ->
  created (fst (makedirs W (makedirs_fuel D) h D)) = [].
Proof.
  intros (A & x & HD & Hx) Hpar Hmk. unfold makedirs_fuel. cbn [makedirs].
  rewrite split_eq. cbn [fst snd].
  assert (Ht : is_nil (rev (take_to_slash_rev (rev D))) = false).
  { rewrite HD, rev_unit. cbn [take_to_slash_rev].
    destruct (N.eqb_spec x slash) as [->|_]; [congruence|].
    cbn [rev]. destruct (rev (take_to_slash_rev (rev A))); reflexivity. }
  rewrite Ht. cbn [fst snd]. rewrite Hpar. cbn [negb]. rewrite !andb_false_r.
  rewrite do_mkdir_fst. cbn [app]. rewrite app_nil_r.
  destruct (o_mkdir (W h) D); [congruence | reflexivity | reflexivity].
Qed.

(* The expansion runs out of fuel on no list of effects: makedirs is always given makedirs_fuel. *)
Lemma expand_ops_fuel W ops : forall h, snd (expand_ops W h ops) <> XMakedirs MOutOfFuel.
Proof.
  induction ops as [|[p | p] ops IH]; intros h; cbn [expand_ops].
  - discriminate.
  - destruct (o_isdir (W h) p); [apply IH|].
    pose proof (makedirs_fuel_enough W (makedirs_fuel p) h p (makedirs_fuel_lt p)) as M.
    destruct (makedirs W (makedirs_fuel p) h p) as [new o]. cbn [snd] in M.
    destruct o; [|discriminate|discriminate|congruence].
    specialize (IH (h ++ new)). destruct (expand_ops W (h ++ new) ops) as [new' o']. exact IH.
  - destruct (o_open (W h) p); [|discriminate].
    specialize (IH (h ++ [SOpen p true])).
    destruct (expand_ops W (h ++ [SOpen p true]) ops) as [new' o']. exact IH.
Qed.

Lemma expand_ops_inside W D :
  D <> [] -> ends_with_char slash D = false ->
  (forall h, o_exists (W h) D = true) ->
  (forall h, o_isdir (W h) D = true) ->
  forall ops h, Forall (op_contained D) ops -> Forall (sys_inside D) (fst (expand_ops W h ops)).
Proof.
  intros HD He Hex Hdir. induction ops as [|op ops IH]; intros h H; cbn [expand_ops].
  - constructor.
  - inversion H as [|? ? Hop H']; subst.
    destruct op as [p | p]; cbn [op_contained] in Hop.
    + destruct (o_isdir (W h) p) eqn:Eis; [apply IH; exact H'|].
      (* the isdir guard keeps makedirs away from D itself *)
      destruct Hop as [-> | Hin]; [rewrite Hdir in Eis; discriminate|].
      pose proof (makedirs_inside W D HD He Hex (makedirs_fuel p) h p Hin) as M.
      destruct (makedirs W (makedirs_fuel p) h p) as [new o]. cbn [fst] in M.
      destruct o; [|exact M|exact M|exact M].
      specialize (IH (h ++ new) H').
      destruct (expand_ops W (h ++ new) ops) as [new' o']. cbn [fst] in *.
      apply Forall_app. split; assumption.
    + destruct (o_open (W h) p).
      * specialize (IH (h ++ [SOpen p true]) H').
        destruct (expand_ops W (h ++ [SOpen p true]) ops) as [new' o']. cbn [fst] in *.
        constructor; [exact Hop | exact IH].
      * constructor; [exact Hop | constructor].
Qed.

(* Every mkdir and every open(.., "wb") made by extractall, in every evolution of the file
   system in which the destination stays an existing directory, is strictly inside it. *)
Theorem extractall_calls_inside (W : world) cwd dst names h0 :
  isabs cwd = true ->
  all_slash (dest_dir cwd dst) = false ->
  let D := dest_dir cwd dst in
  (forall h, o_exists (W h) D = true) ->
  (forall h, o_isdir (W h) D = true) ->
  Forall (sys_inside D) (fst (expand_ops W h0 (fst (extractall cwd dst names)))).
Proof.
  intros Hcwd Hroot D Hex Hdir.
  destruct (normal_dir_ends D (dest_dir_normal cwd dst Hcwd Hroot)) as [Hne He].
  apply expand_ops_inside; [exact Hne | exact He | exact Hex | exact Hdir|].
  exact (extractall_contained cwd dst names Hcwd Hroot).
Qed.

Lemma mem_app_l p l1 l2 : mem p l1 = true -> mem p (l1 ++ l2) = true.
Proof. unfold mem. rewrite existsb_app. intros ->. reflexivity. Qed.

Lemma mem_in p l : In p l -> mem p l = true.
Proof. intros H. unfold mem. apply existsb_exists. exists p. split; [exact H | apply str_eqb_refl]. Qed.

Lemma fs_world_keeps fs0 D : In (normpath D) fs0 ->
  (forall h, o_exists (fs_world fs0 h) D = true) /\ (forall h, o_isdir (fs_world fs0 h) D = true).
Proof.
  intros H. split; intros h; cbn; apply mem_app_l, mem_in; exact H.
Qed.
