(* C15 — extractall stays inside its destination.  The idea: normpath of an absolute path is one or
   two slashes followed by clean components joined by slashes, so a normalised path that has
   D ++ "/" as a string prefix has the components of D followed by clean ones. *)
From Coq Require Import List NArith Bool.
From MW Require Import Common.Str C15.Model.
Import ListNotations.

(* A path component that cannot move a path upwards or sideways *)
Definition clean (c : str) : Prop :=
  c <> [] /\ c <> [dot] /\ c <> dotdot /\ no_char slash c.

(* p is lexically strictly below directory D: D/c1/../cn with clean components *)
Definition inside (D p : str) : Prop :=
  exists r, p = D ++ slash :: r /\ Forall clean (split_on slash r).

Definition inside_or_eq (D p : str) : Prop := p = D \/ inside D p.

(* D is a normalised absolute directory other than the root *)
Definition normal_dir (D : str) : Prop :=
  exists i cs, (i = 1 \/ i = 2) /\ cs <> [] /\ Forall clean cs /\ D = repeat slash i ++ join slash cs.

(* the member `name` is refused: its normalised target does not start with D ++ "/" (nuwiki.py:306) *)
Definition escapes (D name : str) : Prop :=
  prefixb (D ++ [slash]) (normpath (pjoin (D ++ [slash]) name)) = false.

Lemma norm_comps_clean comps : forall acc,
  Forall (no_char slash) comps -> Forall clean acc ->
  Forall clean (norm_comps true comps acc).
Proof.
  induction comps as [|c rest IH]; intros acc Hc Hacc; cbn [norm_comps].
  - apply Forall_rev. exact Hacc.
  - inversion Hc as [|? ? Hc1 Hc2]; subst.
    destruct (str_eqb c []) eqn:E1; cbn [orb]; [apply IH; assumption|].
    destruct (str_eqb c [dot]) eqn:E2; cbn [orb]; [apply IH; assumption|].
    destruct (str_eqb c dotdot) eqn:E3; cbn [negb orb andb].
    + (* c = ".." : with init = true it is appended only after another "..", impossible *)
      destruct acc as [|h acc'].
      * apply IH; assumption.
      * inversion Hacc as [|? ? Hh Hacc']; subst.
        destruct (str_eqb h dotdot) eqn:E4.
        -- apply str_eqb_spec in E4. destruct Hh as (_ & _ & Hh & _). contradiction.
        -- apply IH; assumption.
    + apply IH; [assumption|]. constructor; [|assumption].
      apply str_eqb_false in E1, E2, E3. repeat split; assumption.
Qed.

(* isabs and initial_slashes match on the literal 47: on any other character such a match takes
   its default branch *)
Lemma slash_or_other (b : N) :
  b = slash \/ forall (A : Type) (x y : A), match b with 47%N => x | _ => y end = y.
Proof.
  destruct b as [|q]; [right; reflexivity|].
  do 6 (destruct q as [q|q|]; try (right; reflexivity)).
  left. reflexivity.
Qed.

Lemma isabs_cons p : isabs p = true -> exists q, p = slash :: q.
Proof.
  destruct p as [|a q]; [discriminate|].
  destruct (slash_or_other a) as [-> | Ha]; [exists q; reflexivity|].
  unfold isabs. rewrite Ha. discriminate.
Qed.

Lemma initial_slashes_abs p : isabs p = true -> initial_slashes p = 1 \/ initial_slashes p = 2.
Proof.
  intros H. destruct (isabs_cons p H) as [q ->].
  destruct q as [|b q]; [left; reflexivity|].
  destruct (slash_or_other b) as [-> | Hb]; [|left; apply Hb].
  destruct q as [|c q]; [right; reflexivity|].
  destruct (slash_or_other c) as [-> | Hc]; [left; reflexivity | right; apply Hc].
Qed.

Lemma normpath_abs_form p :
  isabs p = true ->
  exists i cs, (i = 1 \/ i = 2) /\ Forall clean cs /\ normpath p = repeat slash i ++ join slash cs.
Proof.
  intros Habs. destruct p as [|a p]; [discriminate|].
  unfold normpath. set (q := a :: p) in *.
  pose proof (initial_slashes_abs q Habs) as Hi.
  exists (initial_slashes q), (norm_comps true (split_on slash q) []).
  split; [exact Hi|]. split.
  - apply norm_comps_clean; [apply split_on_fields_no_char | constructor].
  - destruct Hi as [-> | ->]; reflexivity.
Qed.

Lemma normpath_abs_isabs p : isabs p = true -> isabs (normpath p) = true.
Proof.
  intros H. destruct (normpath_abs_form p H) as (i & cs & [->| ->] & _ & ->); reflexivity.
Qed.

Lemma clean_no_slash cs : Forall clean cs -> Forall (no_char slash) cs.
Proof. intros H. eapply Forall_impl; [|exact H]. intros c (_ & _ & _ & Hc). exact Hc. Qed.

Lemma split_slashes i x : split_on slash (repeat slash i ++ x) = repeat [] i ++ split_on slash x.
Proof. induction i as [|i IH]; cbn [repeat app]; [reflexivity|]. cbn [split_on]. rewrite N.eqb_refl, IH. reflexivity. Qed.

Lemma split_join_clean cs : Forall clean cs ->
  split_on slash (join slash cs) = match cs with [] => [[]] | _ => cs end.
Proof.
  intros H. destruct cs as [|c cs]; [reflexivity|].
  apply split_on_join; [discriminate | apply clean_no_slash; exact H].
Qed.

(* The empty fields in front of the first non-empty one count the leading slashes.  After them come the fields of a
   normalised path: its clean components, or the single empty field of the root. *)
Lemma strip_leading_nils i j (c : str) l ct :
  c <> [] -> Forall clean ct ->
  repeat [] i ++ c :: l = repeat [] j ++ match ct with [] => [[]] | _ => ct end ->
  c :: l = match ct with [] => [[]] | _ => ct end.
Proof.
  intros Hc Hct. revert j. induction i as [|i IH]; intros [|j] E; cbn [repeat app] in E.
  - exact E.
  - congruence.
  - (* an empty head on the right is the single field of the root *)
    destruct ct as [|t ct].
    + injection E as E. destruct i; discriminate E.
    + inversion Hct as [|? ? Ht _]; subst. destruct Ht as [Ht _]. congruence.
  - injection E as E. exact (IH j E).
Qed.

(* a normalised path that starts with D ++ "/" lies inside D: compare the fields of both sides *)
Lemma normal_prefix_inside D j ct :
  normal_dir D -> Forall clean ct ->
  let T := repeat slash j ++ join slash ct in
  prefixb (D ++ [slash]) T = true ->
  inside D T.
Proof.
  intros (i & cs & _ & Hne & Hcs & ->) Hct T Hp.
  apply prefixb_spec in Hp as [r Hr].
  rewrite <- app_assoc in Hr. cbn [app] in Hr.
  exists r. split; [exact Hr|].
  assert (Hs : split_on slash T = split_on slash (repeat slash i ++ join slash cs) ++ split_on slash r).
  { rewrite Hr. apply split_on_app. }
  unfold T in Hs. rewrite !split_slashes, !split_join_clean in Hs by assumption.
  destruct cs as [|c cs]; [congruence|].
  inversion Hcs as [|? ? Hc _]; subst.
  rewrite <- app_assoc in Hs. cbn [app] in Hs. symmetry in Hs.
  apply strip_leading_nils in Hs; [|apply Hc|exact Hct].
  (* the components of T are those of D followed by those of r *)
  destruct ct as [|t ct]; [destruct Hc; congruence|].
  rewrite <- Hs, app_comm_cons in Hct. apply Forall_app in Hct. apply Hct.
Qed.

Lemma drop_to_slash_rev_app l rest :
  no_char slash l -> drop_to_slash_rev (l ++ slash :: rest) = slash :: rest.
Proof.
  induction l as [|x l IH]; intros H; cbn.
  - reflexivity.
  - destruct (N.eqb_spec x slash) as [->|Hne].
    + exfalso. apply H. left. reflexivity.
    + apply IH. intros Hin. apply H. right. exact Hin.
Qed.

Lemma ends_with_char_unit c s x : ends_with_char c (s ++ [x]) = N.eqb x c.
Proof. unfold ends_with_char. rewrite rev_unit. reflexivity. Qed.

Lemma ends_with_char_snoc c s : ends_with_char c (s ++ [c]) = true.
Proof. rewrite ends_with_char_unit. apply N.eqb_refl. Qed.

Lemma ends_with_char_app c a b : b <> [] -> ends_with_char c (a ++ b) = ends_with_char c b.
Proof.
  intros Hb. destruct (exists_last Hb) as (b' & x & ->).
  rewrite app_assoc, !ends_with_char_unit. reflexivity.
Qed.

(* posixpath.dirname strips the trailing slashes of the head: for a head that is not empty and
   does not end in one, nothing is stripped *)
Lemma dirname_app h l :
  h <> [] -> ends_with_char slash h = false -> no_char slash l ->
  dirname (h ++ slash :: l) = h.
Proof.
  intros Hne He Hl. unfold dirname.
  rewrite rev_app_distr. cbn [rev]. rewrite <- app_assoc. cbn [app].
  rewrite drop_to_slash_rev_app.
  2:{ intros Hin. apply Hl. apply in_rev. exact Hin. }
  destruct (exists_last Hne) as (A & x & ->).
  rewrite ends_with_char_unit in He. rewrite rev_unit.
  cbn [is_nil orb all_slash rstrip_slash_rev]. rewrite N.eqb_refl, He. cbn [andb].
  cbn [rev]. rewrite rev_involutive. reflexivity.
Qed.

Lemma join_snoc cs l : cs <> [] -> join slash (cs ++ [l]) = join slash cs ++ slash :: l.
Proof.
  induction cs as [|c cs IH]; intros H; [congruence|].
  destruct cs as [|c' cs]; [reflexivity|].
  change (join slash ((c :: c' :: cs) ++ [l])) with (c ++ slash :: join slash ((c' :: cs) ++ [l])).
  rewrite IH by discriminate.
  change (join slash (c :: c' :: cs)) with (c ++ slash :: join slash (c' :: cs)).
  rewrite <- app_assoc. reflexivity.
Qed.

Lemma clean_ends c : clean c -> ends_with_char slash c = false.
Proof.
  intros (Hne & _ & _ & Hs). destruct (exists_last Hne) as (A & x & ->).
  rewrite ends_with_char_unit. apply N.eqb_neq. intros ->.
  apply Hs. apply in_or_app. right. left. reflexivity.
Qed.

Lemma join_ends cs : forall a, cs <> [] -> Forall clean cs ->
  ends_with_char slash (a ++ join slash cs) = false.
Proof.
  induction cs as [|c cs IH]; intros a Hne Hc; [congruence|].
  inversion Hc as [|? ? Hc1 Hc2]; subst.
  destruct cs as [|c' cs].
  - cbn [join]. rewrite ends_with_char_app; [apply clean_ends; exact Hc1 | apply Hc1].
  - change (join slash (c :: c' :: cs)) with (c ++ slash :: join slash (c' :: cs)).
    replace (a ++ c ++ slash :: join slash (c' :: cs))
      with ((a ++ c ++ [slash]) ++ join slash (c' :: cs)).
    2:{ rewrite <- !app_assoc. reflexivity. }
    apply IH; [discriminate | exact Hc2].
Qed.

Lemma inside_last D p : inside D p ->
  exists hd c, p = hd ++ slash :: c /\ clean c /\ inside_or_eq D hd.
Proof.
  intros (r & -> & Hr).
  destruct (exists_last (split_on_nonnil slash r)) as (init & c & Hsp).
  rewrite Hsp in Hr. apply Forall_app in Hr as [Hinit Hc].
  inversion Hc as [|? ? Hc' _]; subst.
  assert (Er : r = join slash (init ++ [c])) by (rewrite <- Hsp, join_split_on; reflexivity).
  destruct init as [|c0 init].
  - exists D, c. split; [rewrite Er; reflexivity|]. split; [exact Hc' | left; reflexivity].
  - rewrite join_snoc in Er by discriminate.
    exists (D ++ slash :: join slash (c0 :: init)), c. split; [|split; [exact Hc'|]].
    + rewrite Er, <- app_assoc. reflexivity.
    + right. exists (join slash (c0 :: init)). split; [reflexivity|].
      rewrite split_join_clean by assumption. exact Hinit.
Qed.

Lemma inside_ends D p : inside D p -> ends_with_char slash p = false.
Proof.
  intros Hin. destruct (inside_last D p Hin) as (hd & c & -> & Hc & _).
  rewrite ends_with_char_app by discriminate.
  change (slash :: c) with ([slash] ++ c). rewrite ends_with_char_app by apply Hc.
  apply clean_ends. exact Hc.
Qed.

Lemma inside_or_eq_ends D p :
  D <> [] -> ends_with_char slash D = false -> inside_or_eq D p ->
  p <> [] /\ ends_with_char slash p = false.
Proof.
  intros Hne He [-> | Hin]; [split; assumption|].
  split; [|exact (inside_ends D p Hin)].
  destruct Hin as (r & -> & _). destruct D; discriminate.
Qed.

Lemma dirname_inside D p :
  D <> [] -> ends_with_char slash D = false -> inside D p -> inside_or_eq D (dirname p).
Proof.
  intros Hne He Hin. destruct (inside_last D p Hin) as (hd & c & -> & Hc & Hhd).
  destruct (inside_or_eq_ends D hd Hne He Hhd) as [Hne' He'].
  rewrite dirname_app; [exact Hhd | exact Hne' | exact He' | apply Hc].
Qed.

Lemma normal_dir_isabs D : normal_dir D -> isabs D = true.
Proof. intros (i & cs & [-> | ->] & _ & _ & ->); reflexivity. Qed.

Lemma normal_dir_ends D : normal_dir D -> D <> [] /\ ends_with_char slash D = false.
Proof.
  intros HD. split.
  - pose proof (normal_dir_isabs D HD) as H. intros ->. discriminate H.
  - destruct HD as (i & cs & _ & Hne & Hc & ->). apply join_ends; assumption.
Qed.

Lemma pjoin_abs D name : isabs D = true -> isabs (pjoin (D ++ [slash]) name) = true.
Proof.
  intros HD. unfold pjoin. destruct (isabs name) eqn:E; [exact E|].
  rewrite ends_with_char_snoc, orb_true_r.
  destruct D; [discriminate|]. exact HD.
Qed.

(* what one effect of extract_member may touch: a makedirs reaches D itself at most, a write is
   strictly inside *)
Definition op_contained (D : str) (o : fsop) : Prop :=
  match o with Makedirs p => inside_or_eq D p | OpenWrite p => inside D p end.

Lemma op_contained_path D o : op_contained D o -> inside_or_eq D (op_path o).
Proof. destruct o as [p | p]; intros H; [exact H | right; exact H]. Qed.

Lemma op_contained_write D o :
  op_contained D o -> match o with OpenWrite p => inside D p | _ => True end.
Proof. destruct o as [p | p]; intros H; [exact I | exact H]. Qed.

(* extract_member with the destination extractall hands it *)
Lemma extract_member_slash D name :
  extract_member (D ++ [slash]) name =
    let target := normpath (pjoin (D ++ [slash]) name) in
    if prefixb (D ++ [slash]) target then
      inl (if ends_with_char slash name then [Makedirs target]
           else [Makedirs (dirname target); OpenWrite target])
    else inr (Rejected target).
Proof.
  unfold extract_member. rewrite ends_with_char_snoc. cbn [negb].
  destruct (prefixb (D ++ [slash]) (normpath (pjoin (D ++ [slash]) name))); cbn [negb]; [|reflexivity].
  destruct (ends_with_char slash name); reflexivity.
Qed.

Lemma extract_member_escapes D name :
  escapes D name -> exists t, extract_member (D ++ [slash]) name = inr (Rejected t).
Proof.
  intros H. rewrite extract_member_slash. cbv zeta. rewrite H. eexists. reflexivity.
Qed.

Lemma extract_member_accepted D name :
  ~ escapes D name -> exists ops, extract_member (D ++ [slash]) name = inl ops.
Proof.
  intros H. rewrite extract_member_slash. cbv zeta. unfold escapes in H.
  destruct (prefixb (D ++ [slash]) (normpath (pjoin (D ++ [slash]) name))); [|congruence].
  eexists. reflexivity.
Qed.

Lemma extract_member_contained D name ops :
  normal_dir D ->
  extract_member (D ++ [slash]) name = inl ops -> Forall (op_contained D) ops.
Proof.
  intros HD. rewrite extract_member_slash. cbv zeta.
  set (T := normpath (pjoin (D ++ [slash]) name)).
  destruct (prefixb (D ++ [slash]) T) eqn:Hp; [|discriminate].
  intros [= <-].
  assert (Hin : inside D T).
  { destruct (normpath_abs_form _ (pjoin_abs D name (normal_dir_isabs D HD))) as (j & ct & _ & Hct & HT).
    fold T in HT. clearbody T. subst T.
    exact (normal_prefix_inside D j ct HD Hct Hp). }
  destruct (normal_dir_ends D HD) as [Hne He].
  destruct (ends_with_char slash name).
  - constructor; [right; exact Hin | constructor].
  - constructor; [apply dirname_inside; assumption|].
    constructor; [exact Hin | constructor].
Qed.

Lemma extract_members_contained D names :
  normal_dir D -> Forall (op_contained D) (fst (extract_members (D ++ [slash]) names)).
Proof.
  intros HD. induction names as [|n rest IH]; cbn [extract_members].
  - constructor.
  - destruct (extract_member (D ++ [slash]) n) as [ops|o] eqn:E; [|constructor].
    destruct (extract_members (D ++ [slash]) rest) as [ops' o']. cbn [fst] in *.
    apply Forall_app. split; [exact (extract_member_contained D n ops HD E) | exact IH].
Qed.

Lemma dest_dir_normal cwd dst :
  isabs cwd = true ->
  all_slash (dest_dir cwd dst) = false ->
  normal_dir (dest_dir cwd dst).
Proof.
  intros Hcwd Hroot. unfold dest_dir in *.
  assert (Habs : isabs (abspath cwd dst) = true).
  { unfold abspath. apply normpath_abs_isabs. destruct (isabs dst) eqn:E; [exact E|].
    unfold pjoin. rewrite E. destruct cwd as [|c cwd]; [discriminate|].
    cbn [is_nil orb]. destruct (ends_with_char slash (c :: cwd)); exact Hcwd. }
  destruct (normpath_abs_form _ Habs) as (i & cs & Hi & Hc & HD).
  exists i, cs. repeat split; try assumption.
  intros ->. rewrite HD in Hroot. cbn [join] in Hroot. rewrite app_nil_r in Hroot.
  destruct Hi as [-> | ->]; cbn in Hroot; discriminate.
Qed.

Theorem extractall_contained cwd dst names :
  isabs cwd = true ->
  all_slash (dest_dir cwd dst) = false ->           (* the destination is not the root *)
  Forall (op_contained (dest_dir cwd dst)) (fst (extractall cwd dst names)).
Proof.
  intros Hcwd Hroot. unfold extractall.
  apply extract_members_contained, dest_dir_normal; assumption.
Qed.

(* An escaping member stops the run: the outcome is Rejected and nothing after it is touched;
   what was done before it is the run of the members before it. *)
Theorem extract_members_rejects D pre name post :
  Forall (fun n => ~ escapes D n) pre ->
  escapes D name ->
  exists ops t,
    extract_members (D ++ [slash]) (pre ++ name :: post) = (ops, Rejected t) /\
    extract_members (D ++ [slash]) pre = (ops, Done).
Proof.
  intros Hpre Hesc. induction Hpre as [|p pre Hp _ IH]; cbn [app extract_members].
  - destruct (extract_member_escapes D name Hesc) as [t ->]. exists [], t. split; reflexivity.
  - destruct (extract_member_accepted D p Hp) as [o1 ->].
    destruct IH as (ops & t & -> & ->). exists (o1 ++ ops), t. split; reflexivity.
Qed.
