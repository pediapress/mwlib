(* C02 — the algorithmic model of ParseLines.analyze (ModelLines.v) computes the denoted prefix tree den_list (Model.v)
   (analyze_model_DL); the denoted tree holds the text of all lines in source order (den_list_text_in_order); the lines of
   the examples in Properties.v. *)
From Coq Require Import List NArith Bool Arith Lia.
From MW Require Import Common.Str C02.Model C02.ModelLines.
Import ListNotations.

Local Notation m := lines_measure.

Lemma m_nil : m [] = 0.
Proof. reflexivity. Qed.

Lemma m_cons l r : m (l :: r) = S (length (lpre l)) + m r.
Proof. reflexivity. Qed.

Lemma m_app a b : m (a ++ b) = m a + m b.
Proof.
  induction a as [|x a IH]; [reflexivity|].
  change ((x :: a) ++ b) with (x :: (a ++ b)). rewrite !m_cons, IH. lia.
Qed.

Lemma m_zero ls : m ls = 0 -> ls = [].
Proof. destruct ls as [|l r]; [reflexivity|]. rewrite m_cons. lia. Qed.

Lemma lpre_strip1 l : lpre (strip1 l) = tl (lpre l).
Proof. reflexivity. Qed.

Lemma m_strip_ne a : Forall (fun l => lpre l <> []) a -> m (map strip1 a) + length a = m a.
Proof.
  induction 1 as [|x a Hx Ha IH]; [reflexivity|].
  change (map strip1 (x :: a)) with (strip1 x :: map strip1 a). rewrite !m_cons, lpre_strip1.
  destruct (lpre x) as [|c p]; [congruence|]. cbn [tl length]. lia.
Qed.

Lemma long_prefix_ne l : long_prefix l = true -> lpre l <> [].
Proof. unfold long_prefix. destruct (lpre l); [discriminate|congruence]. Qed.

Lemma take_sub_spec c ls a b :
  take_sub c ls = (a, b) -> ls = a ++ b /\ Forall (fun l => lpre l <> []) a.
Proof.
  revert a b; induction ls as [|l r IH]; intros a b H; cbn [take_sub] in H.
  - inversion H; subst. split; [reflexivity|constructor].
  - destruct (N.eqb (head_char l) c && long_prefix l) eqn:E.
    + destruct (take_sub c r) as [a' b'] eqn:Et. inversion H; subst.
      destruct (IH _ _ eq_refl) as [H1 H2]. split.
      * cbn [app]. congruence.
      * constructor; [|exact H2]. apply andb_true_iff in E as [_ E]. apply long_prefix_ne; exact E.
    + inversion H; subst. split; [reflexivity|constructor].
Qed.

(* an item = a line l with a non-empty prefix and the lines sub it swallows.  Stripping one prefix char of the item
   and leaving out the lines after it gives strictly less measure: every recursive call of den_list, items_of and
   collect_items is on less. *)
Lemma item_measure c l r sub rest : lpre l <> [] -> take_sub c r = (sub, rest) ->
  r = sub ++ rest /\ m (map strip1 sub) <= m (map strip1 (l :: sub)) /\
  S (m (map strip1 (l :: sub))) + m rest <= m (l :: r).
Proof.
  intros Hl Ht. destruct (take_sub_spec _ _ _ _ Ht) as [Hr Hne].
  assert (Hs : m (map strip1 (l :: sub)) + length (l :: sub) = m (l :: sub))
    by (apply m_strip_ne; constructor; assumption).
  assert (Hm : m (l :: r) = m (l :: sub) + m rest) by (rewrite Hr; apply (m_app (l :: sub))).
  pose proof (m_cons (strip1 l) (map strip1 sub)) as Hc.
  change (strip1 l :: map strip1 sub) with (map strip1 (l :: sub)) in Hc. cbn [length] in Hs.
  split; [exact Hr|]. split; lia.
Qed.

Lemma long_prefix_len l : (1 <? length (lpre l)) = long_prefix l.
Proof. unfold long_prefix. destruct (lpre l) as [|a [|b q]]; reflexivity. Qed.

Lemma same_prefix_long c l :
  same_prefix c l && (1 <? length (lpre l)) = N.eqb (head_char l) c && long_prefix l.
Proof.
  rewrite long_prefix_len. unfold same_prefix, head_char, long_prefix.
  destruct (lpre l) as [|a [|b q]]; rewrite ?andb_false_r; reflexivity.
Qed.

Lemma same_prefix_head c l : c <> 0%N -> same_prefix c l = N.eqb (head_char l) c.
Proof.
  intros Hc. unfold same_prefix, head_char. destruct (lpre l) as [|a q]; [|reflexivity].
  symmetry. apply N.eqb_neq. congruence.
Qed.

Lemma inner_while_take_sub c item ls :
  inner_while c item ls = (item ++ fst (take_sub c ls), snd (take_sub c ls)).
Proof.
  revert item; induction ls as [|l r IH]; intros item; cbn [inner_while take_sub].
  - cbn [fst snd]. rewrite app_nil_r. reflexivity.
  - rewrite same_prefix_long. destruct (N.eqb (head_char l) c && long_prefix l) eqn:E.
    + rewrite IH. destruct (take_sub c r) as [a b]. cbn [fst snd]. rewrite <- app_assoc. reflexivity.
    + cbn [fst snd]. rewrite app_nil_r. reflexivity.
Qed.

(* items_of with a sufficient counter is a loop: it stops at the end of the lines or at a line with another first
   char, or takes one item and goes on behind the lines that item swallows *)
Lemma items_of_loop rec c (P : list line -> list tree * list line -> Prop) :
  P [] ([], []) ->
  (forall l r, N.eqb (head_char l) c = false -> P (l :: r) ([], l :: r)) ->
  (forall l r sub rest its rest', N.eqb (head_char l) c = true -> take_sub c r = (sub, rest) -> r = sub ++ rest ->
     P rest (its, rest') -> P (l :: r) (Node LLi (rec (map strip1 (l :: sub))) :: its, rest')) ->
  forall n ls, length ls <= n -> P ls (items_of rec n c ls).
Proof.
  intros Hnil Hstop Hitem. induction n as [|n IH]; intros ls Hn.
  - destruct ls; [exact Hnil|cbn [length] in Hn; lia].
  - destruct ls as [|l r]; [exact Hnil|]. cbn [items_of].
    destruct (N.eqb (head_char l) c) eqn:Eh; [|apply Hstop; exact Eh].
    destruct (take_sub c r) as [sub rest] eqn:Et.
    destruct (take_sub_spec _ _ _ _ Et) as [Hr _].
    specialize (IH rest). destruct (items_of rec n c rest) as [its rest'].
    apply (Hitem l r sub rest its rest' Eh Et Hr). apply IH.
    cbn [length] in Hn. rewrite Hr, app_length in Hn. lia.
Qed.

Lemma items_of_fuel rec c : forall n ls, length ls <= n -> forall n2, length ls <= n2 ->
  items_of rec n c ls = items_of rec n2 c ls.
Proof.
  apply (items_of_loop rec c (fun ls res => forall n2, length ls <= n2 -> res = items_of rec n2 c ls)).
  - intros n2 _. destruct n2; reflexivity.
  - intros l r Eh n2 _. destruct n2 as [|n2]; [reflexivity|]. cbn [items_of]. rewrite Eh. reflexivity.
  - intros l r sub rest its rest' Eh Et Hr IH n2 Hn2. cbn [length] in Hn2. rewrite Hr, app_length in Hn2.
    destruct n2 as [|n2]; [lia|]. cbn [items_of]. rewrite Eh, Et, <- (IH n2) by lia. reflexivity.
Qed.

Lemma items_of_suffix rec c : forall n ls, length ls <= n -> exists p, ls = p ++ snd (items_of rec n c ls).
Proof.
  apply (items_of_loop rec c (fun ls res => exists p, ls = p ++ snd res)).
  - exists []. reflexivity.
  - intros l r _. exists []. reflexivity.
  - intros l r sub rest its rest' _ _ Hr [p Hp]. cbn [snd] in *.
    exists (l :: sub ++ p). cbn [app]. rewrite <- app_assoc, <- Hp, <- Hr. reflexivity.
Qed.

Lemma items_of_suffix_cons rec c l r its rest :
  N.eqb (head_char l) c = true -> items_of rec (length (l :: r)) c (l :: r) = (its, rest) -> exists p, r = p ++ rest.
Proof.
  intros Hh H. cbn [length items_of] in H. rewrite Hh in H.
  destruct (take_sub c r) as [sub rest0] eqn:Et. destruct (take_sub_spec _ _ _ _ Et) as [Hr _].
  destruct (items_of_suffix rec c (length r) rest0) as [p Hp]; [rewrite Hr, app_length; lia|].
  destruct (items_of rec (length r) c rest0) as [its' rest']. injection H as _ <-. cbn [snd] in Hp.
  exists (sub ++ p). rewrite <- app_assoc, <- Hp. exact Hr.
Qed.

Lemma items_of_rest_head rec c : forall n ls, length ls <= n ->
  match snd (items_of rec n c ls) with [] => True | l' :: _ => N.eqb (head_char l') c = false end.
Proof.
  apply (items_of_loop rec c (fun _ res => match snd res with [] => True | l' :: _ => N.eqb (head_char l') c = false end)).
  - exact I.
  - intros l r Eh. exact Eh.
  - intros l r sub rest its rest' _ _ _ IH. exact IH.
Qed.

Lemma head_char_ne l c : c <> 0%N -> N.eqb (head_char l) c = true -> lpre l <> [].
Proof.
  intros Hc H. apply N.eqb_eq in H. unfold head_char in H. destruct (lpre l); [congruence|discriminate].
Qed.

Lemma items_of_ext rec1 rec2 c k : c <> 0%N -> (forall x, m x < k -> rec1 x = rec2 x) ->
  forall n ls, m ls <= k -> items_of rec1 n c ls = items_of rec2 n c ls.
Proof.
  intros Hc Hrec. induction n as [|n IH]; intros ls Hk; [reflexivity|].
  destruct ls as [|l r]; [reflexivity|]. cbn [items_of].
  destruct (N.eqb (head_char l) c) eqn:Eh; [|reflexivity].
  destruct (take_sub c r) as [sub rest] eqn:Et.
  assert (Hl : lpre l <> []) by (eapply head_char_ne; eassumption).
  destruct (item_measure c l r sub rest Hl Et) as (_ & _ & Hm).
  rewrite (IH rest) by lia. rewrite (Hrec (map strip1 (l :: sub))) by lia. reflexivity.
Qed.

Lemma split_dl_some c l d : split_dl c l = Some d ->
  c = c_semi /\ (exists a, lpre l = [a]) /\ ldesc l = Some d.
Proof.
  unfold split_dl. destruct (N.eqb c c_semi) eqn:E; [|discriminate]. apply N.eqb_eq in E.
  destruct (lpre l) as [|a [|b q]]; destruct (ldesc l) as [d'|]; try discriminate.
  intros H; inversion H; subst. split; [reflexivity|]. split; [exists a; reflexivity|reflexivity].
Qed.

Lemma head_char_cons l c p : lpre l = c :: p -> head_char l = c.
Proof. unfold head_char. intros ->. reflexivity. Qed.

Lemma head_char_nil l : lpre l = [] -> head_char l = 0%N.
Proof. unfold head_char. intros ->. reflexivity. Qed.

(* one unfolding of den_list, the recursive calls left open: den_list (S f) = den_step (den_list f).  What holds of
   den_list for every sufficient fuel is shown once for den_step, from the same fact about the calls on less measure. *)
Definition den_step (rec : list line -> list tree) (ls : list line) : list tree :=
  match ls with
  | [] => []
  | l :: r =>
    let c := head_char l in
    if N.eqb c 0 then line_text l ++ rec r
    else if N.eqb c c_star || N.eqb c c_hash then
      let '(items, rest) := items_of rec (length ls) c ls in
      Node (if N.eqb c c_star then LUl else LOl) items :: rec rest
    else
      let '(sub, rest) := take_sub c r in
      match split_dl c l with
      | Some d => Node LDt (ltxt l) :: Node LDd (d ++ rec (map strip1 sub)) :: rec rest
      | None => Node (if N.eqb c c_semi then LDt else LDd) (rec (map strip1 (l :: sub))) :: rec rest
      end
  end.

Lemma den_list_S f ls : den_list (S f) ls = den_step (den_list f) ls.
Proof. reflexivity. Qed.

Lemma den_step_ext rec1 rec2 ls : (forall x, m x < m ls -> rec1 x = rec2 x) -> den_step rec1 ls = den_step rec2 ls.
Proof.
  intros Hrec. destruct ls as [|l r]; [reflexivity|]. cbn [den_step].
  destruct (N.eqb (head_char l) 0) eqn:E0.
  { f_equal. apply Hrec. rewrite m_cons. lia. }
  assert (Hc : head_char l <> 0%N) by (apply N.eqb_neq; exact E0).
  destruct (N.eqb (head_char l) c_star || N.eqb (head_char l) c_hash).
  - rewrite (items_of_ext rec1 rec2 (head_char l) (m (l :: r)) Hc Hrec) by apply le_n.
    destruct (items_of rec2 (length (l :: r)) (head_char l) (l :: r)) as [items rest] eqn:Ei.
    f_equal. apply Hrec.
    destruct (items_of_suffix_cons _ _ _ _ _ _ (N.eqb_refl _) Ei) as [p Hp].
    rewrite m_cons, Hp, m_app. lia.
  - destruct (take_sub (head_char l) r) as [sub rest] eqn:Et.
    assert (Hl : lpre l <> []) by (apply (head_char_ne l (head_char l) Hc); apply N.eqb_refl).
    destruct (item_measure _ l r sub rest Hl Et) as (_ & Hs & Hm).
    destruct (split_dl (head_char l) l) as [d|].
    + f_equal. f_equal; [f_equal; f_equal; apply Hrec; lia|apply Hrec; lia].
    + f_equal; [f_equal; apply Hrec; lia|apply Hrec; lia].
Qed.

Lemma den_list_irrel : forall f1 f2 ls, m ls <= f1 -> m ls <= f2 -> den_list f1 ls = den_list f2 ls.
Proof.
  induction f1 as [|f1 IH]; intros f2 ls H1 H2.
  - assert (ls = []) by (apply m_zero; lia). subst. destruct f2; reflexivity.
  - destruct f2 as [|f2].
    + assert (ls = []) by (apply m_zero; lia). subst. reflexivity.
    + rewrite !den_list_S. apply den_step_ext. intros x Hx. apply IH; lia.
Qed.

(* the denotation with its canonical fuel *)
Definition DL (ls : list line) : list tree := den_list (m ls) ls.

Lemma den_list_D f ls : m ls <= f -> den_list f ls = DL ls.
Proof. intros H. apply den_list_irrel; [exact H|apply le_n]. Qed.

Lemma DL_step ls : DL ls = den_step DL ls.
Proof.
  destruct ls as [|l r]; [reflexivity|]. unfold DL at 1. rewrite m_cons. cbn [plus]. rewrite den_list_S.
  apply den_step_ext. intros x Hx. apply den_list_D. rewrite m_cons in Hx. lia.
Qed.

Lemma D_nil : DL [] = [].
Proof. reflexivity. Qed.

Lemma D_nopre l r : lpre l = [] -> DL (l :: r) = line_text l ++ DL r.
Proof. intros Hp. rewrite DL_step. cbn [den_step]. rewrite (head_char_nil _ Hp). reflexivity. Qed.

Lemma D_list l r c p items rest : lpre l = c :: p -> c = c_star \/ c = c_hash ->
  items_of DL (length (l :: r)) c (l :: r) = (items, rest) ->
  DL (l :: r) = Node (if N.eqb c c_star then LUl else LOl) items :: DL rest.
Proof.
  intros Hp Hc Hi. rewrite DL_step. cbn [den_step]. rewrite (head_char_cons _ _ _ Hp), Hi.
  destruct Hc; subst c; reflexivity.
Qed.

Lemma D_dl l r c p sub rest : lpre l = c :: p -> c = c_semi \/ c = c_colon ->
  take_sub c r = (sub, rest) ->
  DL (l :: r) =
    match split_dl c l with
    | Some d => Node LDt (ltxt l) :: Node LDd (d ++ DL (map strip1 sub)) :: DL rest
    | None => Node (if N.eqb c c_semi then LDt else LDd) (DL (map strip1 (l :: sub))) :: DL rest
    end.
Proof.
  intros Hp Hc Ht. rewrite DL_step. cbn [den_step]. rewrite (head_char_cons _ _ _ Hp), Ht.
  destruct Hc; subst c; reflexivity.
Qed.

Local Notation LT ls := (leaves_l (flat_map line_text ls)).

Lemma leaves_l_app a b : leaves_l (a ++ b) = leaves_l a ++ leaves_l b.
Proof. unfold leaves_l. apply flat_map_app. Qed.

Lemma leaves_l_node x ch r : leaves_l (Node x ch :: r) = leaves_l ch ++ leaves_l r.
Proof. reflexivity. Qed.

Lemma LT_app a b : LT (a ++ b) = LT a ++ LT b.
Proof. rewrite flat_map_app. apply leaves_l_app. Qed.

Lemma LT_cons l r : LT (l :: r) = leaves_l (line_text l) ++ LT r.
Proof. cbn [flat_map]. apply leaves_l_app. Qed.

Lemma LT_strip a : LT (map strip1 a) = LT a.
Proof. induction a as [|x a IH]; [reflexivity|]. cbn [map]. rewrite !LT_cons, IH. reflexivity. Qed.

Lemma items_text_in_order rec k c : c <> 0%N -> (forall x, m x < k -> leaves_l (rec x) = LT x) ->
  forall n ls, length ls <= n -> m ls <= k ->
  exists p, ls = p ++ snd (items_of rec n c ls) /\ leaves_l (fst (items_of rec n c ls)) = LT p.
Proof.
  intros Hc Hrec.
  apply (items_of_loop rec c (fun ls res => m ls <= k -> exists p, ls = p ++ snd res /\ leaves_l (fst res) = LT p)).
  - intros _. exists []. split; reflexivity.
  - intros l r _ _. exists []. split; reflexivity.
  - intros l r sub rest its rest' Eh Et Hr IH Hk. cbn [fst snd] in *.
    assert (Hl : lpre l <> []) by (eapply head_char_ne; eassumption).
    destruct (item_measure c l r sub rest Hl Et) as (_ & _ & Hm).
    destruct IH as (p & Hp & Hlp); [lia|].
    exists ((l :: sub) ++ p). split.
    + rewrite <- app_assoc, <- Hp. cbn [app]. rewrite <- Hr. reflexivity.
    + rewrite leaves_l_node, (Hrec (map strip1 (l :: sub))), LT_strip, Hlp, LT_app by lia. reflexivity.
Qed.

Lemma den_step_text_in_order rec ls :
  (forall x, m x < m ls -> leaves_l (rec x) = LT x) -> leaves_l (den_step rec ls) = LT ls.
Proof.
  intros Hrec. destruct ls as [|l r]; [reflexivity|]. cbn [den_step].
  destruct (N.eqb (head_char l) 0) eqn:E0.
  { rewrite leaves_l_app, LT_cons, Hrec by (rewrite m_cons; lia). reflexivity. }
  assert (Hc : head_char l <> 0%N) by (apply N.eqb_neq; exact E0).
  destruct (N.eqb (head_char l) c_star || N.eqb (head_char l) c_hash).
  - destruct (items_text_in_order rec _ _ Hc Hrec _ (l :: r) (le_n _) (le_n _)) as (p & Hp & Hlp).
    destruct (items_of rec (length (l :: r)) (head_char l) (l :: r)) as [items rest] eqn:Ei. cbn [fst snd] in Hp, Hlp.
    destruct (items_of_suffix_cons _ _ _ _ _ _ (N.eqb_refl _) Ei) as [q Hq].
    rewrite leaves_l_node, Hlp, Hrec by (rewrite m_cons, Hq, m_app; lia).
    rewrite <- LT_app, <- Hp. reflexivity.
  - destruct (take_sub (head_char l) r) as [sub rest] eqn:Et.
    assert (Hl : lpre l <> []) by (apply (head_char_ne l (head_char l) Hc); apply N.eqb_refl).
    destruct (item_measure _ l r sub rest Hl Et) as (Hr & Hs & Hm).
    assert (H1 : leaves_l (rec (map strip1 (l :: sub))) = LT (l :: sub)) by (rewrite Hrec by lia; apply LT_strip).
    assert (H2 : leaves_l (rec (map strip1 sub)) = LT sub) by (rewrite Hrec by lia; apply LT_strip).
    assert (H3 : leaves_l (rec rest) = LT rest) by (apply Hrec; lia).
    rewrite Hr. change (l :: sub ++ rest) with ((l :: sub) ++ rest). rewrite LT_app.
    destruct (split_dl (head_char l) l) as [d|] eqn:Es.
    + (* `; term : desc` [+ swallowed lines]: term, then description text, then the swallowed lines *)
      destruct (split_dl_some _ _ _ Es) as (_ & _ & Ed).
      rewrite !leaves_l_node, leaves_l_app, H2, H3, LT_cons.
      unfold line_text. rewrite Ed, leaves_l_app, <- !app_assoc. reflexivity.
    + rewrite leaves_l_node, H1, H3. reflexivity.
Qed.

(* the denoted list trees keep all the text of the lines, in source order (the lines swallowed by a one-line
   definition item follow its description, core.py:540-546) *)
Lemma den_list_text_in_order : forall f ls, m ls <= f -> leaves_l (den_list f ls) = LT ls.
Proof.
  induction f as [|f IH]; intros ls Hm.
  - assert (ls = []) by (apply m_zero; lia). subst. reflexivity.
  - rewrite den_list_S. apply den_step_text_in_order. intros x Hx. apply IH. lia.
Qed.

Lemma valid_char_ne0 c : valid_char c -> c <> 0%N.
Proof. intros [H|[H|[H|H]]]; subst; discriminate. Qed.

Lemma valid_cons_inv l r : valid_lines (l :: r) -> Forall valid_char (lpre l) /\ valid_lines r.
Proof. intros H. inversion H; subst. split; assumption. Qed.

Lemma valid_app_inv a b : valid_lines (a ++ b) -> valid_lines a /\ valid_lines b.
Proof. intros H. apply Forall_app in H. exact H. Qed.

Lemma valid_strip ls : valid_lines ls -> valid_lines (map strip1 ls).
Proof.
  induction 1 as [|l r Hl Hr IH]; [constructor|].
  change (map strip1 (l :: r)) with (strip1 l :: map strip1 r). constructor; [|exact IH].
  rewrite lpre_strip1. destruct (lpre l) as [|c p]; [constructor|]. inversion Hl; subst. assumption.
Qed.

Lemma item_valid l r sub rest : valid_lines (l :: r) -> r = sub ++ rest ->
  valid_lines (map strip1 (l :: sub)) /\ valid_lines rest.
Proof.
  intros Hv ->. apply (valid_app_inv (l :: sub)) in Hv. destruct Hv as [H1 H2].
  split; [apply valid_strip; exact H1|exact H2].
Qed.

(* one unfolding of each loop of the mutual fixpoint: the right-hand sides repeat the bodies in ModelLines.v *)
Lemma analyze_loop_S f done ls : analyze_loop (S f) done ls =
  match ls with
  | [] => LOk done
  | l :: r =>
    match lpre l with
    | [] => analyze_loop f (done ++ [OLine l]) r
    | prefix :: _ =>
      match get_node prefix with
      | None => LAttrError
      | Some k =>
        lbind (outer_while f prefix [] None ls) (fun '(children, dd, rest) =>
        analyze_loop f (done ++ ONode (mk_node k children) :: match dd with Some d => [ONode d] | None => [] end) rest)
      end
    end
  end.
Proof. reflexivity. Qed.

Lemma outer_while_S f prefix children dd ls : outer_while (S f) prefix children dd ls =
  match ls with
  | l :: _ =>
    if same_prefix prefix l then
      lbind (collect_items f prefix children dd ls) (fun '(children', dd', rest, broke_loop) =>
      if (broke_loop : bool) then LOk (children', dd', rest) else outer_while f prefix children' dd' rest)
    else LOk (children, dd, ls)
  | [] => LOk (children, dd, ls)
  end.
Proof. reflexivity. Qed.

Lemma collect_items_S f prefix children dd ls : collect_items (S f) prefix children dd ls =
  match ls with
  | l :: r =>
    if same_prefix prefix l then
      let '(item, rest) := inner_while prefix [l] r in
      lbind (analyze_loop f [] (map strip1 item)) (fun ich =>
      match (if N.eqb prefix c_semi then
               match ich with OLine l0 :: ich' => Some (l0, ich') | _ => None end
             else None) with
      | Some (l0, ich') =>
        match splitdl l0 with
        | Some (l0', d) => LOk (children ++ [[OLine l0']], Some (Node LDd (d ++ render ich')), rest, true)
        | None => if is_dl prefix then LOk (children ++ [ich], None, rest, true)
                  else collect_items f prefix (children ++ [ich]) None rest
        end
      | None => if is_dl prefix then LOk (children ++ [ich], dd, rest, true)
                else collect_items f prefix (children ++ [ich]) dd rest
      end)
    else LOk (children, dd, ls, false)
  | [] => LOk (children, dd, ls, false)
  end.
Proof. reflexivity. Qed.

Definition li_of (it : list otok) : tree := Node LLi (render it).
Definition dd_list (dd : option tree) : list tree := match dd with Some d => [d] | None => [] end.

Lemma render_cons t ts : render (t :: ts) = render_tok t ++ render ts.
Proof. reflexivity. Qed.

Lemma render_app a b : render (a ++ b) = render a ++ render b.
Proof. unfold render. apply flat_map_app. Qed.

(* the head of what analyze returns, which collect_items looks at when the prefix is ; (core.py:534-538): a retyped
   line iff the first line has no prefix *)
Definition shape (ls : list line) (T : list otok) : Prop :=
  match ls with
  | [] => T = []
  | l :: r =>
    match lpre l with
    | [] => exists T', T = OLine l :: T' /\ render T' = DL r
    | _ :: _ => exists t T', T = ONode t :: T'
    end
  end.

(* The thresholds 3 m + 3, 3 m + 2, 3 m + 1 for analyze_loop, outer_while, collect_items: each calls the next with one
   unit of fuel less, and collect_items calls analyze_loop on an item stripped of one prefix char, of less measure. *)
Definition analyze_ok (F : nat) : Prop := forall ls done, valid_lines ls -> 3 * m ls + 3 <= F ->
  exists T, analyze_loop F done ls = LOk (done ++ T) /\ render T = DL ls /\ shape ls T.

Definition collect_list_ok (F : nat) : Prop := forall c ls children dd, c = c_star \/ c = c_hash -> valid_lines ls -> 3 * m ls + 1 <= F ->
  exists C, collect_items F c children dd ls = LOk (children ++ C, dd, snd (items_of DL (length ls) c ls), false)
            /\ map li_of C = fst (items_of DL (length ls) c ls).

(* for ; and : — the item I and the description node, by cases on split_dl *)
Definition dl_post (c : N) (l : line) (sub : list line) (I : list otok) (dd' : option tree) : Prop :=
  match split_dl c l with
  | Some d => render I = ltxt l /\ dd' = Some (Node LDd (d ++ DL (map strip1 sub)))
  | None => render I = DL (map strip1 (l :: sub)) /\ dd' = None
  end.

Definition collect_dl_ok (F : nat) : Prop := forall c l p r children sub rest, c = c_semi \/ c = c_colon -> lpre l = c :: p ->
  valid_lines (l :: r) -> 3 * m (l :: r) + 1 <= F -> take_sub c r = (sub, rest) ->
  exists I dd', collect_items F c children None (l :: r) = LOk (children ++ [I], dd', rest, true) /\ dl_post c l sub I dd'.

(* one run of outer_while builds the first node of DL (l :: r), and the description node after it if there is one *)
Definition builds_node (F : nat) (c : N) (l : line) (r : list line) : Prop :=
  exists k C dd rest, get_node c = Some k /\ outer_while F c [] None (l :: r) = LOk (C, dd, rest) /\
    mk_node k C :: dd_list dd ++ DL rest = DL (l :: r) /\ valid_lines rest /\ m rest < m (l :: r).

Definition outer_ok (F : nat) : Prop := forall c p l r, lpre l = c :: p -> valid_lines (l :: r) -> 3 * m (l :: r) + 2 <= F ->
  builds_node F c l r.

Lemma same_prefix_cons c p l : lpre l = c :: p -> same_prefix c l = true.
Proof. intros H. unfold same_prefix. rewrite H. apply N.eqb_refl. Qed.

Lemma collect_list_ok_step f : analyze_ok f -> collect_list_ok f -> collect_list_ok (S f).
Proof.
  intros HP HR c ls children dd Hc Hv Hf.
  assert (Hc0 : c <> 0%N) by (destruct Hc; subst; discriminate).
  destruct ls as [|l r].
  - exists []. rewrite collect_items_S. cbn [items_of length fst snd map]. rewrite app_nil_r. split; reflexivity.
  - rewrite collect_items_S. rewrite (same_prefix_head c l Hc0).
    change (length (l :: r)) with (S (length r)). cbn [items_of].
    destruct (N.eqb (head_char l) c) eqn:Eh.
    + assert (Hl : lpre l <> []) by (eapply head_char_ne; eassumption).
      rewrite inner_while_take_sub. destruct (take_sub c r) as [sub rest] eqn:Et. cbn [fst snd app].
      destruct (item_measure c l r sub rest Hl Et) as (Hr & _ & Hm).
      destruct (item_valid l r sub rest Hv Hr) as (Hv1 & Hv2).
      assert (Hlen : length rest <= length r) by (rewrite Hr, app_length; lia).
      destruct (HP (map strip1 (l :: sub)) [] Hv1) as (T & HT & HrT & _); [lia|].
      rewrite HT. cbn [lbind app].
      assert (Es : N.eqb c c_semi = false) by (destruct Hc; subst; reflexivity). rewrite Es.
      assert (Ed : is_dl c = false) by (destruct Hc; subst; reflexivity). rewrite Ed.
      destruct (HR c rest (children ++ [T]) dd Hc Hv2) as (C' & HC' & HmC'); [lia|].
      rewrite HC'. rewrite (items_of_fuel DL c (length r) rest Hlen (length rest) (le_n _)).
      destruct (items_of DL (length rest) c rest) as [its rest'] eqn:Ei. cbn [fst snd] in *.
      exists (T :: C'). split.
      * rewrite <- app_assoc. reflexivity.
      * cbn [map]. unfold li_of at 1. rewrite HrT, HmC'. reflexivity.
    + exists []. rewrite app_nil_r. split; reflexivity.
Qed.

Lemma collect_dl_ok_step f : analyze_ok f -> collect_dl_ok (S f).
Proof.
  intros HP c l p r children sub rest Hc Hp Hv Hf Ht.
  assert (Hl : lpre l <> []) by (rewrite Hp; discriminate).
  rewrite collect_items_S. rewrite (same_prefix_cons c p l Hp).
  rewrite inner_while_take_sub, Ht. cbn [fst snd app].
  destruct (item_measure c l r sub rest Hl Ht) as (Hr & _ & Hm).
  destruct (item_valid l r sub rest Hv Hr) as (Hv1 & _).
  destruct (HP (map strip1 (l :: sub)) [] Hv1) as (T & HT & HrT & HsT); [lia|].
  rewrite HT. cbn [lbind app].
  change (map strip1 (l :: sub)) with (strip1 l :: map strip1 sub) in HsT.
  unfold shape in HsT. rewrite lpre_strip1, Hp in HsT. cbn [tl] in HsT.
  unfold dl_post, split_dl. rewrite Hp.
  destruct Hc as [Hc|Hc]; subst c.
  - (* ; *)
    rewrite !N.eqb_refl.
    destruct p as [|x q].
    + destruct HsT as (T' & -> & HrT').
      unfold splitdl. change (ldesc (strip1 l)) with (ldesc l).
      destruct (ldesc l) as [d|] eqn:Ed.
      * exists [OLine (lpre (strip1 l), ltxt (strip1 l), None)], (Some (Node LDd (d ++ render T'))).
        split; [reflexivity|]. split; [|rewrite HrT'; reflexivity].
        unfold render. cbn [flat_map render_tok]. unfold line_text. cbn [ltxt ldesc strip1 fst snd].
        rewrite !app_nil_r. reflexivity.
      * change (is_dl c_semi) with true. cbv iota.
        exists (OLine (strip1 l) :: T'), None. split; [reflexivity|]. split; [exact HrT|reflexivity].
    + destruct HsT as (t & T' & ->). change (is_dl c_semi) with true. cbv iota.
      exists (ONode t :: T'), None. split; [reflexivity|].
      destruct (ldesc l); (split; [exact HrT|reflexivity]).
  - (* : *)
    change (N.eqb c_colon c_semi) with false. cbv iota.
    change (is_dl c_colon) with true. cbv iota.
    exists T, None. split; [reflexivity|]. split; [exact HrT|reflexivity].
Qed.

(* a * or # list: collect_items takes all its items in one call; the next turn of outer_while sees another first char *)
Lemma outer_ok_list f c k p l r : collect_list_ok f -> c = c_star \/ c = c_hash -> get_node c = Some k ->
  (forall C, mk_node k C = Node (if N.eqb c c_star then LUl else LOl) (map li_of C)) ->
  lpre l = c :: p -> valid_lines (l :: r) -> 3 * m (l :: r) + 2 <= S f -> builds_node (S f) c l r.
Proof.
  intros HR Hc Hk Hmk Hp Hv Hf.
  assert (Hc0 : c <> 0%N) by (destruct Hc; subst; discriminate).
  assert (Hh : N.eqb (head_char l) c = true) by (rewrite (head_char_cons _ _ _ Hp); apply N.eqb_refl).
  destruct (HR c (l :: r) [] None Hc Hv) as (C & HC & HmC); [lia|].
  pose proof (items_of_rest_head DL c _ (l :: r) (le_n _)) as Hrh.
  destruct (items_of DL (length (l :: r)) c (l :: r)) as [its rest] eqn:Ei. cbn [fst snd app] in *.
  destruct (items_of_suffix_cons _ _ _ _ _ _ Hh Ei) as [q Hq].
  exists k, C, None, rest. split; [exact Hk|]. split; [|split; [|split]].
  - rewrite outer_while_S, (same_prefix_cons c p l Hp), HC. cbn [lbind].
    rewrite m_cons in Hf. destruct f as [|f']; [lia|]. rewrite outer_while_S.
    destruct rest as [|l' r']; [reflexivity|]. rewrite (same_prefix_head c l' Hc0), Hrh. reflexivity.
  - rewrite (D_list l r c p its rest Hp Hc Ei), Hmk, HmC. reflexivity.
  - apply valid_cons_inv in Hv. destruct Hv as [_ Hv]. rewrite Hq in Hv. apply valid_app_inv in Hv. apply Hv.
  - rewrite m_cons, Hq, m_app. lia.
Qed.

(* a ; or : item: collect_items takes one item and breaks *)
Lemma outer_ok_dl f c k p l r : collect_dl_ok f -> c = c_semi \/ c = c_colon -> get_node c = Some k ->
  (forall its, mk_node k its = Node (if N.eqb c c_semi then LDt else LDd) (flat_map render its)) ->
  lpre l = c :: p -> valid_lines (l :: r) -> 3 * m (l :: r) + 2 <= S f -> builds_node (S f) c l r.
Proof.
  intros HR Hc Hk Hmk Hp Hv Hf.
  destruct (take_sub c r) as [sub rest] eqn:Et.
  destruct (HR c l p r [] sub rest Hc Hp Hv) as (I & dd' & HC & Hpost); [lia|exact Et|].
  assert (Hl : lpre l <> []) by (rewrite Hp; discriminate).
  destruct (item_measure c l r sub rest Hl Et) as (Hr & _ & Hm).
  destruct (item_valid l r sub rest Hv Hr) as (_ & Hv2).
  exists k, [I], dd', rest. split; [exact Hk|]. split; [|split; [|split; [exact Hv2|lia]]].
  - rewrite outer_while_S, (same_prefix_cons c p l Hp), HC. reflexivity.
  - rewrite (D_dl l r c p sub rest Hp Hc Et), Hmk. cbn [flat_map]. rewrite app_nil_r.
    unfold dl_post in Hpost. destruct (split_dl c l) as [d|] eqn:Es.
    + destruct Hpost as [HrI ->]. destruct (split_dl_some _ _ _ Es) as [-> _].
      rewrite N.eqb_refl, HrI. reflexivity.
    + destruct Hpost as [HrI ->]. rewrite HrI. reflexivity.
Qed.

Lemma outer_ok_step f : collect_list_ok f -> collect_dl_ok f -> outer_ok (S f).
Proof.
  intros HRl HRd c p l r Hp Hv Hf.
  destruct (valid_cons_inv _ _ Hv) as [Hvl _]. rewrite Hp in Hvl. inversion Hvl as [|c' p' Hc _]; subst c' p'.
  destruct Hc as [Hc|[Hc|[Hc|Hc]]]; subst c.
  - apply (outer_ok_list f c_star KUl p); auto.
  - apply (outer_ok_list f c_hash KOl p); auto.
  - apply (outer_ok_dl f c_semi KDt p); auto.
  - apply (outer_ok_dl f c_colon KDd p); auto.
Qed.

Lemma analyze_ok_step f : analyze_ok f -> outer_ok f -> analyze_ok (S f).
Proof.
  intros HP HQ ls done Hv Hf.
  destruct ls as [|l r].
  - exists []. rewrite analyze_loop_S, app_nil_r. repeat split; reflexivity.
  - destruct (lpre l) as [|c p] eqn:Hp.
    + rewrite analyze_loop_S, Hp. rewrite m_cons in Hf.
      destruct (valid_cons_inv _ _ Hv) as [_ Hvr].
      destruct (HP r (done ++ [OLine l]) Hvr) as (T' & HT' & HrT' & _); [lia|].
      exists (OLine l :: T'). split; [|split].
      * rewrite HT', <- app_assoc. reflexivity.
      * rewrite render_cons, HrT', (D_nopre l r Hp). reflexivity.
      * unfold shape. rewrite Hp. eauto.
    + destruct (HQ c p l r Hp Hv) as (k & C & dd & rest & Hk & HO & HD & Hvr & Hmr); [lia|].
      rewrite analyze_loop_S, Hp, Hk, HO. cbn [lbind].
      set (X := ONode (mk_node k C) :: match dd with Some d => [ONode d] | None => [] end).
      destruct (HP rest (done ++ X) Hvr) as (T' & HT' & HrT' & _); [lia|].
      exists (X ++ T'). split; [|split].
      * rewrite HT', <- app_assoc. reflexivity.
      * rewrite <- HD, render_app, HrT'. subst X. destruct dd; reflexivity.
      * unfold shape. rewrite Hp. subst X. cbn [app]. eauto.
Qed.

Lemma loops_ok : forall F, analyze_ok F /\ outer_ok F /\ collect_list_ok F /\ collect_dl_ok F.
Proof.
  induction F as [|f (HP & HQ & HRl & HRd)].
  - split; [|split; [|split]]; red; intros; lia.
  - split; [|split; [|split]].
    + apply analyze_ok_step; assumption.
    + apply outer_ok_step; assumption.
    + apply collect_list_ok_step; assumption.
    + apply collect_dl_ok_step; assumption.
Qed.

Lemma line_fuel_ge ls : m ls <= line_fuel ls.
Proof. unfold line_fuel. change (fold_right (fun l a => S (length (lpre l)) + a) 0 ls) with (m ls). lia. Qed.

Lemma analyze_model_DL ls fuel : valid_lines ls -> analyze_fuel ls <= fuel -> analyze_model fuel ls = LOk (DL ls).
Proof.
  intros Hv Hf. destruct (loops_ok fuel) as (HP & _).
  destruct (HP ls [] Hv Hf) as (T & HT & HrT & _).
  unfold analyze_model. rewrite HT. cbn [lbind app]. rewrite HrT. reflexivity.
Qed.

Definition wd (n : N) : list tree := [Leaf n false false].
(*  * 1 / ** 2 / * 3 / ; 4 : 5 / *; 6 : 7 / : 8 : 9  *)
Definition ex_lines : list line :=
  [([c_star], wd 1, None); ([c_star; c_star], wd 2, None); ([c_star], wd 3, None);
   ([c_semi], wd 4, Some (wd 5)); ([c_star; c_semi], wd 6, Some (wd 7)); ([c_colon], wd 8, Some (wd 9))].

(* `; 1 : 2` followed by `;* 3`: the swallowed sub-list follows the description text inside the description node
   (core.py:540-546; before fix 9ee1990 it stayed in the term, in front of the description) *)
Definition swallow_lines : list line := [([c_semi], wd 1, Some (wd 2)); ([c_semi; c_star], wd 3, None)].

