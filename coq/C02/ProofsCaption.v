(* C02 — the caption split of the table parser (parse_table.py:260-301 TableParser.find_caption + parse_complex_caption), as modelled
   in C01/PassesTable.v `find_caption` (tied to the real code on abstract token lists by vt/harness/c01_passtie.py, tie T, and -
   for exactly C02_caption_split_plain / _attrs - by vt/harness/c02_units.py, case kind "C").

   A caption line is   |+ body <newline>   or   |+ attributes | body <newline>.   `find_caption_shape` gives the result of
   find_caption on such a line in terms of `mod_after`, the value of `modifier` after the second loop; the lemmas on mod_after
   say what it is in the two cases.  The pipe of a link label ([[target|label]]) is NOT the attribute separator, because a `[[`
   came first (find_caption's sentinel `modifier = 0`, which parse_complex_caption must treat like "no modifier"). *)
From Coq Require Import List NArith Arith Bool Lia.
From MW Require Import C01.Passes C01.ProofsPasses C01.PassesPre C01.PassesTable.
Import ListNotations.

(* tokens the first loop of find_caption skips in front of the |+ : text.strip() == "" *)
Definition blank_tok (t : ttok) : bool := match gkind t with TOther true | TNewline | TBreak => true | _ => false end.
Definition is_ref (t : ttok) : bool := match gkind t with TRefTag => true | _ => false end.
(* tokens the second loop walks over: everything but a newline / break or a complex node other than a <ref> *)
Definition cap_tok (t : ttok) : bool := negb (negb (is_ref t) && (text_none t || is_nl t)).
Definition bar_or_open (t : ttok) : bool := match gkind t with TBar | T2Open => true | _ => false end.
(* the first `|` or `[[` of the list, if there is one, is a `[[` *)
Fixpoint open_first (l : list ttok) : bool :=
  match l with
  | [] => true
  | t :: r => match gkind t with T2Open => true | TBar => false | _ => open_first r end
  end.

(* the value of `modifier` after the second loop has walked over l, starting at index i *)
Fixpoint mod_after (l : list ttok) (i : nat) (m : option nat) : option nat :=
  match l with
  | [] => m
  | t :: r => mod_after r (S i) (match m, gkind t with None, TBar => Some i | None, T2Open => Some 0 | _, _ => m end)
  end.

(* the tokens between a token and what follows them: l[i:j] with i just after the token *)
Lemma slice_after {A} (a : list A) x m b i j : i = S (length a) -> j = i + length m -> slice i j (a ++ x :: m ++ b) = m.
Proof. intros -> ->. unfold slice. rewrite skipn_mid_S. apply firstn_app_exact. lia. Qed.

Lemma caption_start_blank t r i : blank_tok t = true -> caption_start (t :: r) i = caption_start r (S i).
Proof.
  unfold blank_tok. cbn [caption_start]. case (gkind t); try discriminate; try reflexivity.
  intros [|]; [reflexivity|discriminate].
Qed.

Lemma caption_start_ws ws : forall i c k rest, forallb blank_tok ws = true ->
  caption_start (ws ++ GTok TCaption c k :: rest) i = Some (S (i + length ws)).
Proof.
  induction ws as [|t r IH]; intros i c k rest H.
  - cbn. rewrite Nat.add_0_r. reflexivity.
  - cbn [forallb] in H. apply andb_true_iff in H as [Ht Hr]. cbn [app].
    rewrite caption_start_blank by exact Ht. rewrite IH by exact Hr. cbn [length]. f_equal. lia.
Qed.

Lemma caption_end_walk body : forall i m stop rest, forallb cap_tok body = true -> cap_tok stop = false ->
  caption_end (body ++ stop :: rest) i m = Some (i + length body, mod_after body i m).
Proof.
  induction body as [|t r IH]; intros i m stop rest Hb Hs.
  - cbn [app caption_end length mod_after]. unfold cap_tok, is_ref in Hs. apply negb_false_iff in Hs. rewrite Hs.
    rewrite Nat.add_0_r. reflexivity.
  - cbn [forallb] in Hb. apply andb_true_iff in Hb as [Ht Hr]. cbn [app caption_end mod_after length].
    unfold cap_tok, is_ref in Ht. apply negb_true_iff in Ht. rewrite Ht. rewrite IH by assumption. f_equal. f_equal. lia.
Qed.

Lemma mod_after_some l : forall i x, mod_after l i (Some x) = Some x.
Proof. induction l as [|t r IH]; intros i x; [reflexivity|]. cbn [mod_after]. apply IH. Qed.

Lemma mod_after_open_first l : forall i, open_first l = true -> mod_after l i None = None \/ mod_after l i None = Some 0.
Proof.
  induction l as [|t r IH]; intros i H; [left; reflexivity|]. cbn [mod_after open_first] in *.
  destruct (gkind t); try (apply IH; exact H); [discriminate|right; apply mod_after_some].
Qed.

Lemma mod_after_attrs attrs : forall i b k body, forallb (fun t => negb (bar_or_open t)) attrs = true ->
  mod_after (attrs ++ GTok TBar b k :: body) i None = Some (i + length attrs).
Proof.
  induction attrs as [|t r IH]; intros i b k body H.
  - cbn [app mod_after gkind length]. rewrite mod_after_some, Nat.add_0_r. reflexivity.
  - cbn [forallb] in H. apply andb_true_iff in H as [Ht Hr]. cbn [app mod_after length].
    unfold bar_or_open in Ht. destruct (gkind t); try discriminate; rewrite IH by exact Hr; f_equal; lia.
Qed.

(* everything in front of the |+ stays, one caption node replaces |+ .. up to the end of the line, the rest stays; what the node
   holds is cut out of the line according to `modifier`: from behind the `|` it points at, or - None and the sentinel 0 - from
   behind the |+ *)
Lemma find_caption_shape ws c k mid stop rest sub :
  forallb blank_tok ws = true -> forallb cap_tok mid = true -> cap_tok stop = false ->
  (match mod_after mid (S (length ws)) None with
   | Some (S m) => slice (S (m + 1)) (S (length ws) + length mid) (ws ++ GTok TCaption c k :: mid ++ stop :: rest)
   | _ => slice (length ws + 1) (S (length ws) + length mid) (ws ++ GTok TCaption c k :: mid ++ stop :: rest)
   end = sub) ->
  find_caption (ws ++ GTok TCaption c k :: mid ++ stop :: rest) = ws ++ GTok TCaptionNode 0%N sub :: stop :: rest.
Proof.
  intros Hws Hmid Hstop Hsub. unfold find_caption.
  rewrite caption_start_ws by exact Hws. cbn [Nat.add]. replace (S (length ws) - 1) with (length ws) by lia.
  rewrite skipn_mid_S.
  rewrite caption_end_walk by assumption. rewrite Hsub. unfold splice.
  rewrite firstn_app_exact by reflexivity. f_equal. cbn [app]. f_equal.
  rewrite Nat.max_r by lia.
  rewrite app_comm_cons, app_assoc. apply skipn_app_exact. rewrite app_length. cbn [length]. lia.
Qed.

(* no attribute separator seen: the caption node holds the whole line *)
Lemma find_caption_no_modifier ws c k body stop rest :
  forallb blank_tok ws = true -> forallb cap_tok body = true -> cap_tok stop = false ->
  mod_after body (S (length ws)) None = None \/ mod_after body (S (length ws)) None = Some 0 ->
  find_caption (ws ++ GTok TCaption c k :: body ++ stop :: rest) = ws ++ GTok TCaptionNode 0%N body :: stop :: rest.
Proof.
  intros Hws Hb Hs Hm. apply find_caption_shape; try assumption.
  assert (E : slice (length ws + 1) (S (length ws) + length body) (ws ++ GTok TCaption c k :: body ++ stop :: rest) = body)
    by (apply slice_after; lia).
  destruct Hm as [-> | ->]; exact E.
Qed.

(* `modifier` points at the `|` behind attrs: the caption node holds what follows that `|` *)
Lemma find_caption_modifier ws c k attrs b kb body stop rest :
  forallb blank_tok ws = true -> forallb cap_tok attrs = true -> forallb cap_tok body = true -> cap_tok stop = false ->
  mod_after (attrs ++ GTok TBar b kb :: body) (S (length ws)) None = Some (S (length ws) + length attrs) ->
  find_caption (ws ++ GTok TCaption c k :: (attrs ++ GTok TBar b kb :: body) ++ stop :: rest)
  = ws ++ GTok TCaptionNode 0%N body :: stop :: rest.
Proof.
  intros Hws Ha Hb Hs Hm. apply find_caption_shape; try assumption.
  - rewrite forallb_app, Ha. exact Hb.
  - rewrite Hm. cbn [Nat.add].
    rewrite <- app_assoc. cbn [app]. rewrite app_comm_cons, app_assoc.
    apply slice_after; rewrite !app_length; cbn [length]; lia.
Qed.

(* |+ Alpha [[Gamma|delta]] beta   and   |+ align="bottom" | Alpha [[Gamma|delta]] beta  (ids: 1 |+, 2.. text) *)
Definition ex_tx (n : N) : ttok := GTok (TOther false) n [].
Definition ex_body : list ttok := [ex_tx 2; GTok T2Open 3%N []; ex_tx 4; GTok TBar 5%N []; ex_tx 6; ex_tx 7; ex_tx 8].
