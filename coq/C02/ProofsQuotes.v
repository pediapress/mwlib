(* C02 — apostrophe runs: compute_path (C01.Model, with the de-duplication of states by (apocount, bold, italic),
   styleanalyzer.py:101-110) follows the denoted reading of a line, for lines of ANY length and EVERY tie-breaking order.

   A line is read as a list of runs (ModelApo.qrun); the denoted reading is the chain of states `run_apo`.  One invariant,
   `tracked`, carries the proof: the list of states kept is sorted by score, holds the denoted state t with the denoted
   history, and every other state in it is of a kind `other t` (record `beside`) that can never be confused with t: it has another key (so
   de-duplication keeps t with its history) and is never the all-closed state (so the "best state is zero: keep only it" rule
   fires for t alone).  The denoted state has a score <= 3, only 12 keys have one and keys are distinct after de-duplication,
   so the cut to 32 never drops it.  At the end of the line every other state has a higher score than t, so the sorted list
   starts with t whatever the tie-breaking order.

   As long as the runs are plain ('' and ''') `other` is "more literal apostrophes than t" (`dearer_kind`); this file proves the
   theorem for such lines (quotes_balanced).  ProofsApoU.v goes on to lines with one run that is one apostrophe too long. *)
From Coq Require Import List NArith Bool Arith Lia Permutation Sorted.
From MW Require Import Common.Str C01.Model C01.Proofs C02.Model C02.ModelApo.
Import ListNotations.

Definition le_score (a b : pst) : Prop := score (fst a) <= score (fst b).

Lemma st_eqb_eq a b : st_eqb a b = true <-> a = b.
Proof.
  destruct a as [a1 b1 i1], b as [a2 b2 i2]. unfold st_eqb. cbn [apo bold ital].
  rewrite !andb_true_iff, Nat.eqb_eq, !eqb_true_iff. split.
  - intros [[-> ->] ->]. reflexivity.
  - intros H. inversion H. auto.
Qed.

Lemma existsb_st_in k seen : existsb (st_eqb k) seen = true <-> In k seen.
Proof.
  rewrite existsb_exists. split.
  - intros [y [Hy E]]. apply st_eqb_eq in E. subst. exact Hy.
  - intros H. exists k. split; [exact H|]. apply st_eqb_eq. reflexivity.
Qed.

Lemma dedup_keeps x : forall l seen,
  (forall y, In y l -> fst y = fst x -> y = x) -> In x l -> ~ In (fst x) seen -> In x (dedup seen l).
Proof.
  induction l as [|y r IH]; intros seen Hu Hin Hs; [destruct Hin|].
  cbn [dedup]. destruct (existsb (st_eqb (fst y)) seen) eqn:E.
  - apply existsb_st_in in E. destruct Hin as [->|Hin]; [contradiction|].
    apply IH; auto. intros z Hz. apply Hu. right. exact Hz.
  - destruct Hin as [->|Hin]; [left; reflexivity|].
    destruct (st_eqb (fst y) (fst x)) eqn:Ek.
    + apply st_eqb_eq in Ek. left. apply Hu; [left; reflexivity|exact Ek].
    + right. apply IH; auto.
      * intros z Hz. apply Hu. right. exact Hz.
      * intros [Hh|Hh]; [|contradiction]. rewrite Hh in Ek.
        assert (st_eqb (fst x) (fst x) = true) by (apply st_eqb_eq; reflexivity). congruence.
Qed.

Lemma dedup_nodup : forall l seen,
  NoDup (map fst (dedup seen l)) /\ (forall x, In x (dedup seen l) -> ~ In (fst x) seen).
Proof.
  induction l as [|y r IH]; intros seen; cbn [dedup].
  - split; [constructor|intros x []].
  - destruct (existsb (st_eqb (fst y)) seen) eqn:E; [apply IH|].
    destruct (IH (fst y :: seen)) as [Hn Hs]. split.
    + cbn [map]. constructor; [|exact Hn].
      intros Hin. apply in_map_iff in Hin as [z [Hz Hin]]. apply Hs in Hin. apply Hin. left. symmetry. exact Hz.
    + intros x [<-|Hx].
      * intros Hin. apply existsb_st_in in Hin. congruence.
      * intros Hin. apply (Hs x Hx). right. exact Hin.
Qed.

Lemma dedup_sorted (R : pst -> pst -> Prop) : forall l seen, StronglySorted R l -> StronglySorted R (dedup seen l).
Proof.
  induction l as [|y r IH]; intros seen H; cbn [dedup]; [constructor|].
  inversion H as [|? ? Hr Hf]; subst.
  destruct (existsb (st_eqb (fst y)) seen); [apply IH; exact Hr|].
  constructor; [apply IH; exact Hr|]. exact (incl_Forall (dedup_incl _ _) Hf).
Qed.

Lemma sorted_prefix_le (R : pst -> pst -> Prop) pre x post :
  StronglySorted R (pre ++ x :: post) -> Forall (fun y => R y x) pre.
Proof.
  induction pre as [|y pre IH]; intros H; [constructor|].
  cbn [app] in H. inversion H as [|? ? Hr Hf]; subst. constructor.
  - eapply Forall_forall in Hf; [exact Hf|]. apply in_or_app. right. left. reflexivity.
  - apply IH. exact Hr.
Qed.

Lemma firstn_sorted (R : pst -> pst -> Prop) k : forall l, StronglySorted R l -> StronglySorted R (firstn k l).
Proof.
  induction k as [|k IH]; intros [|y l] H; cbn [firstn]; try constructor.
  - inversion H; subst. apply IH. assumption.
  - inversion H as [|? ? Hr Hf]; subst. exact (incl_Forall (firstn_incl k l) Hf).
Qed.

Lemma sorted_head_min l x : StronglySorted le_score l -> In x l ->
  (forall y, In y l -> y = x \/ score (fst x) < score (fst y)) -> exists r, l = x :: r.
Proof.
  intros Hs Hin Hmin. destruct l as [|b r]; [destruct Hin|]. exists r.
  destruct (Hmin b (or_introl eq_refl)) as [->|Hlt]; [reflexivity|]. exfalso.
  destruct Hin as [->|Hr]; [lia|].
  inversion Hs as [|? ? _ Hf]; subst. eapply Forall_forall in Hf; [|exact Hr]. unfold le_score in Hf. lia.
Qed.

Lemma NoDup_app_l {A} (l l' : list A) : NoDup (l ++ l') -> NoDup l.
Proof.
  induction l as [|x l IH]; intros H; [constructor|].
  cbn [app] in H. inversion H as [|? ? Hx Hr]; subst. constructor; [|apply IH; exact Hr].
  intros Hi. apply Hx. apply in_or_app. left. exact Hi.
Qed.

(* the 12 keys with a score <= 3 *)
Definition low_keys : list st :=
  [mkst 0 false false; mkst 0 false true; mkst 0 true false; mkst 0 true true;
   mkst 1 false false; mkst 1 false true; mkst 1 true false; mkst 1 true true;
   mkst 2 false false; mkst 2 false true; mkst 2 true false; mkst 3 false false].

Lemma low_keys_complete k : score k <= 3 -> In k low_keys.
Proof.
  destruct k as [a b i]. unfold score. cbn [apo bold ital]. intros H.
  destruct a as [|[|[|[|a]]]]; destruct b, i; cbn [b2n] in H; try lia;
    unfold low_keys; cbn [In]; repeat (first [left; reflexivity | right]).
Qed.

(* in a list that is sorted by score and has pairwise distinct keys, an element is among the first n if at most n keys score
   as low as it does *)
Lemma survives_cut (keys : list st) n (d : list pst) x :
  StronglySorted le_score d -> NoDup (map fst d) -> In x d ->
  (forall k, score k <= score (fst x) -> In k keys) -> length keys <= n -> In x (firstn n d).
Proof.
  intros Hs Hn Hin Hkeys Hlen.
  apply in_split in Hin as [pre [post ->]].
  pose proof (sorted_prefix_le _ _ _ _ Hs) as Hpre.
  rewrite map_app in Hn. cbn [map] in Hn.
  pose proof (NoDup_remove _ _ _ Hn) as [Hn1 Hn2].
  assert (Hnd : NoDup (fst x :: map fst pre)).
  { constructor.
    - intros Hi. apply Hn2. apply in_or_app. left. exact Hi.
    - eapply NoDup_app_l. exact Hn1. }
  assert (Hincl : incl (fst x :: map fst pre) keys).
  { intros k [<-|Hk]; [apply Hkeys; lia|].
    apply in_map_iff in Hk as [y [<- Hy]]. apply Hkeys.
    eapply Forall_forall in Hpre; [|exact Hy]. exact Hpre. }
  pose proof (NoDup_incl_length Hnd Hincl) as Hl.
  cbn [length] in Hl. rewrite map_length in Hl.
  rewrite firstn_app. apply in_or_app. right.
  destruct (n - length pre) as [|k] eqn:E; [unfold pst in *; lia|].
  cbn [firstn]. left. reflexivity.
Qed.

Lemma expand_spec c : 2 <= c -> forall states, exists new, expand c states = Ok new /\
  (forall p, In p new <-> exists s hist ns, In (s, hist) states /\ get_next c s = Ok ns /\ In (fst p) ns /\ snd p = s :: hist).
Proof.
  intros Hc. induction states as [|[s hist] rest IH].
  - exists []. split; [reflexivity|]. intros p. split; [intros []|]. intros [s [hist [ns [[] _]]]].
  - destruct (get_next_ok c s Hc) as [ns [Hns _]]. destruct IH as [more [Hm Hspec]].
    cbn [expand]. rewrite Hns, Hm. eexists. split; [reflexivity|].
    intros p. rewrite in_app_iff, in_map_iff. split.
    + intros [[n [<- Hn]]|Hp].
      * exists s, hist, ns. cbn. auto.
      * apply Hspec in Hp as [s' [h' [ns' [Hin Hr]]]]. exists s', h', ns'. split; [right; exact Hin|exact Hr].
    + intros [s' [h' [ns' [[E|Hin] [Hg [Hn Hh]]]]]].
      * inversion E; subst. left. exists (fst p). rewrite Hns in Hg. inversion Hg; subst.
        split; [|exact Hn]. destruct p as [p1 p2]. cbn in *. subst. reflexivity.
      * right. apply Hspec. exists s', h', ns'. auto.
Qed.

Definition apo_step (r : qrun) (t : st) : st :=
  mkst (if is_surplus r then S (apo t) else apo t)
       (match r with RB | RAB => negb (bold t) | _ => bold t end)
       (match r with RI | RAI => negb (ital t) | _ => ital t end).

Fixpoint run_apo (t : st) (h : list st) (rs : list qrun) : st * list st :=
  match rs with
  | [] => (t, h)
  | r :: q => run_apo (apo_step r t) (t :: h) q
  end.

Lemma run_apo_path rs : forall t h,
  fst (run_apo t h rs) :: snd (run_apo t h rs) = rev (apo_path (apo t) (bold t) (ital t) rs) ++ t :: h.
Proof.
  induction rs as [|r q IH]; intros t h; [reflexivity|].
  cbn [run_apo apo_path]. rewrite IH. cbn [apo_step apo bold ital rev]. rewrite <- app_assoc. reflexivity.
Qed.

(* the state at the end of the line, in the form the conditions `balanced` and `surplus_line` give it *)
Lemma run_apo_last rs t h : fst (run_apo t h rs) = hd t (rev (apo_path (apo t) (bold t) (ital t) rs)).
Proof.
  pose proof (run_apo_path rs t h) as H. destruct (rev (apo_path (apo t) (bold t) (ital t) rs)); injection H as H _; exact H.
Qed.

Lemma run_apo_app l1 : forall l2 t h,
  run_apo t h (l1 ++ l2) = run_apo (fst (run_apo t h l1)) (snd (run_apo t h l1)) l2.
Proof. induction l1 as [|r q IH]; intros l2 t h; [reflexivity|]. cbn [app run_apo]. apply IH. Qed.

Lemma apo_path_length rs : forall a b i, length (apo_path a b i rs) = length rs.
Proof. induction rs as [|r q IH]; intros a b i; cbn [apo_path length]; [reflexivity|]. rewrite IH. reflexivity. Qed.

Definition plain (r : qrun) : Prop := is_surplus r = false.

Lemma plain_apo r t : plain r -> apo (apo_step r t) = apo t.
Proof. unfold plain. cbn [apo_step apo]. intros ->. reflexivity. Qed.

Lemma run_apo_plain_apo rs : Forall plain rs -> forall t h, apo (fst (run_apo t h rs)) = apo t.
Proof.
  induction 1 as [|r q Hr _ IH]; intros t h; [reflexivity|].
  cbn [run_apo]. rewrite IH. apply plain_apo. exact Hr.
Qed.

Lemma plain_score r t : plain r -> apo t <= 1 -> score (apo_step r t) <= 3.
Proof.
  intros Hr Ha. unfold score. rewrite (plain_apo r t Hr).
  assert (forall b, b2n b <= 1) by (intros []; cbn; lia).
  pose proof (H (bold (apo_step r t))). pose proof (H (ital (apo_step r t))). lia.
Qed.

Lemma count_of_ge2 r : 2 <= count_of r.
Proof. destruct r; cbn; lia. Qed.

(* run r read in the denoted state t, beside states of kind Q: the denoted successor is a successor of t; every other
   successor of t, and every successor of a state of kind Q, is of kind `other` for the denoted successor *)
Definition apart_after (Q : st -> Prop) (other : st -> st -> Prop) (r : qrun) (t : st) : Prop :=
  (forall ns, get_next (count_of r) t = Ok ns ->
     In (apo_step r t) ns /\ forall n, In n ns -> n = apo_step r t \/ other (apo_step r t) n) /\
  (forall s ns n, Q s -> get_next (count_of r) s = Ok ns -> In n ns -> other (apo_step r t) n).

(* what the list of states kept holds: the denoted state t with the denoted history h, and beside it only states of kind `other t` *)
Record tracked (other : st -> st -> Prop) (states : list pst) (t : st) (h : list st) : Prop := {
  tracked_in : In (t, h) states;
  tracked_other : forall p, In p states -> p = (t, h) \/ other t (fst p);
  tracked_sorted : StronglySorted le_score states }.

(* a kind of states that can be kept beside the denoted state t along a stretch of runs from `allowed`: never confused with t
   (another key, not the all-closed state), and kept by every allowed run *)
Record beside : Type := {
  other : st -> st -> Prop;
  allowed : qrun -> Prop;
  other_ne : forall t k, other t k -> k <> t;
  other_nz : forall t k, other t k -> is_zero k = false;
  allowed_plain : forall r, allowed r -> plain r;
  other_step : forall r t, allowed r -> apart_after (other t) other r t }.

Lemma tracked_init other : tracked other [(init_st, [])] init_st [].
Proof. constructor; [left; reflexivity|intros p [<-|[]]; left; reflexivity|repeat constructor]. Qed.

(* other = more literal apostrophes than the denoted state *)
Definition dearer (t k : st) : Prop := apo t < apo k.

Lemma dearer_ne t k : dearer t k -> k <> t.
Proof. unfold dearer. intros H ->. lia. Qed.
Lemma dearer_nz t k : dearer t k -> is_zero k = false.
Proof. unfold dearer, is_zero. intros H. destruct (apo k) as [|n]; [lia|reflexivity]. Qed.
Lemma dearer_closed t k : bold t = false -> ital t = false -> dearer t k -> score t < score k.
Proof. unfold dearer, score. intros -> ->. cbn. lia. Qed.

(* a plain run: '' has one reading, ''' has the denoted one and one with a literal apostrophe more *)
Lemma dearer_step r t : plain r -> apart_after (dearer t) dearer r t.
Proof.
  intros Hp. unfold apart_after. destruct r; unfold plain in Hp; cbn in Hp; try discriminate; cbn [count_of]; split.
  - intros ns H. cbn in H. inversion H; subst. split; [left; reflexivity|]. intros n [<-|[]]. left. reflexivity.
  - intros s ns n Ho H Hn. cbn in H. inversion H; subst. destruct Hn as [<-|[]]. exact Ho.
  - intros ns H. cbn in H. inversion H; subst. split; [left; reflexivity|]. intros n [<-|[<-|[]]]; [left; reflexivity|right].
    unfold dearer. cbn. lia.
  - intros s ns n Ho H Hn. cbn in H. inversion H; subst. unfold dearer in *. destruct Hn as [<-|[<-|[]]]; cbn; lia.
Qed.

Definition dearer_kind : beside :=
  {| other := dearer; allowed := plain; other_ne := dearer_ne; other_nz := dearer_nz;
     allowed_plain := fun r H => H; other_step := dearer_step |}.

(* runs given by their lengths *)
Definition run_of (c : nat) : qrun := if c =? 3 then RB else RI.

Lemma runs_of_counts counts : forallb (fun c => (c =? 2) || (c =? 3)) counts = true ->
  map count_of (map run_of counts) = counts /\ Forall plain (map run_of counts) /\
  forall b i, apo_path 0 b i (map run_of counts) = toggle_path b i counts.
Proof.
  induction counts as [|c cs IH]; cbn [forallb map]; intros H; [repeat split; constructor|].
  apply andb_true_iff in H as [Hc H]. destruct (IH H) as [IH1 [IH2 IH3]].
  assert (E : c = 2 \/ c = 3) by (apply orb_true_iff in Hc as [Hc|Hc]; apply Nat.eqb_eq in Hc; auto).
  destruct E as [-> | ->].
  - change (run_of 2) with RI. split; [cbn [count_of]; rewrite IH1; reflexivity|]. split; [constructor; [reflexivity|exact IH2]|].
    intros b i. cbn [apo_path toggle_path Nat.eqb is_surplus]. rewrite IH3. reflexivity.
  - change (run_of 3) with RB. split; [cbn [count_of]; rewrite IH1; reflexivity|]. split; [constructor; [reflexivity|exact IH2]|].
    intros b i. cbn [apo_path toggle_path Nat.eqb is_surplus]. rewrite IH3. reflexivity.
Qed.

Section WithSorter.
  Variable sorter : list pst -> list pst.
  Hypothesis sorter_perm : forall l, Permutation (sorter l) l.
  Hypothesis sorter_sorted : forall l, StronglySorted le_score (sorter l).

  (* steps without the work counters *)
  Fixpoint steps' (counts : list nat) (states : list pst) : res (list pst) :=
    match counts with
    | [] => Ok states
    | c :: cs =>
      match expand c states with
      | Raise e => Raise e
      | Ok new => match prune (sorter new) with Raise e => Raise e | Ok kept => steps' cs kept end
      end
    end.

  Lemma steps'_steps counts : forall states work final, steps' counts states = Ok final ->
    exists w, steps sorter counts states work = Ok (final, w).
  Proof.
    induction counts as [|c cs IH]; intros states work final H; cbn [steps' steps] in *.
    - inversion H; subst. eexists. reflexivity.
    - destruct (expand c states) as [new|e]; [|discriminate].
      destruct (prune (sorter new)) as [kept|e]; [|discriminate]. apply IH. exact H.
  Qed.

  Lemma steps'_app l1 : forall l2 states mid, steps' l1 states = Ok mid -> steps' (l1 ++ l2) states = steps' l2 mid.
  Proof.
    induction l1 as [|c cs IH]; intros l2 states mid H; cbn [steps' app] in *.
    - inversion H; subst. reflexivity.
    - destruct (expand c states) as [new|e]; [|discriminate].
      destruct (prune (sorter new)) as [kept|e]; [|discriminate]. apply IH. exact H.
  Qed.

  Lemma steps'_snoc l c states mid new kept :
    steps' l states = Ok mid -> expand c mid = Ok new -> prune (sorter new) = Ok kept -> steps' (l ++ [c]) states = Ok kept.
  Proof. intros H Hn Hk. rewrite (steps'_app _ _ _ _ H). cbn [steps']. rewrite Hn, Hk. reflexivity. Qed.

  (* the end of the line: every other state scores higher than the denoted one, which is therefore the head of the list *)
  Lemma tracked_compute_path other (rs : list qrun) final :
    steps' (map count_of rs) [(init_st, [])] = Ok final ->
    tracked other final (fst (run_apo init_st [] rs)) (snd (run_apo init_st [] rs)) ->
    (forall k, other (fst (run_apo init_st [] rs)) k -> score (fst (run_apo init_st [] rs)) < score k) ->
    compute_path sorter (map count_of rs) = Ok (apo_path 0 false false rs).
  Proof.
    intros Hs [Hin Hoth Hsrt] Hfin.
    destruct (sorted_head_min final _ Hsrt Hin) as [r ->].
    { intros y Hy. destruct (Hoth y Hy) as [E|Ho]; [left; exact E|right; apply Hfin; exact Ho]. }
    destruct (steps'_steps _ _ [] _ Hs) as [w Hw].
    unfold compute_path, compute_path_work. rewrite Hw.
    pose proof (run_apo_path rs init_st []) as Hp. cbn [apo bold ital init_st] in Hp. rewrite Hp.
    rewrite removelast_last, rev_involutive, apo_path_length, map_length, Nat.eqb_refl. reflexivity.
  Qed.

  Section Kind.
    Variable K : beside.

    (* one step: the denoted state t (history h) has the denoted successor, and that is all the list need keep of it *)
    Lemma tracked_step (Q : st -> Prop) r states t h :
      score (apo_step r t) <= 3 ->
      In (t, h) states ->
      (forall p, In p states -> p = (t, h) \/ Q (fst p)) ->
      apart_after Q (other K) r t ->
      exists new kept, expand (count_of r) states = Ok new /\ prune (sorter new) = Ok kept /\ tracked (other K) kept (apo_step r t) (t :: h).
    Proof.
      intros Hsc Hin HQ [Hsucc HsuccQ].
      pose proof (count_of_ge2 r) as Hc. set (c := count_of r) in *. set (t' := apo_step r t) in *.
      destruct (expand_spec c Hc states) as [new [Hnew Hspec]].
      set (x := (t', t :: h)).
      assert (Hxin : In x new).
      { apply Hspec. destruct (get_next_ok c t Hc) as [ns [Hns _]]. exists t, h, ns. cbn. destruct (Hsucc ns Hns) as [H1 _]. auto. }
      assert (Hall : forall p, In p new -> p = x \/ other K t' (fst p)).
      { intros p Hp. apply Hspec in Hp as [s [hist [ns [Hs [Hg [Hn Hh]]]]]].
        destruct (HQ (s, hist) Hs) as [E|Hq].
        - inversion E; subst. destruct (Hsucc ns Hg) as [_ H2]. destruct (H2 (fst p) Hn) as [E2|Ho]; [left|right; exact Ho].
          destruct p as [p1 p2]. cbn in *. subst. reflexivity.
        - right. eapply HsuccQ; eauto. }
      assert (Hkey : forall p, In p new -> fst p = fst x -> p = x).
      { intros p Hp Hk. destruct (Hall p Hp) as [E|Ho]; [exact E|]. apply (other_ne K) in Ho. contradiction. }
      set (srt := sorter new).
      assert (Hperm : forall p, In p srt -> In p new) by (intros p Hp; eapply Permutation_in; [apply sorter_perm|exact Hp]).
      assert (Hsin : In x srt) by (eapply Permutation_in; [apply Permutation_sym, sorter_perm|exact Hxin]).
      set (d := dedup [] srt).
      assert (Hdin : In x d).
      { apply dedup_keeps; [|exact Hsin|intros []]. intros y Hy Hk. apply Hkey; auto. }
      assert (Hdall : forall p, In p d -> p = x \/ other K t' (fst p)).
      { intros p Hp. apply Hall, Hperm. eapply dedup_incl. exact Hp. }
      assert (Hds : StronglySorted le_score d) by (apply dedup_sorted, sorter_sorted).
      assert (Hdn : NoDup (map fst d)) by (apply dedup_nodup).
      exists new. unfold prune. fold srt. fold d.
      destruct d as [|best rest] eqn:Ed; [destruct Hdin|].
      destruct (is_zero (fst best)) eqn:Ez.
      - (* only the denoted state can be all-closed *)
        exists [best]. split; [exact Hnew|]. split; [reflexivity|].
        destruct (Hdall best (or_introl eq_refl)) as [->|Ho]; [|apply (other_nz K) in Ho; congruence].
        constructor; [left; reflexivity|intros p [<-|[]]; left; reflexivity|repeat constructor].
      - exists (firstn 32 (best :: rest)). split; [exact Hnew|]. split; [reflexivity|]. constructor.
        + apply (survives_cut low_keys); auto; [|cbn; lia].
          intros k Hk. apply low_keys_complete. exact (Nat.le_trans _ _ _ Hk Hsc).
        + intros p Hp. apply Hdall. eapply firstn_incl. exact Hp.
        + apply firstn_sorted. exact Hds.
    Qed.

    Lemma tracked_plain rs : Forall (allowed K) rs -> forall states t h, apo t <= 1 -> tracked (other K) states t h ->
      exists final, steps' (map count_of rs) states = Ok final /\ tracked (other K) final (fst (run_apo t h rs)) (snd (run_apo t h rs)).
    Proof.
      induction 1 as [|r q Hr _ IH]; intros states t h Ha Htr.
      - exists states. split; [reflexivity|exact Htr].
      - pose proof (allowed_plain K r Hr) as Hp. destruct Htr as [Hin Hoth _].
        destruct (tracked_step (other K t) r states t h (plain_score r t Hp Ha) Hin Hoth (other_step K r t Hr))
          as [new [kept [Hnew [Hk Htr']]]].
        destruct (IH kept (apo_step r t) (t :: h)) as [final [Hs Hf]]; [rewrite plain_apo by exact Hp; exact Ha|exact Htr'|].
        exists final. cbn [map steps' run_apo]. rewrite Hnew, Hk. split; [exact Hs|exact Hf].
    Qed.

    (* a line front ++ post: after front the denoted state is tracked (with this kind), post is a stretch of allowed runs *)
    Lemma tracked_after_long front post kept :
      steps' (map count_of front) [(init_st, [])] = Ok kept ->
      tracked (other K) kept (fst (run_apo init_st [] front)) (snd (run_apo init_st [] front)) ->
      apo (fst (run_apo init_st [] front)) <= 1 -> Forall (allowed K) post ->
      (forall k, other K (fst (run_apo init_st [] (front ++ post))) k -> score (fst (run_apo init_st [] (front ++ post))) < score k) ->
      compute_path sorter (map count_of (front ++ post)) = Ok (apo_path 0 false false (front ++ post)).
    Proof.
      intros Hfront Htr Ha Hpost Hfin.
      destruct (tracked_plain post Hpost kept _ _ Ha Htr) as [final [Hs Hf]].
      apply (tracked_compute_path (other K) (front ++ post) final); [|rewrite run_apo_app; exact Hf|exact Hfin].
      rewrite map_app, (steps'_app _ _ _ _ Hfront). exact Hs.
    Qed.
  End Kind.

  (* lines of plain runs with every style closed at the end *)
  Lemma quotes_plain rs : Forall plain rs -> bold (fst (run_apo init_st [] rs)) = false -> ital (fst (run_apo init_st [] rs)) = false ->
    compute_path sorter (map count_of rs) = Ok (apo_path 0 false false rs).
  Proof.
    intros Hrs Hb Hi.
    destruct (tracked_plain dearer_kind rs Hrs [(init_st, [])] init_st []) as [final [Hs Htr]]; [cbn; lia|apply tracked_init|].
    apply (tracked_compute_path dearer rs final Hs Htr). intros k. apply dearer_closed; assumption.
  Qed.

  (* balanced runs of '' and ''' (any number of them on one line) are resolved to the denoted toggles *)
  Lemma quotes_balanced counts : balanced counts = true ->
    compute_path sorter counts = Ok (toggle_path false false counts).
  Proof.
    unfold balanced. intros H. apply andb_true_iff in H as [H1 H2].
    destruct (runs_of_counts counts H1) as [Ec [Hp Ep]]. rewrite <- Ep, <- Ec at 1.
    assert (Hz : is_zero (fst (run_apo init_st [] (map run_of counts))) = true).
    { rewrite run_apo_last. cbn [init_st apo bold ital]. rewrite Ep. destruct (rev (toggle_path false false counts)); [reflexivity|exact H2]. }
    unfold is_zero in Hz. apply andb_true_iff in Hz as [Hz Hi]. apply andb_true_iff in Hz as [_ Hb].
    apply quotes_plain; [exact Hp|apply negb_true_iff; exact Hb|apply negb_true_iff; exact Hi].
  Qed.
End WithSorter.

(* the hypotheses are satisfiable: insertion sort *)
Lemma insert_sorted x l : StronglySorted le_score l -> StronglySorted le_score (insert_by_score x l).
Proof.
  induction l as [|y r IH]; intros H; cbn [insert_by_score]; [repeat constructor|].
  inversion H as [|? ? Hr Hf]; subst.
  destruct (score (fst x) <? score (fst y)) eqn:E.
  - apply Nat.ltb_lt in E. constructor; [exact H|]. constructor; [unfold le_score; lia|].
    apply Forall_forall. intros z Hz. eapply Forall_forall in Hf; [|exact Hz]. unfold le_score in *. lia.
  - apply Nat.ltb_ge in E. constructor; [apply IH; exact Hr|].
    eapply Forall_perm; [apply insert_perm|]. constructor; [unfold le_score; lia|exact Hf].
Qed.

Lemma stable_sort_sorted l : StronglySorted le_score (stable_sort l).
Proof.
  induction l as [|x l IH]; [constructor|]. unfold stable_sort in *. cbn [fold_right]. apply insert_sorted. exact IH.
Qed.

Lemma insert_le_sorted x l : StronglySorted le_score l -> StronglySorted le_score (insert_by_score_le x l).
Proof.
  induction l as [|y r IH]; intros H; cbn [insert_by_score_le]; [repeat constructor|].
  inversion H as [|? ? Hr Hf]; subst.
  destruct (score (fst x) <=? score (fst y)) eqn:E.
  - apply Nat.leb_le in E. constructor; [exact H|]. constructor; [unfold le_score; lia|].
    apply Forall_forall. intros z Hz. eapply Forall_forall in Hf; [|exact Hz]. unfold le_score in *. lia.
  - apply Nat.leb_gt in E. constructor; [apply IH; exact Hr|].
    eapply Forall_perm; [apply insert_le_perm|]. constructor; [unfold le_score; lia|exact Hf].
Qed.

Lemma antistable_sort_sorted l : StronglySorted le_score (antistable_sort l).
Proof.
  induction l as [|x l IH]; [constructor|]. unfold antistable_sort in *. cbn [fold_right]. apply insert_le_sorted. exact IH.
Qed.

(* a statement about every sorter that permutes and sorts by score holds of both extreme tie-breaking orders *)
Lemma two_orders (P : (list pst -> list pst) -> Prop) :
  (forall sorter, (forall l, Permutation (sorter l) l) -> (forall l, StronglySorted le_score (sorter l)) -> P sorter) ->
  P stable_sort /\ P antistable_sort.
Proof.
  intros H. split; apply H; auto using stable_sort_perm, stable_sort_sorted, antistable_sort_perm, antistable_sort_sorted.
Qed.

(* the line that the code before fix 93e1f92 got wrong: an italic span holding 17 bold words (36 runs) *)
Lemma quotes_long_example :
  balanced (italic_with_bolds 17) = true /\ length (italic_with_bolds 17) = 36 /\
  path_is_toggle stable_sort (italic_with_bolds 17) = true /\ path_is_toggle antistable_sort (italic_with_bolds 17) = true.
Proof. vm_compute. repeat split. Qed.
