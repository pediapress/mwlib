(* C02 — the property theorems, each followed by Print Assumptions; proofs longer than a few lines are lemmas of the Proofs files. *)
From Coq Require Import List NArith Bool Arith Lia Permutation Sorted.
From MW Require Import Common.Str C01.Model C02.Model C02.Proofs C02.ProofsQuotes C02.ModelLines C02.ProofsLines C02.ModelApo C02.ProofsApoU
  C01.Passes C01.PassesPre C01.PassesTable C02.ProofsCaption.
Import ListNotations.

(* Sections (core.py:95-151,183-199): for every sequence of headings (any levels, any captions) and blocks, the
   stack algorithm of ParseSections builds exactly the denoted nesting `nest`: a heading of level k swallows all
   following blocks and sections up to the next heading of level <= k. *)
Theorem C02_sections_nest : forall (A : Type) (items : list (item A)), parse_sections items = nest items.
Proof. intros A items. unfold parse_sections. rewrite alg_nest by exact I. reflexivity. Qed.
Print Assumptions C02_sections_nest.

(* ... and the denoted nesting contains every caption and every block exactly once, in source order. *)
Theorem C02_sections_text_in_order : forall (A : Type) (items : list (item A)),
  flat_map flat_s (nest items) = map flat_item items.
Proof. exact nest_flat. Qed.
Print Assumptions C02_sections_text_in_order.

(* Apostrophe runs (core.py:248 ParseSingleQuote + styleanalyzer.py:90-127 compute_path with the de-duplication of states by
   (apocount, bold, italic)): for EVERY tie-breaking order of sort_states (any sorter that permutes its input and orders it by
   score; the real one breaks ties by id()) and every balanced sequence of runs of two or three apostrophes, of ANY length, on
   one line (toggling italic / bold per run ends with both off), compute_path returns exactly the denoted toggles: no
   apostrophe becomes literal text, no style leaks.  (Before fix 93e1f92 this was false from 36 runs on: the cut to 32 states
   dropped the denoted path.) *)
Theorem C02_quotes_balanced :
  forall sorter : list pst -> list pst,
  (forall l, Permutation (sorter l) l) ->
  (forall l, StronglySorted (fun a b => score (fst a) <= score (fst b)) (sorter l)) ->
  forall counts, balanced counts = true -> compute_path sorter counts = Ok (toggle_path false false counts).
Proof. exact quotes_balanced. Qed.
Print Assumptions C02_quotes_balanced.

(* the hypotheses on the sorter are satisfiable: both extreme tie-breaking orders (stable / anti-stable insertion sort) *)
Theorem C02_quotes_balanced_two_orders :
  forall counts, balanced counts = true ->
    compute_path stable_sort counts = Ok (toggle_path false false counts) /\
    compute_path antistable_sort counts = Ok (toggle_path false false counts).
Proof.
  intros counts H. apply (two_orders (fun sorter => compute_path sorter counts = _)). intros sorter Hp Hs.
  apply quotes_balanced; assumption.
Qed.
Print Assumptions C02_quotes_balanced_two_orders.

(* the line the code got wrong before the fix: an italic span holding 17 bold words (36 runs) *)
Example C02_quotes_long_example :
  balanced (italic_with_bolds 17) = true /\ length (italic_with_bolds 17) = 36 /\
  path_is_toggle stable_sort (italic_with_bolds 17) = true /\ path_is_toggle antistable_sort (italic_with_bolds 17) = true.
Proof. exact quotes_long_example. Qed.
Print Assumptions C02_quotes_long_example.

Example C02_quotes_example : balanced [2; 3; 3; 2] = true /\ balanced [2; 3] = false /\ path_is_toggle stable_sort [2; 3; 3; 2] = true.
Proof. vm_compute. repeat split. Qed.
Print Assumptions C02_quotes_example.

Example C02_sections_example :
  parse_sections [IB 1; IH 2 10; IB 2; IH 3 11; IB 3; IH 2 12; IH 1 13; IB 4]%N
  = [SB 1; SS 2 10 [SB 2; SS 3 11 [SB 3]]; SS 2 12 []; SS 1 13 [SB 4]]%N.
Proof. exact (eq_refl _). Qed.
Print Assumptions C02_sections_example.

(* Lists (core.py:389-551 ParseLines.analyze / collect_items / splitdl; model C02/ModelLines.v mirrors the imperative loops:
   startpos loop, outer while, collect_items loop with the inner while that swallows lines with a longer prefix, recursion on
   the item's lines after stripping one prefix char, splitdl for '; term : description'): for every sequence of list lines
   whose prefixes are over * # ; : (any number of lines, any prefix lengths, with or without a top-level colon), the fuelled
   model never runs out of fuel (3 * (number of lines + total prefix length) + 3 suffices), never raises, and returns exactly
   the denoted prefix tree den_list. *)
Theorem C02_lists_nest : forall ls : list line, valid_lines ls ->
  analyze_model (analyze_fuel ls) ls = LOk (den_list (line_fuel ls) ls).
Proof. intros ls Hv. rewrite (den_list_D _ ls (line_fuel_ge ls)). apply analyze_model_DL; [exact Hv|apply le_n]. Qed.
Print Assumptions C02_lists_nest.

Theorem C02_lists_nest_any_fuel : forall (ls : list line) (fuel : nat), valid_lines ls -> analyze_fuel ls <= fuel ->
  analyze_model fuel ls = LOk (den_list (line_fuel ls) ls).
Proof. intros ls fuel Hv Hf. rewrite (den_list_D _ ls (line_fuel_ge ls)). exact (analyze_model_DL ls fuel Hv Hf). Qed.
Print Assumptions C02_lists_nest_any_fuel.

(* the denoted list trees — hence, by C02_lists_nest, what the code builds — hold the text of ALL lines in source order,
   without exception (since fix 9ee1990 the lines swallowed by a one-line definition item `; term : desc` go into the
   description node, after the description text) *)
Theorem C02_lists_text_in_order : forall ls : list line,
  leaves_l (den_list (line_fuel ls) ls) = leaves_l (flat_map line_text ls).
Proof. intros ls. exact (den_list_text_in_order _ ls (line_fuel_ge ls)). Qed.
Print Assumptions C02_lists_text_in_order.

Theorem C02_lists_code_text_in_order : forall ls : list line, valid_lines ls ->
  exists ts, analyze_model (analyze_fuel ls) ls = LOk ts /\ leaves_l ts = leaves_l (flat_map line_text ls).
Proof.
  intros ls Hv. exists (den_list (line_fuel ls) ls). split; [exact (C02_lists_nest ls Hv)|].
  apply C02_lists_text_in_order.
Qed.
Print Assumptions C02_lists_code_text_in_order.

(* `;1 : 2` followed by `;* 3` gives dt[1], dd[2, ul[li[3]]] — leaves 1,2,3 (the case repaired by fix 9ee1990) *)
Example C02_lists_swallow_example :
  valid_lines swallow_lines /\
  analyze_model (analyze_fuel swallow_lines) swallow_lines =
    LOk [Node LDt (wd 1); Node LDd (wd 2 ++ [Node LUl [Node LLi (wd 3)]])] /\
  den_list (line_fuel swallow_lines) swallow_lines = [Node LDt (wd 1); Node LDd (wd 2 ++ [Node LUl [Node LLi (wd 3)]])] /\
  leaves_l (den_list (line_fuel swallow_lines) swallow_lines) = [(1, false, false); (2, false, false); (3, false, false)]%N.
Proof.
  split; [|split; [|split]]; try (vm_compute; reflexivity).
  unfold valid_lines, swallow_lines.
  repeat (apply Forall_cons; [repeat (apply Forall_cons; [unfold valid_char; auto|]); apply Forall_nil|]). apply Forall_nil.
Qed.
Print Assumptions C02_lists_swallow_example.

Example C02_lists_example :
  valid_lines ex_lines /\
  analyze_model (analyze_fuel ex_lines) ex_lines =
    LOk [Node LUl [Node LLi (wd 1 ++ [Node LUl [Node LLi (wd 2)]]); Node LLi (wd 3)];
        Node LDt (wd 4); Node LDd (wd 5);
        Node LUl [Node LLi [Node LDt (wd 6); Node LDd (wd 7)]];
        Node LDd (wd 8 ++ wd 9)] /\
  (forall fuel, fuel < 5 -> analyze_model fuel ex_lines = LFuel) /\
  analyze_model 9 [([7%N], wd 1, None)] = LAttrError.
Proof.
  split; [|split; [|split]].
  - unfold valid_lines, ex_lines. repeat (apply Forall_cons; [repeat (apply Forall_cons; [unfold valid_char; auto|]); apply Forall_nil|]).
    apply Forall_nil.
  - vm_compute. reflexivity.
  - intros fuel H. do 5 (destruct fuel as [|fuel]; [vm_compute; reflexivity|]). lia.
  - vm_compute. reflexivity.
Qed.
Print Assumptions C02_lists_example.

Example C02_lists_text_example :
  leaves_l (den_list (line_fuel ex_lines) ex_lines) = map (fun w => (w, false, false)) [1; 2; 3; 4; 5; 6; 7; 8; 9]%N.
Proof. vm_compute; reflexivity. Qed.
Print Assumptions C02_lists_text_example.

(* Apostrophe runs ONE apostrophe longer than the markup (''Hamlet'''s, L'''arbre'', '''Lear''''s, L''''arbre''': C02/ModelApo.v;
   proof in C02/ProofsApoU.v): a line of ANY length with exactly one such run, all styles closed at the end of the line and -
   when the long run has three apostrophes - no other run of three, for EVERY
   tie-breaking order of sort_states (any sorter that permutes its input and orders it by score): compute_path returns the
   denoted path - the surplus apostrophe is literal text, the rest of the long run and every other run toggle as written.
   (The state of the denoted reading is never confused with another one: before the long run it is the only state with
   apocount 0; afterwards it has apocount 1 and every other state kept has apocount >= 2 - long run of four - or is the
   bold-stays-open reading (0, bold, opposite italic) - long run of three; it has a score <= 3, only 12 keys do, so the cut to
   32 keeps it; at the end it is (1, off, off) with score 1 and every other state has a score >= 2.) *)
Theorem C02_quotes_surplus_apostrophe :
  forall sorter : list pst -> list pst,
  (forall l, Permutation (sorter l) l) ->
  (forall l, StronglySorted (fun a b => score (fst a) <= score (fst b)) (sorter l)) ->
  forall rs : list qrun, surplus_line rs = true ->
  compute_path sorter (map count_of rs) = Ok (apo_path 0 false false rs).
Proof. exact quotes_surplus. Qed.
Print Assumptions C02_quotes_surplus_apostrophe.

(* the hypotheses on the sorter are satisfiable: both extreme tie-breaking orders *)
Theorem C02_quotes_surplus_apostrophe_two_orders : forall rs : list qrun, surplus_line rs = true ->
  compute_path stable_sort (map count_of rs) = Ok (apo_path 0 false false rs) /\
  compute_path antistable_sort (map count_of rs) = Ok (apo_path 0 false false rs).
Proof. exact quotes_surplus_two_orders. Qed.
Print Assumptions C02_quotes_surplus_apostrophe_two_orders.

(* in particular on the 646 such lines of at most 8 runs, which the executable check `all_surplus_lines_ok` sweeps (the bound plays
   no part).  The real ParseSingleQuote on such lines in all block contexts is the subject of the document search
   (vt/props/c02.py, family "apostrophe-run"). *)
Theorem C02_quotes_surplus_apostrophe_bounded : forall rs : list qrun,
  length rs <= surplus_bound -> surplus_line rs = true ->
  compute_path stable_sort (map count_of rs) = Ok (apo_path 0 false false rs) /\
  compute_path antistable_sort (map count_of rs) = Ok (apo_path 0 false false rs).
Proof. intros rs _. exact (C02_quotes_surplus_apostrophe_two_orders rs). Qed.
Print Assumptions C02_quotes_surplus_apostrophe_bounded.

Example C02_quotes_surplus_examples :
  surplus_line [RI; RAI] = true /\ apo_path 0 false false [RI; RAI] = [mkst 0 false true; mkst 1 false false] /\
  surplus_line [RAI; RI] = true /\ apo_path 0 false false [RAI; RI] = [mkst 1 false true; mkst 1 false false] /\
  surplus_line [RB; RAB] = true /\ surplus_line [RAB; RB] = true /\ surplus_line [RI; RB; RAB; RI] = true /\
  surplus_line [RB; RB; RI; RAI] = false /\
  length (filter surplus_line (lines_upto surplus_bound)) = 646.
Proof. do 8 (split; [reflexivity|]). exact surplus_lines_count. Qed.
Print Assumptions C02_quotes_surplus_examples.

(* non-vacuity beyond the bound of 8 runs: 39 italic runs and a possessive (40 runs) *)
Example C02_quotes_surplus_long_example : surplus_line long_surplus_line = true /\ length long_surplus_line = 40.
Proof. vm_compute. split; reflexivity. Qed.
Print Assumptions C02_quotes_surplus_long_example.

(* Table captions (parse_table.py:260-301 find_caption + parse_complex_caption; model C01/PassesTable.v find_caption, tied to the real
   code on abstract token lists): on a caption line `|+ body` - in front of it only whitespace tokens, body any run of tokens the loop
   walks over (everything but a line end or a complex node other than a <ref>), in which a `|` occurs only after a `[[` (the pipe of
   a link label is not an attribute separator), the line ended by `stop` - the children of the table become: what was in front, ONE
   caption node holding exactly the tokens of body in order, then stop and the rest.  Neither the `|+` token nor anything else
   becomes caption content. *)
Theorem C02_caption_split_plain :
  forall (ws : list (gtok tkd)) (c : N) (k body : list (gtok tkd)) (stop : gtok tkd) (rest : list (gtok tkd)),
  forallb blank_tok ws = true -> forallb cap_tok body = true -> cap_tok stop = false -> open_first body = true ->
  find_caption (ws ++ GTok TCaption c k :: body ++ stop :: rest) = ws ++ GTok TCaptionNode 0%N body :: stop :: rest.
Proof.
  intros ws c k body stop rest Hws Hb Hs Ho. apply find_caption_no_modifier; try assumption.
  apply mod_after_open_first. exact Ho.
Qed.
Print Assumptions C02_caption_split_plain.

(* `|+ attributes | body`: attributes without `|` and `[[`; body arbitrary (labelled links included): the caption node holds exactly
   body - the attributes and the separating pipe are not text *)
Theorem C02_caption_split_attrs :
  forall (ws : list (gtok tkd)) (c : N) (k attrs : list (gtok tkd)) (b : N) (kb body : list (gtok tkd)) (stop : gtok tkd)
         (rest : list (gtok tkd)),
  forallb blank_tok ws = true -> forallb cap_tok attrs = true -> forallb (fun t => negb (bar_or_open t)) attrs = true ->
  forallb cap_tok body = true -> cap_tok stop = false ->
  find_caption (ws ++ GTok TCaption c k :: (attrs ++ GTok TBar b kb :: body) ++ stop :: rest)
  = ws ++ GTok TCaptionNode 0%N body :: stop :: rest.
Proof.
  intros ws c k attrs b kb body stop rest Hws Ha Hnb Hb Hs. apply find_caption_modifier; try assumption.
  apply mod_after_attrs. exact Hnb.
Qed.
Print Assumptions C02_caption_split_attrs.

(* what a table with a caption denotes: the caption's inline content under a caption node in front of the rows; its text comes
   first, then the text of the cells *)
Theorem C02_caption_denoted : forall (cap : list inl) (rows : list (list (bool * list inl))),
  den_block (BTableC cap rows) =
    [Node LTable (Node LCaption (den_inline cap) ::
                  map (fun row => Node LRow (map (fun cell => Node (LCell (fst cell)) (den_inline (snd cell))) row)) rows)] /\
  leaves_l (den_block (BTableC cap rows)) = leaves_l (den_inline cap) ++ leaves_l (den_block (BTable rows)).
Proof.
  intros cap rows. split; [reflexivity|]. cbn [den_block leaves_l flat_map leaves]. rewrite !app_nil_r. reflexivity.
Qed.
Print Assumptions C02_caption_denoted.

(* `|+ Alpha [[Gamma|delta]] beta` and `|+ align="bottom" | Alpha [[Gamma|delta]] beta`: the same caption node *)
Example C02_caption_examples :
  find_caption (GTok TNewline 0%N [] :: GTok TCaption 1%N [] :: ex_body ++ [GTok TNewline 9%N []; GTok TRowNode 10%N []])
  = [GTok TNewline 0%N []; GTok TCaptionNode 0%N ex_body; GTok TNewline 9%N []; GTok TRowNode 10%N []] /\
  find_caption (GTok TNewline 0%N [] :: GTok TCaption 1%N [] :: ([ex_tx 11] ++ GTok TBar 12%N [] :: ex_body) ++ [GTok TNewline 9%N []; GTok TRowNode 10%N []])
  = [GTok TNewline 0%N []; GTok TCaptionNode 0%N ex_body; GTok TNewline 9%N []; GTok TRowNode 10%N []] /\
  open_first ex_body = true /\ forallb cap_tok ex_body = true.
Proof. vm_compute. repeat split. Qed.
Print Assumptions C02_caption_examples.
