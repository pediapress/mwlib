(* C02 — sections: the stack algorithm of ParseSections (alg) builds the denoted nesting (nest), which keeps every caption
   and block once, in source order. *)
From Coq Require Import List NArith Bool Arith Lia Permutation.
From MW Require Import Common.Str C01.Model C02.Model.
Import ListNotations.

Section SectionsProofs.
  Variable A : Type.
  Notation item := (item A).
  Notation stree := (stree A).
  Notation frame := (frame A).

  Lemma span_app_all (p : stree -> bool) cr f :
    Forall (fun t => p t = true) cr ->
    span p (cr ++ f) = let '(a, b) := span p f in (cr ++ a, b).
  Proof.
    induction cr as [|x cr IH]; intros H; cbn [app span].
    - destruct (span p f); reflexivity.
    - inversion H as [|? ? Hx Hr]; subst. rewrite Hx, IH by exact Hr.
      destruct (span p f); reflexivity.
  Qed.

  Definition carry_ok (cr : list stree) (stack : list frame) : Prop :=
    match stack with
    | [] => True
    | (k', _, _) :: _ => Forall (fun t => deeper k' t = true) cr
    end.

  (* popping the frames of level >= k and then attaching a forest that starts with a section of level k is the
     same as attaching that forest (preceded by the carried closed section) to the unpopped stack *)
  Lemma pop_attach k (c : A) (ins aft : list stree) : forall (stack : list frame) (cr : list stree),
    sorted_stack stack -> carry_ok cr stack ->
    let '(o, st') := pop_ge k cr stack in
    o ++ attach st' (SS k c ins :: aft) = attach stack (cr ++ SS k c ins :: aft) /\
    sorted_stack st' /\
    match st' with [] => True | (k2, _, _) :: _ => k2 < k end.
  Proof.
    induction stack as [|[[k' c'] d'] st IH]; intros cr Hs Hc.
    - cbn. auto.
    - cbn [pop_ge]. destruct (k <=? k') eqn:E.
      + (* the frame closes *)
        apply Nat.leb_le in E.
        cbn [sorted_stack] in Hs. destruct Hs as [Hlt Hst].
        specialize (IH [SS k' c' (d' ++ cr)] Hst).
        assert (Hc' : carry_ok [SS k' c' (d' ++ cr)] st).
        { destruct st as [|[[k2 c2] d2] st2]; [exact I|]. cbn. constructor; [|constructor].
          apply Nat.ltb_lt. exact Hlt. }
        specialize (IH Hc'). destruct (pop_ge k [SS k' c' (d' ++ cr)] st) as [o st'].
        destruct IH as [IH1 [IH2 IH3]]. split; [|split; assumption].
        rewrite IH1. cbn [attach]. cbn in Hc.
        rewrite span_app_all by exact Hc. cbn [span deeper].
        replace (k' <? k) with false by (symmetry; apply Nat.ltb_ge; lia).
        cbn [app]. rewrite app_nil_r. reflexivity.
      + apply Nat.leb_gt in E. split; [|split].
        * cbn [app attach]. cbn in Hc. rewrite span_app_all by exact Hc.
          destruct (span (deeper k') (SS k c ins :: aft)) as [a b]. rewrite app_assoc. reflexivity.
        * cbn [sorted_stack] in *. exact Hs.
        * exact E.
  Qed.

  Lemma alg_nest : forall (items : list item) (out : list stree) (stack : list frame), sorted_stack stack ->
    alg out stack items = out ++ attach stack (nest items).
  Proof.
    induction items as [|[k c|x] r IH]; intros out stack Hs.
    - reflexivity.
    - cbn [alg nest].
      pose proof (pop_attach k c) as P.
      destruct (span (deeper k) (nest r)) as [ins aft] eqn:Es.
      specialize (P ins aft stack [] Hs).
      assert (Hc : carry_ok [] stack) by (destruct stack as [|[[? ?] ?] ?]; cbn; auto).
      specialize (P Hc). destruct (pop_ge k [] stack) as [o st'].
      destruct P as [P1 [P2 P3]].
      rewrite IH.
      + cbn [attach]. rewrite Es. cbn [app] in *. rewrite <- P1, app_assoc. reflexivity.
      + cbn [sorted_stack]. split; [|exact P2]. destruct st' as [|[[k2 c2] d2] st2]; [exact I|exact P3].
    - cbn [alg nest]. destruct stack as [|[[k c] d] st].
      + rewrite IH by exact I. cbn [attach]. rewrite <- app_assoc. reflexivity.
      + rewrite IH.
        * cbn [attach span deeper]. destruct (span (deeper k) (nest r)) as [ins aft].
          rewrite <- app_assoc. reflexivity.
        * cbn [sorted_stack] in *. exact Hs.
  Qed.

  Lemma span_app (p : stree -> bool) f :
    let '(a, b) := span p f in a ++ b = f.
  Proof.
    induction f as [|x f IH]; cbn [span]; [reflexivity|].
    destruct (p x); [|reflexivity]. destruct (span p f) as [a b]. cbn. f_equal. exact IH.
  Qed.

  Lemma nest_flat (items : list item) : flat_map (@flat_s A) (nest items) = map (@flat_item A) items.
  Proof.
    induction items as [|[k c|x] r IH]; cbn [nest map flat_item]; [reflexivity| |].
    - pose proof (span_app (deeper k) (nest r)) as Hsp.
      destruct (span (deeper k) (nest r)) as [ins aft].
      cbn [flat_map flat_s]. rewrite <- IH, <- Hsp, flat_map_app. cbn [app]. reflexivity.
    - cbn [flat_map flat_s]. rewrite IH. reflexivity.
  Qed.

  (* well-formed levels: every section nested inside a section is strictly deeper than it.  A specification only:
     nothing is proved about it. *)
  Fixpoint wf_s (bound : nat) (t : stree) : Prop :=
    match t with
    | SB _ => True
    | SS k _ ch => bound < k /\ (fix all (l : list stree) : Prop := match l with [] => True | x :: r => wf_s k x /\ all r end) ch
    end.
End SectionsProofs.

