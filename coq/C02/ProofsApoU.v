(* C02 — surplus apostrophe runs, UNBOUNDED: a line of ANY length with exactly one run that is one apostrophe longer than the
   markup (''x'''s, w'''x'', '''x''''s, w''''x'''), all styles closed at the end, and - when the long run has three apostrophes -
   no other run of three, is resolved by compute_path to the denoted path `apo_path`, for EVERY tie-breaking order of sort_states.

   The invariant is `tracked` of ProofsQuotes.v; what changes along the line is the kind `other` of the states kept beside the
   denoted state t:
     long run of four : other = more literal apostrophes than t (`dearer_kind`), as on a line of plain runs (a run of four costs at least one
                        literal apostrophe, every other reading of any run costs one more);
     long run of three: in front of it the runs have two apostrophes and ONE reading: there is no other state at all (`lone_kind`);
                        from it on, other = (0, bold, not italic of t) (`other3_kind`): the run read as a bold toggle, bold stays open for the
                        rest of the line.
   At the end of the line t = (1, off, off) with score 1, and either kind has a score >= 2. *)
From Coq Require Import List NArith Bool Arith Lia Permutation Sorted.
From MW Require Import Common.Str C01.Model C01.Proofs C02.Model C02.ProofsQuotes C02.ModelApo.
Import ListNotations.

Definition lone (_ _ : st) : Prop := False.

Lemma ri_plain r : RI = r -> plain r.
Proof. intros <-. reflexivity. Qed.

Lemma lone_step r t : RI = r -> apart_after (lone t) lone r t.
Proof.
  intros <-. split; [|intros s ns n []].
  intros ns H. cbn in H. inversion H; subst. split; [left; reflexivity|]. intros n [<-|[]]. left. reflexivity.
Qed.

Definition lone_kind : beside :=
  {| other := lone; allowed := eq RI; other_ne := fun _ _ (F : False) => match F with end;
     other_nz := fun _ _ (F : False) => match F with end; allowed_plain := ri_plain; other_step := lone_step |}.

Definition other3 (t k : st) : Prop := apo k = 0 /\ bold k = true /\ ital k = negb (ital t).

Lemma other3_ne t k : other3 t k -> k <> t.
Proof. intros [_ [_ H]] ->. destruct (ital t); discriminate. Qed.
Lemma other3_nz t k : other3 t k -> is_zero k = false.
Proof. unfold other3, is_zero. intros [_ [H _]]. rewrite H. destruct (apo k =? 0); reflexivity. Qed.
Lemma other3_closed t k : apo t = 1 -> bold t = false -> ital t = false -> other3 t k -> score t < score k.
Proof. unfold other3, score. intros -> -> -> [_ [-> ->]]. cbn. lia. Qed.

Lemma other3_step r t : RI = r -> apart_after (other3 t) other3 r t.
Proof.
  intros <-. cbn [count_of]. split.
  - intros ns H. cbn in H. inversion H; subst. split; [left; reflexivity|]. intros n [<-|[]]. left. reflexivity.
  - intros s ns n [H1 [H2 H3]] H Hn. cbn in H. inversion H; subst. destruct Hn as [<-|[]].
    unfold other3. cbn. rewrite H1, H2, H3. auto.
Qed.

Definition other3_kind : beside :=
  {| other := other3; allowed := eq RI; other_ne := other3_ne; other_nz := other3_nz;
     allowed_plain := ri_plain; other_step := other3_step |}.

Lemma filter_none (l : list qrun) : length (filter is_surplus l) = 0 -> Forall plain l.
Proof.
  induction l as [|r q IH]; intros H; [constructor|]. cbn [filter] in H.
  destruct (is_surplus r) eqn:E; [cbn in H; lia|]. constructor; [exact E|apply IH; exact H].
Qed.

Lemma one_surplus (l : list qrun) : length (filter is_surplus l) = 1 ->
  exists pre s post, l = pre ++ s :: post /\ is_surplus s = true /\ Forall plain pre /\ Forall plain post.
Proof.
  induction l as [|r q IH]; intros H; [cbn in H; lia|]. cbn [filter] in H.
  destruct (is_surplus r) eqn:E.
  - cbn [length] in H. exists [], r, q. split; [reflexivity|]. split; [exact E|]. split; [constructor|apply filter_none; lia].
  - destruct (IH H) as [pre [s [post [-> [Hs [Hp Hq]]]]]]. exists (r :: pre), s, post.
    split; [reflexivity|]. split; [exact Hs|]. split; [constructor; [exact E|exact Hp]|exact Hq].
Qed.

Lemma no_rb_ri l : existsb (qrun_eqb RB) l = false -> Forall plain l -> Forall (eq RI) l.
Proof.
  induction l as [|r q IH]; intros H HF; [constructor|]. inversion HF as [|? ? Hr Hq]; subst.
  cbn [existsb] in H. apply orb_false_iff in H as [H1 H2]. constructor; [|apply IH; assumption].
  destruct r; unfold plain in Hr; cbn in Hr, H1; try discriminate; reflexivity.
Qed.

Lemma ri_bold rs : Forall (eq RI) rs -> forall t h, bold (fst (run_apo t h rs)) = bold t.
Proof. induction 1 as [|r q <- _ IH]; intros t h; [reflexivity|]. cbn [run_apo]. rewrite IH. reflexivity. Qed.

Section WithSorter.
  Variable sorter : list pst -> list pst.
  Hypothesis sorter_perm : forall l, Permutation (sorter l) l.
  Hypothesis sorter_sorted : forall l, StronglySorted le_score (sorter l).

  Lemma surplus4_step states t h : apo t = 0 -> tracked dearer states t h ->
    exists new kept, expand 4 states = Ok new /\ prune (sorter new) = Ok kept /\ tracked dearer kept (apo_step RAB t) (t :: h).
  Proof.
    intros Ha [Hin Hoth _]. destruct t as [a b i]. cbn in Ha. subst a.
    apply (tracked_step sorter sorter_perm sorter_sorted dearer_kind (dearer (mkst 0 b i)) RAB states); [|exact Hin|exact Hoth|split; cbn [other dearer_kind]].
    - unfold score. destruct b, i; cbn; lia.
    - intros ns H. cbn in H. inversion H; subst.
      split; [left; reflexivity|]. intros n [<-|[<-|[]]]; [left; reflexivity|right]. unfold dearer. cbn. lia.
    - intros s ns n Hs H Hn. cbn in H. inversion H; subst. unfold dearer in *. cbn in Hs. destruct Hn as [<-|[<-|[]]]; cbn; lia.
  Qed.

  Lemma surplus3_step states t h : apo t = 0 -> bold t = false -> tracked lone states t h ->
    exists new kept, expand 3 states = Ok new /\ prune (sorter new) = Ok kept /\ tracked other3 kept (apo_step RAI t) (t :: h).
  Proof.
    intros Ha Hb [Hin Hoth _]. destruct t as [a b i]. cbn in Ha, Hb. subst a b.
    apply (tracked_step sorter sorter_perm sorter_sorted other3_kind (lone (mkst 0 false i)) RAI states); [|exact Hin|exact Hoth|split; cbn [other other3_kind]].
    - unfold score. destruct i; cbn; lia.
    - intros ns H. cbn in H. inversion H; subst. split; [right; left; reflexivity|].
      intros n [<-|[<-|[]]]; [right|left; reflexivity]. unfold other3. cbn. rewrite negb_involutive. auto.
    - intros s ns n [].
  Qed.

  Lemma quotes_surplus (rs : list qrun) : surplus_line rs = true ->
    compute_path sorter (map count_of rs) = Ok (apo_path 0 false false rs).
  Proof.
    unfold surplus_line. intros H. apply andb_true_iff in H as [H H3]. apply andb_true_iff in H as [H1 H2].
    apply Nat.eqb_eq in H1. destruct (one_surplus rs H1) as [pre [s [post [Hrs [Hs [Hpre Hpost]]]]]].
    set (t1 := fst (run_apo init_st [] pre)). set (h1 := snd (run_apo init_st [] pre)).
    assert (Ht1 : apo t1 = 0) by (unfold t1; rewrite run_apo_plain_apo by exact Hpre; reflexivity).
    assert (Ha2 : apo (apo_step s t1) = 1) by (cbn [apo_step apo]; rewrite Hs, Ht1; reflexivity).
    (* the state at the end of the line is (1, off, off) *)
    set (t3 := fst (run_apo init_st [] rs)).
    assert (Ha3 : apo t3 = 1).
    { unfold t3. rewrite Hrs, run_apo_app. cbn [run_apo]. rewrite run_apo_plain_apo by exact Hpost. exact Ha2. }
    assert (Hc3 : bold t3 = false /\ ital t3 = false).
    { unfold t3. rewrite run_apo_last. cbn [init_st apo bold ital].
      destruct (rev (apo_path 0 false false rs)) as [|e r]; [discriminate|].
      apply andb_true_iff in H2 as [Hb Hi]. apply negb_true_iff in Hb, Hi. auto. }
    destruct Hc3 as [Hb3 Hi3].
    destruct s; cbn in Hs; try discriminate.
    - (* long run of three: every other run has two apostrophes *)
      assert (Hex : existsb (qrun_eqb RAI) rs = true).
      { rewrite Hrs, existsb_app. cbn. apply orb_true_r. }
      rewrite Hex in H3. cbn [negb orb] in H3. apply negb_true_iff in H3.
      rewrite Hrs, existsb_app in H3. apply orb_false_iff in H3 as [H3a H3b]. cbn [existsb] in H3b.
      apply orb_false_iff in H3b as [_ H3b].
      pose proof (no_rb_ri pre H3a Hpre) as Hpre'. pose proof (no_rb_ri post H3b Hpost) as Hpost'.
      assert (Hb1 : bold t1 = false) by (unfold t1; rewrite ri_bold by exact Hpre'; reflexivity).
      destruct (tracked_plain sorter sorter_perm sorter_sorted lone_kind pre Hpre' [(init_st, [])] init_st []) as [mid [Hph1 Htr1]];
        [cbn; lia|apply tracked_init|].
      destruct (surplus3_step mid t1 h1 Ht1 Hb1 Htr1) as [new [kept [Hnew [Hk Htr2]]]].
      assert (Hcut : rs = (pre ++ [RAI]) ++ post) by (rewrite <- app_assoc; exact Hrs).
      rewrite Hcut. apply (tracked_after_long sorter sorter_perm sorter_sorted other3_kind (pre ++ [RAI]) post kept).
      + rewrite map_app. exact (steps'_snoc sorter _ _ _ _ _ _ Hph1 Hnew Hk).
      + rewrite run_apo_app. exact Htr2.
      + rewrite run_apo_app. fold t1 h1. cbn [run_apo fst]. lia.
      + exact Hpost'.
      + rewrite <- Hcut. intros k. apply other3_closed; assumption.
    - (* long run of four *)
      destruct (tracked_plain sorter sorter_perm sorter_sorted dearer_kind pre Hpre [(init_st, [])] init_st []) as [mid [Hph1 Htr1]];
        [cbn; lia|apply tracked_init|].
      destruct (surplus4_step mid t1 h1 Ht1 Htr1) as [new [kept [Hnew [Hk Htr2]]]].
      assert (Hcut : rs = (pre ++ [RAB]) ++ post) by (rewrite <- app_assoc; exact Hrs).
      rewrite Hcut. apply (tracked_after_long sorter sorter_perm sorter_sorted dearer_kind (pre ++ [RAB]) post kept).
      + rewrite map_app. exact (steps'_snoc sorter _ _ _ _ _ _ Hph1 Hnew Hk).
      + rewrite run_apo_app. exact Htr2.
      + rewrite run_apo_app. fold t1 h1. cbn [run_apo fst]. lia.
      + exact Hpost.
      + rewrite <- Hcut. intros k. apply dearer_closed; assumption.
  Qed.
End WithSorter.

Lemma quotes_surplus_two_orders (rs : list qrun) : surplus_line rs = true ->
  compute_path stable_sort (map count_of rs) = Ok (apo_path 0 false false rs) /\
  compute_path antistable_sort (map count_of rs) = Ok (apo_path 0 false false rs).
Proof.
  intros H. apply (two_orders (fun sorter => compute_path sorter (map count_of rs) = _)). intros sorter Hp Hs.
  apply quotes_surplus; assumption.
Qed.

(* a line of 40 runs: ''w'' x 19, then ''Hamlet'''s *)
Definition long_surplus_line : list qrun := repeat RI 39 ++ [RAI].

Lemma st_list_eqb_spec : forall a b, st_list_eqb a b = true <-> a = b.
Proof.
  induction a as [|x a IH]; destruct b as [|y b]; cbn [st_list_eqb]; try (split; discriminate); [tauto|].
  rewrite andb_true_iff, st_eqb_eq, IH. split; [intros [-> ->]; reflexivity|]. intros E. injection E as -> ->. auto.
Qed.

Lemma path_is_apo_spec sorter rs :
  path_is_apo sorter rs = true <-> compute_path sorter (map count_of rs) = Ok (apo_path 0 false false rs).
Proof.
  unfold path_is_apo. destruct (compute_path sorter (map count_of rs)) as [p|e]; [|split; discriminate].
  rewrite st_list_eqb_spec. split; [intros ->; reflexivity|]. intros E. injection E as ->. reflexivity.
Qed.

Lemma lines_upto_complete n : forall rs, length rs <= n -> In rs (lines_upto n).
Proof.
  induction n as [|n IH]; intros rs H.
  - destruct rs; [left; reflexivity|cbn in H; lia].
  - destruct rs as [|r t]; [left; reflexivity|]. right. cbn [length] in H.
    apply in_flat_map. exists t. split; [apply IH; lia|].
    destruct r; cbn; auto.
Qed.

Lemma surplus_lines_count : length (filter surplus_line (lines_upto surplus_bound)) = 646.
Proof. vm_compute. reflexivity. Qed.

(* The executable check of ModelApo.v: `all_surplus_lines_ok` sweeps the lines of at most `surplus_bound` runs.  It holds by
   the theorem; nothing is run. *)
Lemma all_surplus_lines_ok_true : all_surplus_lines_ok = true.
Proof.
  apply forallb_forall. intros rs _. destruct (surplus_line rs) eqn:E; [|reflexivity].
  destruct (quotes_surplus_two_orders rs E) as [H1 H2]. apply path_is_apo_spec in H1, H2. rewrite H1, H2. reflexivity.
Qed.
