(* C20 — the temp file is "moved" into place (shutil.move): rename, or - across file systems - copy onto the
   published name.  Same file system (in particular: temp file a sibling of the output): the trace IS the
   close-then-rename producer, accepted, publishes exactly the payload.  Different file systems: rejected by the
   recogniser, and really unsafe - for every way the copy loop cuts the data there is a crash point at which a reader
   finds a strict prefix of the payload (the empty file right after the open) under the final name. *)
From Coq Require Import List NArith Bool Arith.
From MW Require Import C20.FsTrace C20.Model C20.Proofs C20.ProofsBuffered C20.ModelMove.
Import ListNotations.

Lemma cross_false : forall dirof dev a b, dev (dirof a) = dev (dirof b) -> cross_device dirof dev a b = false.
Proof. intros dirof dev a b H. unfold cross_device. rewrite H, Nat.eqb_refl. reflexivity. Qed.

Lemma cross_true : forall dirof dev a b, dev (dirof a) <> dev (dirof b) -> cross_device dirof dev a b = true.
Proof. intros dirof dev a b H. unfold cross_device. apply Nat.eqb_neq in H. rewrite H. reflexivity. Qed.

Lemma write_temp_temp_file : forall B f chunks, write_temp B f chunks = temp_file TEMP f (bw_all B f chunks).
Proof. intros B f chunks. unfold write_temp, temp_file, bw_all. rewrite <- app_assoc. reflexivity. Qed.

Lemma write_temp_rename : forall B f chunks,
  write_temp B f chunks ++ [Rename TEMP FINAL true] = producer_ok B f chunks.
Proof. intros B f chunks. rewrite write_temp_temp_file. symmetry. apply producer_ok_temp_file. Qed.

Theorem move_same_fs_is_rename : forall dirof dev B f h g chunks pieces,
  dev (dirof TEMP) = dev (dirof FINAL) ->
  producer_move dirof dev B f h g chunks pieces = producer_ok B f chunks.
Proof.
  intros dirof dev B f h g chunks pieces H. unfold producer_move. rewrite (cross_false _ _ _ _ H).
  cbn [move]. apply write_temp_rename.
Qed.

(* the fallback opens the published name itself for writing *)
Theorem move_cross_rejected : forall dirof dev B f h g chunks pieces,
  dev (dirof TEMP) <> dev (dirof FINAL) ->
  safe_publish FINAL (producer_move dirof dev B f h g chunks pieces) = false.
Proof.
  intros dirof dev B f h g chunks pieces H. unfold producer_move. rewrite (cross_true _ _ _ _ H).
  cbn [move]. apply (safe_publish_no_direct_open FINAL _ fl_w g); [|reflexivity].
  apply in_or_app. right. right. right. left. reflexivity.
Qed.

Lemma copy_writes_data : forall g ps, Forall (data_op g) (copy_writes g ps).
Proof. intros g ps. induction ps as [|p ps IH]; constructor; [constructor|exact IH]. Qed.

Lemma written_copy : forall g ps, written (copy_writes g ps) = concat ps.
Proof. intros g ps. induction ps as [|p ps IH]; [reflexivity|]. cbn [copy_writes map written concat]. f_equal. exact IH. Qed.

Lemma open_r_fd : forall s src h g, g <> h -> fds (step s (Openat src fl_r h true)) g = fds s g.
Proof.
  intros s src h g H. cbn [step]. destruct (fds s h); [reflexivity|].
  destruct (names s src); cbn [fl_r o_creat o_excl o_trunc writable o_mode andb]; [|reflexivity].
  cbn [set_fd fds]. apply updN_neq. exact H.
Qed.

(* open(p, O_WRONLY|O_CREAT|O_TRUNC): whatever p named before, it now names an EMPTY inode, g writes at offset 0 *)
Lemma open_w_post : forall s p g, fds s g = None ->
  exists j, names (step s (Openat p fl_w g true)) p = Some j /\
            idata (step s (Openat p fl_w g true)) j = [] /\
            at_end (step s (Openat p fl_w g true)) g j.
Proof.
  intros s p g Hg. unfold at_end. destruct (names s p) as [j|] eqn:Hp.
  - exists j. cbn [step]. rewrite Hg, Hp. cbn [fl_w o_creat o_excl o_trunc o_append writable o_mode andb].
    cbn [set_data set_fd names idata fds]. rewrite Hp, updn_eq, updN_eq. auto.
  - exists (next s). cbn [step]. rewrite Hg, Hp. cbn [fl_w o_creat o_excl o_trunc o_append writable o_mode andb].
    cbn [names idata fds]. rewrite updn_eq, !updN_eq. auto.
Qed.

(* the copy fallback, stopped after the pieces p1: dst holds exactly those pieces - whatever it held before is gone *)
Lemma copy_exposes : forall s src dst h g p1,
  fds s g = None -> g <> h ->
  content_at (run (Rename src dst false :: Openat src fl_r h true :: Openat dst fl_w g true :: copy_writes g p1) s) dst
  = Some (concat p1).
Proof.
  intros s src dst h g p1 Hg Hgh.
  change (run (Rename src dst false :: Openat src fl_r h true :: Openat dst fl_w g true :: copy_writes g p1) s)
    with (run (copy_writes g p1) (step (step s (Openat src fl_r h true)) (Openat dst fl_w g true))).
  set (sA := step s (Openat src fl_r h true)).
  assert (HA : fds sA g = None) by (subst sA; rewrite open_r_fd; assumption).
  destruct (open_w_post sA dst g HA) as [j [Hnj [Hdj Hfj]]].
  destruct (run_data g j _ _ (copy_writes_data g p1) Hfj) as [Hn2 [_ [Hd2 _]]].
  unfold content_at. rewrite Hn2, Hnj, Hd2, Hdj, written_copy. reflexivity.
Qed.

(* Main theorem of the cross-file-system case: for EVERY cut p1 ++ p2 of what the copy loop writes there is a crash
   point (a prefix of the trace = SIGKILL at that syscall boundary) at which a reader of FINAL finds exactly concat p1.
   In particular (p1 = []) right after the open of the fallback the published name holds an EMPTY file: the state the
   search finds on the real code (replay zip/create%rel+xdev kill@sendfile#1: "File is not a zip file (0 bytes)"). *)
Theorem move_cross_exposes_prefix : forall dirof dev B f h g chunks p1 p2 s0,
  dev (dirof TEMP) <> dev (dirof FINAL) ->
  names s0 TEMP = None -> fds s0 f = None -> fds s0 g = None -> g <> h ->
  exists k, content_at (run (firstn k (producer_move dirof dev B f h g chunks (p1 ++ p2))) s0) FINAL
            = Some (concat p1).
Proof.
  intros dirof dev B f h g chunks p1 p2 s0 Hx Hn Hf Hg Hgh.
  unfold producer_move. rewrite (cross_true _ _ _ _ Hx). cbn [move]. unfold move_copy.
  set (P := write_temp B f chunks ++
            (Rename TEMP FINAL false :: Openat TEMP fl_r h true :: Openat FINAL fl_w g true :: copy_writes g p1)).
  set (Q := copy_writes g p2 ++ [Close g true; Close h true; Unlink TEMP true]).
  assert (E : write_temp B f chunks ++
              Rename TEMP FINAL false :: Openat TEMP fl_r h true :: Openat FINAL fl_w g true ::
              copy_writes g (p1 ++ p2) ++ [Close g true; Close h true; Unlink TEMP true] = P ++ Q).
  { subst P Q. unfold copy_writes. rewrite map_app. rewrite <- !app_assoc. reflexivity. }
  exists (length P). rewrite E, firstn_app, Nat.sub_diag, firstn_all. cbn [firstn]. rewrite app_nil_r.
  subst P. rewrite run_app, write_temp_temp_file.
  destruct (run_temp_file TEMP f _ s0 Hn Hf (bw_all_data B f chunks)) as [_ [_ [_ Hfds]]].
  apply copy_exposes; [rewrite Hfds; exact Hg|exact Hgh].
Qed.
