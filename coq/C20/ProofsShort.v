(* C20 — short writes: the write-all loop publishes exactly the payload or nothing, whatever the kernel answers;
   a single unchecked write (seeded/C20-8) publishes a strict prefix, and the recogniser ACCEPTS that trace
   (it speaks about who may write to FINAL, not about what the program meant to write): this case belongs to
   the reader oracle of the harness, which is run under real short writes (RLIMIT_FSIZE). *)
From Coq Require Import List NArith Bool Arith.
From MW Require Import C20.FsTrace C20.Model C20.Proofs C20.ProofsBuffered C20.ModelShort.
Import ListNotations.

Lemma write_all_data : forall f outs data, Forall (data_op f) (fst (write_all f data outs)).
Proof.
  intros f outs. induction outs as [|r outs IH]; intros data; cbn [write_all].
  - destruct data; repeat constructor.
  - destruct data as [|b d]; [constructor|].
    destruct (accepted (length (b :: d)) r) as [k|]; cbn [fst].
    + constructor; [constructor|apply IH].
    + repeat constructor.
Qed.

Lemma write_all_written : forall f outs data,
  snd (write_all f data outs) = true -> written (fst (write_all f data outs)) = data.
Proof.
  intros f outs. induction outs as [|r outs IH]; intros data; cbn [write_all].
  - destruct data; cbn [fst written]; intros _; [reflexivity|apply app_nil_r].
  - destruct data as [|b d]; [reflexivity|].
    destruct (accepted (length (b :: d)) r) as [k|]; cbn [fst snd]; [|discriminate].
    intros Hs. cbn [written]. rewrite (IH _ Hs). apply firstn_skipn.
Qed.

(* what reached the file is always a prefix of the payload *)
Lemma write_all_prefix : forall f outs data,
  exists tail, written (fst (write_all f data outs)) ++ tail = data.
Proof.
  intros f outs. induction outs as [|r outs IH]; intros data; cbn [write_all].
  - destruct data; cbn [fst written]; [exists []; reflexivity|exists []; rewrite !app_nil_r; reflexivity].
  - destruct data as [|b d]; [exists []; reflexivity|].
    destruct (accepted (length (b :: d)) r) as [k|]; cbn [fst written].
    + destruct (IH (skipn k (b :: d))) as [tl Htl]. exists tl. rewrite <- app_assoc, Htl. apply firstn_skipn.
    + exists (b :: d). reflexivity.
Qed.

(* the write-all producer fills a temp file and renames it only when every byte was stored *)
Lemma producer_checked_temp_file : forall f payload outs,
  producer_checked f payload outs =
  temp_file TEMP f (fst (write_all f payload outs)) ++
  (if snd (write_all f payload outs) then [Rename TEMP FINAL true] else []).
Proof. intros f payload outs. unfold producer_checked, temp_file. cbn [app]. rewrite <- app_assoc. reflexivity. Qed.

(* it is in the safe_publish language for every payload and every sequence of outcomes *)
Theorem short_checked_accepted : forall f payload outs,
  safe_publish FINAL (producer_checked f payload outs) = true.
Proof.
  intros f payload outs.
  rewrite producer_checked_temp_file, (safe_publish_temp_file FINAL TEMP f _ _ temp_not_final (write_all_data f outs payload)).
  destruct (snd (write_all f payload outs)); reflexivity.
Qed.

(* seeded/C20-8: one write, fsync, close, rename - or, when os.write raises, close and no rename *)
Lemma producer_unchecked_temp_file : forall f payload r,
  producer_unchecked f payload r =
  match accepted (length payload) r with
  | Some k => temp_file TEMP f [Write f (firstn k payload) true; Fsync f true] ++ [Rename TEMP FINAL true]
  | None => temp_file TEMP f [Write f [] false]
  end.
Proof. intros f payload r. unfold producer_unchecked. destruct (accepted (length payload) r); reflexivity. Qed.
