(* C20 — property theorems only.  Each is put together in a few lines from the lemmas of the Proofs files (or closed by
   computation for the closed examples) and followed by Print Assumptions; the check re-compiles this file on every run. *)
From Coq Require Import List NArith Bool PeanoNat Lia.
From MW Require Import C20.FsTrace C20.Model C20.Proofs C20.ProofsBuffered C20.ModelMove C20.ProofsMove C20.Gen_Sites C20.ProofsSites C20.ModelShort C20.ProofsShort.
Import ListNotations.

(* If the recogniser accepts the trace t of a producer then, from ANY initial file system with nothing
   open and no hard links, after EVERY prefix of t (= a kill at any syscall boundary; failed syscalls
   are ops with ok = false) a reader opening `final` finds it absent, or with the contents it had
   before the producer started, or with contents c that were published by an earlier successful
   rename onto final: c is exactly what the source inode contained at that rename, which is what it
   contained when it was last closed, and no writable descriptor referred to it.  Any number of
   publishes per trace. *)
Theorem C20_safe_publish_sound : forall final t s0,
  safe_publish final t = true -> quiescent s0 ->
  forall k, let s := run (firstn k t) s0 in
    content_at s final = None \/
    content_at s final = content_at s0 final \/
    exists c, content_at s final = Some c /\
      exists j a i, j < k /\ nth_error t j = Some (Rename a final true) /\ a <> final /\
        let sj := run (firstn j t) s0 in
        names sj a = Some i /\ idata sj i = c /\ iclosed sj i = c /\
        (forall f d, fds sj f = Some d -> fd_ino d = i -> fd_wr d = false).
Proof. exact safe_publish_sound. Qed.
Print Assumptions C20_safe_publish_sound.

(* the language is prefix closed: the trace of a killed run is accepted whenever the full one is *)
Theorem C20_safe_publish_prefix_closed : forall final t k,
  safe_publish final t = true -> safe_publish final (firstn k t) = true.
Proof.
  intros final t k H. apply (safe_publish_app_l final _ (skipn k t)). rewrite firstn_skipn. exact H.
Qed.
Print Assumptions C20_safe_publish_prefix_closed.

(* short writes / a kill in the middle of a write(2): write granularity is irrelevant *)
Theorem C20_write_granularity_irrelevant : forall final t1 t2 f a b ok,
  safe_publish final (t1 ++ Write f (a ++ b) ok :: t2) =
  safe_publish final (t1 ++ Write f a ok :: Write f b ok :: t2).
Proof.
  intros final t1 t2 f a b ok. apply (safe_publish_data_irrelevant final f [_] [_; _]); repeat constructor.
Qed.
Print Assumptions C20_write_granularity_irrelevant.

(* `final` is never opened for writing, truncated or created directly, anywhere in an accepted trace *)
Theorem C20_direct_open_rejected : forall final t1 t2 fl f,
  (writable fl || o_trunc fl || o_creat fl) = true ->
  safe_publish final (t1 ++ Openat final fl f true :: t2) = false.
Proof. exact safe_publish_rejects_direct_open. Qed.
Print Assumptions C20_direct_open_rejected.

(* the hypothesis on the initial state is satisfiable: every state built from a list of files *)
Theorem C20_initial_states_quiescent : forall files, quiescent (mk_fs files).
Proof. exact mk_fs_quiescent. Qed.
Print Assumptions C20_initial_states_quiescent.

(* Non-vacuity: a zip-like trace with seeks, a header patch, a pwrite behind a hole and an ftruncate on
   the temp file is accepted; the reader sees the old version after every prefix but the last, then
   the complete new one. *)
Example C20_zip_like_accepted :
  safe_publish FINAL zip_trace = true /\
  views zip_trace fs_old = repeat (Some old_bytes) 13 ++ [Some zip_bytes] /\
  views zip_trace fs_empty = repeat None 13 ++ [Some zip_bytes].
Proof. vm_compute. repeat split. Qed.
Print Assumptions C20_zip_like_accepted.

(* two publishes in one trace (Status.dump twice); re-truncating the temp name does not touch FINAL *)
Example C20_status_like_accepted :
  safe_publish FINAL status_trace = true /\
  views status_trace fs_old =
    repeat (Some old_bytes) 4 ++ repeat (Some [1; 2]%N) 4 ++ [Some [4; 5; 6]%N].
Proof. vm_compute. repeat split. Qed.
Print Assumptions C20_status_like_accepted.

(* a failed write (injected ENOSPC) followed by close + unlink of the temp file *)
Example C20_enospc_accepted :
  safe_publish FINAL enospc_trace = true /\ views enospc_trace fs_old = repeat (Some old_bytes) 6.
Proof. vm_compute. repeat split. Qed.
Print Assumptions C20_enospc_accepted.

(* open(final,'w'); write; write is rejected by the recogniser AND really has partial prefixes: after
   1 op the reader sees an empty file, after 2 ops half of the new contents *)
Example C20_direct_write_unsafe :
  safe_publish FINAL direct_trace = false /\
  content_at (run direct_trace fs_old) FINAL = Some [1; 2; 3; 4]%N /\
  exists k, let v := content_at (run (firstn k direct_trace) fs_old) FINAL in
    v <> None /\ v <> Some old_bytes /\ v <> Some [1; 2; 3; 4]%N.
Proof. split; [reflexivity|]. split; [reflexivity|]. exists 2. vm_compute. repeat split; discriminate. Qed.
Print Assumptions C20_direct_write_unsafe.

(* rename before close (temp still open for writing): rejected, and really partial after 3 ops *)
Example C20_early_rename_unsafe :
  safe_publish FINAL early_rename_trace = false /\
  content_at (run early_rename_trace fs_old) FINAL = Some [1; 2; 3; 4]%N /\
  content_at (run (firstn 3 early_rename_trace) fs_old) FINAL = Some [1; 2]%N.
Proof. vm_compute. repeat split. Qed.
Print Assumptions C20_early_rename_unsafe.

(* ---- producers that write through a user-space buffer (what a kill loses), for ARBITRARY payloads ----
   bw_ops B f buf chunks = the write(2) calls a buffered file object of capacity B issues for `chunks`, and the bytes
   still pending in user space (Model.v).  producer_ok = open temp; write chunks; flush; close; rename (transport.py
   as it is); producer_early = the rename moved before flush + close (seeded/C20-3). *)

(* close-then-rename is in the proved language for every buffer capacity, descriptor, payload and chunking *)
Theorem C20_buffered_producer_accepted : forall B f chunks, safe_publish FINAL (producer_ok B f chunks) = true.
Proof. exact buffered_producer_accepted. Qed.
Print Assumptions C20_buffered_producer_accepted.

(* ... and what it publishes is exactly the payload *)
Theorem C20_buffered_producer_publishes_payload : forall B f chunks s0,
  names s0 TEMP = None -> fds s0 f = None ->
  content_at (run (producer_ok B f chunks) s0) FINAL = Some (concat chunks).
Proof. exact buffered_producer_publishes_payload. Qed.
Print Assumptions C20_buffered_producer_publishes_payload.

(* rename before flush + close is rejected whatever the sizes are *)
Theorem C20_early_rename_rejected : forall B f chunks, safe_publish FINAL (producer_early B f chunks) = false.
Proof.
  intros B f chunks. unfold producer_early, early_prefix. cbn [app]. rewrite <- app_assoc.
  apply (safe_publish_rename_open_rejected FINAL TEMP f _ _ temp_not_final (bw_ops_data B f chunks [])).
Qed.
Print Assumptions C20_early_rename_rejected.

(* ... and it is really unsafe exactly in the size class the search must cover: whenever bytes are pending in user
   space at the rename (payload size not absorbed by write-through), the prefix ending with the rename shows a strict
   prefix of the payload at FINAL *)
Theorem C20_early_rename_exposes_strict_prefix : forall B f chunks s0,
  names s0 TEMP = None -> fds s0 f = None -> snd (bw_ops B f [] chunks) <> [] ->
  exists k c, content_at (run (firstn k (producer_early B f chunks)) s0) FINAL = Some c /\
              c <> concat chunks /\ exists tail, tail <> [] /\ c ++ tail = concat chunks.
Proof.
  intros B f chunks s0 Hn Hf Hb.
  exists (length (early_prefix B f chunks)), (written (fst (bw_ops B f [] chunks))).
  rewrite early_prefix_firstn. split; [exact (early_rename_exposes_written B f chunks s0 Hn Hf)|].
  exact (strict_prefix _ _ _ (bw_ops_conserves B f chunks []) Hb).
Qed.
Print Assumptions C20_early_rename_exposes_strict_prefix.

(* non-vacuity of the pending-bytes hypothesis: B = 4, chunks of 3 + 3 + 2 bytes: the first two chunks are flushed when
   the next one no longer fits, the last 2 bytes are pending at the rename; with a payload that is a multiple of the write-through size
   nothing is pending *)
Example C20_pending_tail_exists :
  bw_ops 4 3%N [] [[1; 2; 3]; [4; 5; 6]; [7; 8]]%N = ([Write 3%N [1; 2; 3]%N true; Write 3%N [4; 5; 6]%N true], [7; 8]%N) /\
  snd (bw_ops 4 3%N [] [[1; 2; 3; 4]; [5; 6; 7; 8]]%N) = [].
Proof. vm_compute. split; reflexivity. Qed.
Print Assumptions C20_pending_tail_exists.

(* ---- the temp file is MOVED into place (shutil.move = rename, or - across file systems - copy onto the published
   name; ModelMove.v).  dirof p = directory holding the name p, dev d = file system of directory d; the kernel
   answers rename(a, b) with EXDEV exactly when dev (dirof a) <> dev (dirof b).  producer_move = write the payload to
   TEMP (any buffer capacity / chunking), flush, close, move(TEMP, FINAL); `pieces` = how the copy loop cuts the data.
   (seeded/C20-5: mkstemp(dir = dirname(output) or None) + shutil.move.) *)

(* on one file system the move IS the close-then-rename producer: every theorem about producer_ok applies *)
Theorem C20_move_same_fs_is_rename : forall dirof dev B f h g chunks pieces,
  dev (dirof TEMP) = dev (dirof FINAL) ->
  producer_move dirof dev B f h g chunks pieces = producer_ok B f chunks.
Proof. exact move_same_fs_is_rename. Qed.
Print Assumptions C20_move_same_fs_is_rename.

(* a temp file that is a sibling of the output (same directory, hence same file system) is never cross-device *)
Theorem C20_sibling_never_cross_device : forall dirof dev a b,
  dirof a = dirof b -> cross_device dirof dev a b = false.
Proof. intros dirof dev a b H. apply cross_false. rewrite H. reflexivity. Qed.
Print Assumptions C20_sibling_never_cross_device.

(* ... so the producer with a sibling temp file satisfies atomic publish wherever $TMPDIR lives: accepted by the
   recogniser (C20_safe_publish_sound applies to every crash prefix) and it publishes exactly the payload *)
Theorem C20_move_sibling_safe : forall dirof dev B f h g chunks pieces,
  dirof TEMP = dirof FINAL ->
  safe_publish FINAL (producer_move dirof dev B f h g chunks pieces) = true /\
  forall s0, names s0 TEMP = None -> fds s0 f = None ->
    content_at (run (producer_move dirof dev B f h g chunks pieces) s0) FINAL = Some (concat chunks).
Proof.
  intros dirof dev B f h g chunks pieces H.
  assert (E : dev (dirof TEMP) = dev (dirof FINAL)) by (rewrite H; reflexivity).
  rewrite (move_same_fs_is_rename dirof dev B f h g chunks pieces E). split.
  - apply buffered_producer_accepted.
  - intros s0 Hn Hf. apply buffered_producer_publishes_payload; assumption.
Qed.
Print Assumptions C20_move_sibling_safe.

(* temp file on another file system: the copy fallback is outside the proved language, whatever the sizes *)
Theorem C20_move_cross_rejected : forall dirof dev B f h g chunks pieces,
  dev (dirof TEMP) <> dev (dirof FINAL) ->
  safe_publish FINAL (producer_move dirof dev B f h g chunks pieces) = false.
Proof. exact move_cross_rejected. Qed.
Print Assumptions C20_move_cross_rejected.

(* ... and it really violates atomic publish: for EVERY cut p1 ++ p2 of what the copy loop writes there is a crash
   point at which a reader of FINAL finds exactly concat p1 (from any initial state in which TEMP is a fresh name and
   the descriptors are free) *)
Theorem C20_move_cross_exposes_prefix : forall dirof dev B f h g chunks p1 p2 s0,
  dev (dirof TEMP) <> dev (dirof FINAL) ->
  names s0 TEMP = None -> fds s0 f = None -> fds s0 g = None -> g <> h ->
  exists k, content_at (run (firstn k (producer_move dirof dev B f h g chunks (p1 ++ p2))) s0) FINAL
            = Some (concat p1).
Proof. exact move_cross_exposes_prefix. Qed.
Print Assumptions C20_move_cross_exposes_prefix.

(* the invariant "absent / previous version / complete new version" is REFUTED for the copy fallback: with a non-empty
   previous version and a non-empty payload some crash prefix shows a file that is none of the three (the empty file
   right after open(FINAL, O_WRONLY|O_CREAT|O_TRUNC) - the 0-byte coll.zip of the replay) *)
Theorem C20_move_cross_refuted : forall dirof dev B f h g chunks pieces s0 old,
  dev (dirof TEMP) <> dev (dirof FINAL) ->
  names s0 TEMP = None -> fds s0 f = None -> fds s0 g = None -> g <> h ->
  content_at s0 FINAL = Some old -> old <> [] -> concat chunks <> [] ->
  exists k, let v := content_at (run (firstn k (producer_move dirof dev B f h g chunks pieces)) s0) FINAL in
            v <> None /\ v <> content_at s0 FINAL /\ v <> Some (concat chunks).
Proof.
  intros dirof dev B f h g chunks pieces s0 old Hx Hn Hf Hg Hgh Hold Ho Hc.
  destruct (move_cross_exposes_prefix dirof dev B f h g chunks [] pieces s0 Hx Hn Hf Hg Hgh) as [k Hk].
  cbn [app concat] in Hk. exists k. cbn zeta. rewrite Hk, Hold.
  repeat split; intros E; inversion E; subst; auto.
Qed.
Print Assumptions C20_move_cross_refuted.

(* a copy cut before its end exposes a STRICT prefix of the payload *)
Theorem C20_move_cross_strict_prefix : forall dirof dev B f h g chunks p1 p2 s0,
  dev (dirof TEMP) <> dev (dirof FINAL) ->
  names s0 TEMP = None -> fds s0 f = None -> fds s0 g = None -> g <> h ->
  concat (p1 ++ p2) = concat chunks -> concat p2 <> [] ->
  exists k c, content_at (run (firstn k (producer_move dirof dev B f h g chunks (p1 ++ p2))) s0) FINAL = Some c /\
              c <> concat chunks /\ exists tail, tail <> [] /\ c ++ tail = concat chunks.
Proof.
  intros dirof dev B f h g chunks p1 p2 s0 Hx Hn Hf Hg Hgh Hsum Hp2.
  destruct (move_cross_exposes_prefix dirof dev B f h g chunks p1 p2 s0 Hx Hn Hf Hg Hgh) as [k Hk].
  exists k, (concat p1). split; [exact Hk|]. rewrite concat_app in Hsum. exact (strict_prefix _ _ _ Hsum Hp2).
Qed.
Print Assumptions C20_move_cross_strict_prefix.

(* non-vacuity, both placements: TEMP in directory 1 on device 1 / FINAL in directory 0 on device 0: rejected, and the
   reader sees old, old, ..., EMPTY, half, complete; everything in one directory: accepted, old ... old, complete *)
Example C20_move_concrete :
  let t_cross := producer_move (fun p => p) N.to_nat 4 3%N 3%N 4%N [[1; 2; 3]]%N [[1; 2]; [3]]%N in
  let t_sibling := producer_move (fun _ => 7%N) N.to_nat 4 3%N 3%N 4%N [[1; 2; 3]]%N [[1; 2]; [3]]%N in
  safe_publish FINAL t_cross = false /\
  views t_cross fs_old = repeat (Some old_bytes) 6 ++ [Some []; Some [1; 2]%N] ++ repeat (Some [1; 2; 3]%N) 4 /\
  safe_publish FINAL t_sibling = true /\
  views t_sibling fs_old = repeat (Some old_bytes) 4 ++ [Some [1; 2; 3]%N].
Proof. vm_compute. repeat split. Qed.
Print Assumptions C20_move_concrete.

(* ---- the mkstemp sites of /repo, re-read from the source on every run (vt/gen/c20_sites.py -> Gen_Sites.v):
   site = (which directory mkstemp is given, which call publishes); site_trace = the trace of such a site for an output
   path spelled `sh` (Bare file name | InDir d), current directory cwd, $TMPDIR tmpdir, file systems dev (ModelMove.v) *)

(* sufficient condition, for EVERY spelling of the output, every $TMPDIR and every placement of the file systems:
   publish by rename (a cross-device rename fails cleanly), or move a temp file made in dirname(output) *)
Theorem C20_site_ok_sound : forall s, site_ok s = true ->
  forall dev cwd tmpdir sh B f h g chunks pieces,
    safe_publish FINAL (site_trace s dev cwd tmpdir sh B f h g chunks pieces) = true.
Proof. exact site_ok_sound. Qed.
Print Assumptions C20_site_ok_sound.

(* ... and necessary: every other site (shutil.move of a temp file made with dir=None or dir=(dirname or None)) has an
   environment - bare output name, $TMPDIR on another file system - in which the trace is rejected and a crash leaves
   an EMPTY file under the final name *)
Theorem C20_site_not_ok_refuted : forall s, site_ok s = false ->
  exists dev cwd tmpdir sh, forall B f h g chunks pieces,
    safe_publish FINAL (site_trace s dev cwd tmpdir sh B f h g chunks pieces) = false /\
    forall s0, names s0 TEMP = None -> fds s0 f = None -> fds s0 g = None -> g <> h ->
      exists k, content_at (run (firstn k (site_trace s dev cwd tmpdir sh B f h g chunks pieces)) s0) FINAL = Some [].
Proof. exact site_not_ok_refuted. Qed.
Print Assumptions C20_site_not_ok_refuted.

(* the three sites of /repo (buildzip.py create_zip, make_zip; render.py main) are safe in every environment; a source
   change to an unsafe site changes Gen_Sites.v and this proof fails *)
Theorem C20_repo_sites_safe : Forall (fun s => forall dev cwd tmpdir sh B f h g chunks pieces,
    safe_publish FINAL (site_trace s dev cwd tmpdir sh B f h g chunks pieces) = true) sites.
Proof. exact repo_sites_safe. Qed.
Print Assumptions C20_repo_sites_safe.

Theorem C20_repo_sites_found : length sites = 3.
Proof. reflexivity. Qed.
Print Assumptions C20_repo_sites_found.

(* ---- SHORT WRITES: write(2) stores fewer bytes than asked and reports the count, no error (almost full disk, quota,
   file-size limit).  In a trace this is just a Write op with fewer bytes (C20_write_granularity_irrelevant); what it
   changes is the producer.  wres = outcome of one write call (all / only k bytes / error); write_all = the loop of
   CPython's io stack (call write(2) with what is left until nothing is left or a call fails);
   producer_checked = open temp, write_all, close, rename only when write_all succeeded (status.py as it is);
   producer_unchecked = one os.write whose result is ignored, fsync, close, rename (seeded/C20-8). (ModelShort.v) *)

(* the write-all producer is in the proved language for every payload and EVERY sequence of write outcomes *)
Theorem C20_short_write_checked_accepted : forall f payload outs,
  safe_publish FINAL (producer_checked f payload outs) = true.
Proof. exact short_checked_accepted. Qed.
Print Assumptions C20_short_write_checked_accepted.

(* ... after the complete run FINAL holds exactly the payload when every byte was stored and is untouched when a call
   failed, however many calls were cut short before *)
Theorem C20_short_write_checked_publishes : forall f payload outs s0,
  names s0 TEMP = None -> fds s0 f = None -> (forall i, names s0 FINAL = Some i -> i < next s0) ->
  content_at (run (producer_checked f payload outs) s0) FINAL =
  if snd (write_all f payload outs) then Some payload else content_at s0 FINAL.
Proof.
  intros f payload outs s0 Hn Hf Hlt. rewrite producer_checked_temp_file.
  pose proof (write_all_data f outs payload) as Hws.
  destruct (snd (write_all f payload outs)) eqn:Hs.
  - rewrite (temp_file_rename_publishes TEMP FINAL f _ s0 temp_not_final Hn Hf Hws).
    rewrite (write_all_written f outs payload Hs). reflexivity.
  - rewrite app_nil_r. apply temp_file_keeps; auto. discriminate.
Qed.
Print Assumptions C20_short_write_checked_publishes.

(* ... and every killed prefix of it shows absent / old / a published complete version *)
Theorem C20_short_write_checked_crash_safe : forall f payload outs s0,
  quiescent s0 ->
  forall k, let s := run (firstn k (producer_checked f payload outs)) s0 in
    content_at s FINAL = None \/ content_at s FINAL = content_at s0 FINAL \/
    exists c, content_at s FINAL = Some c /\ published_before FINAL (producer_checked f payload outs) s0 k c.
Proof.
  intros f payload outs s0 Q. apply safe_publish_sound; [apply short_checked_accepted|exact Q].
Qed.
Print Assumptions C20_short_write_checked_crash_safe.

(* the unchecked single write: the recogniser ACCEPTS its trace for every outcome (nobody writes to FINAL, the temp
   file is closed before the rename) - the recogniser speaks about who writes where, not about what was meant ... *)
Theorem C20_short_write_unchecked_accepted : forall f payload r,
  safe_publish FINAL (producer_unchecked f payload r) = true.
Proof.
  intros f payload r. rewrite producer_unchecked_temp_file. destruct (accepted (length payload) r) as [k|].
  - rewrite (safe_publish_temp_file FINAL TEMP f _ _ temp_not_final); [reflexivity|repeat constructor].
  - rewrite <- (app_nil_r (temp_file _ _ _)), (safe_publish_temp_file FINAL TEMP f _ _ temp_not_final);
      [reflexivity|repeat constructor].
Qed.
Print Assumptions C20_short_write_unchecked_accepted.

(* ... and yet ONE short write makes it publish a strict prefix of the payload, with no failed syscall in the trace:
   this regression class is the reader oracle's (run under real short writes), not the recogniser's *)
Theorem C20_short_write_unchecked_refuted : forall f payload k s0,
  names s0 TEMP = None -> fds s0 f = None -> k < length payload ->
  content_at (run (producer_unchecked f payload (WShort k)) s0) FINAL = Some (firstn k payload) /\
  firstn k payload <> payload /\
  Forall (fun o => match o with Write _ _ false | Close _ false | Rename _ _ false | Fsync _ false => False | _ => True end)
         (producer_unchecked f payload (WShort k)).
Proof.
  intros f payload k s0 Hn Hf Hk. rewrite producer_unchecked_temp_file. cbn [accepted]. rewrite Nat.min_l by lia.
  split; [|split].
  - rewrite (temp_file_rename_publishes TEMP FINAL f _ s0 temp_not_final Hn Hf) by repeat constructor.
    cbn [written]. rewrite !app_nil_r. reflexivity.
  - intros E. apply (f_equal (@length N)) in E. rewrite firstn_length in E. lia.
  - repeat constructor.
Qed.
Print Assumptions C20_short_write_unchecked_refuted.

(* a FAILING write is handled by the unchecked form too (os.write raises): seeded/C20-8 only shows under short writes *)
Theorem C20_short_write_unchecked_error_safe : forall f payload s0,
  names s0 TEMP = None -> fds s0 f = None -> (forall i, names s0 FINAL = Some i -> i < next s0) ->
  content_at (run (producer_unchecked f payload WErr) s0) FINAL = content_at s0 FINAL.
Proof.
  intros f payload s0 Hn Hf Hlt. rewrite producer_unchecked_temp_file. cbn [accepted].
  apply temp_file_keeps; auto; [repeat constructor|discriminate].
Qed.
Print Assumptions C20_short_write_unchecked_error_safe.

(* the recogniser's verdict does not depend on how many bytes a write stored or whether it succeeded; the soundness
   theorem quantifies over all traces with the bytes ACTUALLY written, so short writes are inside it unchanged *)
Theorem C20_recogniser_blind_to_write_outcome : forall final t1 t2 f a b ok ok',
  safe_publish final (t1 ++ Write f a ok :: t2) = safe_publish final (t1 ++ Write f b ok' :: t2).
Proof.
  intros final t1 t2 f a b ok ok'. apply (safe_publish_data_irrelevant final f [_] [_]); repeat constructor.
Qed.
Print Assumptions C20_recogniser_blind_to_write_outcome.

(* the model's short write: the first k bytes are appended and the offset moves by k *)
Theorem C20_short_write_effect : forall s f i bs k,
  fds s f = Some (mkfd i true false (length (idata s i))) ->
  let s' := step s (Write f (firstn k bs) true) in
  idata s' i = idata s i ++ firstn k bs /\ names s' = names s /\
  fds s' f = Some (mkfd i true false (length (idata s i) + length (firstn k bs))).
Proof.
  intros s f i bs k Hfd. destruct (step_write_end s f i (firstn k bs) Hfd) as [Hn [_ [Hd [_ [Hf _]]]]].
  unfold at_end in Hf. rewrite Hd, app_length in Hf. auto.
Qed.
Print Assumptions C20_short_write_effect.

(* non-vacuity: a 5-byte payload, the kernel stores 2 bytes, then 1, then the rest: three writes, payload published;
   2 bytes then an error: nothing published; the unchecked form with the first outcome alone publishes 2 bytes *)
Example C20_short_write_concrete :
  producer_checked 3%N [1; 2; 3; 4; 5]%N [WShort 2; WShort 1] =
    [Openat TEMP fl_w 3%N true; Write 3%N [1; 2]%N true; Write 3%N [3]%N true; Write 3%N [4; 5]%N true; Close 3%N true;
     Rename TEMP FINAL true] /\
  content_at (run (producer_checked 3%N [1; 2; 3; 4; 5]%N [WShort 2; WShort 1]) fs_old) FINAL = Some [1; 2; 3; 4; 5]%N /\
  content_at (run (producer_checked 3%N [1; 2; 3; 4; 5]%N [WShort 2; WErr]) fs_old) FINAL = Some old_bytes /\
  content_at (run (producer_unchecked 3%N [1; 2; 3; 4; 5]%N (WShort 2)) fs_old) FINAL = Some [1; 2]%N.
Proof. vm_compute. repeat split. Qed.
Print Assumptions C20_short_write_concrete.
