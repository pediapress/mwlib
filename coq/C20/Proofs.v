(* C20 — soundness of the safe-publish recogniser w.r.t. the FsTrace model.
   The invariant Inv ties the file system, the recogniser state and two ghost lists (the inodes and the contents
   published at `final` so far) together; it is kept by every step the recogniser accepts (Inv_step: one lemma per
   kind of state change), and it says that whatever `final` names was published. *)
From Coq Require Import List NArith Bool Arith Lia.
From MW Require Import C20.FsTrace.
Import ListNotations.

Definition no_writer (s : fs) (i : nat) : Prop :=
  forall f d, fds s f = Some d -> fd_ino d = i -> fd_wr d = false.

(* nothing open, no hard links, inode numbers below `next`, ghost "closed" contents = contents *)
Definition quiescent (s : fs) : Prop :=
  (forall f, fds s f = None) /\
  (forall p q i, names s p = Some i -> names s q = Some i -> p = q) /\
  (forall p i, names s p = Some i -> i < next s) /\
  (forall i, iclosed s i = idata s i).

(* c was published at `final` by one of the first k ops of t: op j is a successful rename of a onto
   final; at that moment a named inode i whose contents were c, no writable descriptor referred
   to i, and c is what i contained when it was last closed. *)
Definition published_before (final : path) (t : list op) (s0 : fs) (k : nat) (c : bytes) : Prop :=
  exists j a i, j < k /\ nth_error t j = Some (Rename a final true) /\ a <> final /\
    let sj := run (firstn j t) s0 in
    names sj a = Some i /\ idata sj i = c /\ iclosed sj i = c /\ no_writer sj i.

(* the inode that o, executed in s, publishes at `final` *)
Definition publishes (final : path) (s : fs) (o : op) : option nat :=
  match o with
  | Rename a b true => if N.eqb a b then None else if N.eqb b final then names s a else None
  | _ => None
  end.

(* Z: inodes that are or were published at `final` (initially: the inode fs0 has there);
   P: the contents published so far (contents of the source inode at each rename onto final). *)
Definition ghostZ (final : path) (s : fs) (o : op) (Z : list nat) : list nat :=
  match publishes final s o with Some i => i :: Z | None => Z end.
Definition ghostP (final : path) (s : fs) (o : op) (P : list bytes) : list bytes :=
  match publishes final s o with Some i => idata s i :: P | None => P end.

Lemma publishes_Some : forall final s o i,
  publishes final s o = Some i -> exists a, o = Rename a final true /\ a <> final /\ names s a = Some i.
Proof.
  intros final s o i. destruct o; try discriminate. destruct ok; [|discriminate]. cbn [publishes].
  destruct (N.eqb_spec a b) as [|Hab]; [discriminate|].
  destruct (N.eqb_spec b final) as [->|]; [|discriminate]. eauto.
Qed.

Lemma updN_Some : forall A (g : N -> option A) k v x y,
  updN g k v x = Some y -> (x = k /\ v = Some y) \/ (x <> k /\ g x = Some y).
Proof. intros A g k v x y. unfold updN. destruct (N.eqb_spec x k); auto. Qed.

Lemma updN_eq : forall A (g : N -> A) k v, updN g k v k = v.
Proof. intros. unfold updN. rewrite N.eqb_refl. reflexivity. Qed.

Lemma updN_neq : forall A (g : N -> A) k v x, x <> k -> updN g k v x = g x.
Proof. intros A g k v x H. unfold updN. destruct (N.eqb_spec x k); [contradiction|reflexivity]. Qed.

Lemma updn_eq : forall A (g : nat -> A) k v, updn g k v k = v.
Proof. intros. unfold updn. rewrite Nat.eqb_refl. reflexivity. Qed.

Lemma updn_neq : forall A (g : nat -> A) k v i, i <> k -> updn g k v i = g i.
Proof. intros A g k v i H. unfold updn. destruct (Nat.eqb_spec i k); [contradiction|reflexivity]. Qed.

(* the name space after rename(a, b) of inode i *)
Lemma ren_names : forall (nm : path -> option nat) a b i q j,
  updN (updN nm b (Some i)) a None q = Some j ->
  (q = b /\ j = i) \/ (q <> a /\ q <> b /\ nm q = Some j).
Proof.
  intros nm a b i q j H. apply updN_Some in H as [[_ H]|[Hqa H]]; [discriminate|].
  apply updN_Some in H as [[Hqb H]|[Hqb H]]; [left; inversion H; auto|right; auto].
Qed.

(* the name space after p is bound to a fresh inode number n: numbers stay below S n, no hard link appears *)
Lemma alloc_names : forall (nm : path -> option nat) n p,
  (forall q j, nm q = Some j -> j < n) ->
  (forall q1 q2 j, nm q1 = Some j -> nm q2 = Some j -> q1 = q2) ->
  (forall q j, updN nm p (Some n) q = Some j -> j < S n) /\
  (forall q1 q2 j, updN nm p (Some n) q1 = Some j -> updN nm p (Some n) q2 = Some j -> q1 = q2).
Proof.
  intros nm n p Hlt Hinj. split.
  - intros q j H. apply updN_Some in H as [[_ E]|[_ H]]; [inversion E; lia|]. apply Hlt in H. lia.
  - intros q1 q2 j H1 H2.
    apply updN_Some in H1 as [[-> E1]|[_ H1]]; apply updN_Some in H2 as [[-> E2]|[_ H2]]; eauto.
    + inversion E1. subst j. apply Hlt in H2. lia.
    + inversion E2. subst j. apply Hlt in H1. lia.
Qed.

Lemma memN_In : forall x l, memN x l = true <-> In x l.
Proof.
  intros x l. unfold memN. rewrite existsb_exists. split.
  - intros [y [Hy He]]. apply N.eqb_eq in He. subst. exact Hy.
  - intros H. exists x. split; [exact H | apply N.eqb_refl].
Qed.

Lemma memN_false : forall x l, memN x l = false -> ~ In x l.
Proof. intros x l H Hin. apply memN_In in Hin. congruence. Qed.

Lemma no_writer_anti : forall s s' i,
  no_writer s' i ->
  (forall f d, fds s f = Some d -> fd_ino d = i -> fd_wr d = true ->
     exists d', fds s' f = Some d' /\ fd_ino d' = i /\ fd_wr d' = true) ->
  no_writer s i.
Proof.
  intros s s' i H' H f d Hf Hi. destruct (fd_wr d) eqn:Hw; [|reflexivity].
  destruct (H f d Hf Hi Hw) as [d' [Hf' [Hi' Hw']]]. rewrite (H' f d' Hf' Hi') in Hw'. discriminate.
Qed.

Section Soundness.
Variable final : path.
Variable old : option bytes.

(* What is known of an open descriptor d numbered f: its inode exists; if d is writable, that inode was
   never published and the recogniser tracks f together with every name of the inode. *)
Definition fd_ok (s : fs) (Z : list nat) (r : rstate) (f : fdnum) (d : fdesc) : Prop :=
  fd_ino d < next s /\
  (fd_wr d = true ->
   ~ In (fd_ino d) Z /\
   exists hs, In (f, hs) (r_wfds r) /\ forall p, names s p = Some (fd_ino d) -> In p hs).

(* iBn, iBz: the inode numbers of names and of Z are below `next`;  iN: no hard links;
   iA: every name of a published inode is sealed;  iD: what `final` names was published;  iS: `final` is sealed;
   iFd: every open descriptor is fd_ok;
   iC: a published inode holds the old or a published contents (nobody can write it: fd_ok);
   iE: an inode nobody can write holds what it held when it was last closed. *)
Record Inv (s : fs) (Z : list nat) (P : list bytes) (r : rstate) : Prop := {
  iBn : forall p i, names s p = Some i -> i < next s;
  iBz : forall i, In i Z -> i < next s;
  iN  : forall p q i, names s p = Some i -> names s q = Some i -> p = q;
  iA  : forall p i, names s p = Some i -> In i Z -> In p (r_sealed r);
  iD  : forall i, names s final = Some i -> In i Z;
  iS  : In final (r_sealed r);
  iFd : forall f d, fds s f = Some d -> fd_ok s Z r f d;
  iC  : forall i, In i Z -> old = Some (idata s i) \/ In (idata s i) P;
  iE  : forall i, no_writer s i -> iclosed s i = idata s i
}.

(* fd_ok survives whatever lets the inode counter and the tracked names grow and the names of the
   inode and the published set shrink *)
Lemma fd_ok_mono : forall s Z r s' Z' r' f d,
  fd_ok s Z r f d ->
  next s <= next s' ->
  (In (fd_ino d) Z' -> In (fd_ino d) Z) ->
  (forall p, names s' p = Some (fd_ino d) -> names s p = Some (fd_ino d)) ->
  (forall hs, In (f, hs) (r_wfds r) -> exists hs', In (f, hs') (r_wfds r') /\ incl hs hs') ->
  fd_ok s' Z' r' f d.
Proof.
  intros s Z r s' Z' r' f d [Hlt Hwr] Hnext HZ Hnm Hw. split; [lia|].
  intros Hd. destruct (Hwr Hd) as [HnZ [hs [Hin Hp]]]. split; [auto|].
  destruct (Hw hs Hin) as [hs' [Hin' Hinc]]. exists hs'. split; [exact Hin'|]. auto.
Qed.

Lemma published_no_writer : forall s Z P r i, Inv s Z P r -> In i Z -> no_writer s i.
Proof.
  intros s Z P r i I Hi f d Hf Hino. destruct (fd_wr d) eqn:Hw; [|reflexivity].
  destruct (iFd _ _ _ _ I f d Hf) as [_ Hwr]. destruct (Hwr Hw) as [HnZ _]. subst i. contradiction.
Qed.

Lemma Inv_weaken : forall s Z P r r',
  Inv s Z P r ->
  (forall p, In p (r_sealed r) -> In p (r_sealed r')) ->
  (forall f d hs, fds s f = Some d -> In (f, hs) (r_wfds r) ->
     exists hs', In (f, hs') (r_wfds r') /\ incl hs hs') ->
  Inv s Z P r'.
Proof.
  intros s Z P r r' [F1 F3 HN HA HD HS HFd HC HE] WS WW. constructor; eauto.
  intros f d Hf. apply (fd_ok_mono s Z r); eauto.
Qed.

(* a descriptor changes offset / append flag only *)
Lemma Inv_touch : forall s Z P r f d a o,
  Inv s Z P r -> fds s f = Some d ->
  Inv (set_fd s f (Some (mkfd (fd_ino d) (fd_wr d) a o))) Z P r.
Proof.
  intros s Z P r f d a o [F1 F3 HN HA HD HS HFd HC HE] Hf.
  constructor; cbn [set_fd names idata iclosed fds next]; auto.
  - intros f' d' H. apply updN_Some in H as [[-> E]|[_ H]]; [|exact (HFd f' d' H)].
    inversion E. exact (HFd f d Hf).
  - intros i Hnw. apply HE. apply (no_writer_anti _ _ _ Hnw). cbn [set_fd fds].
    intros f' d' Hf' Hi Hw. destruct (N.eq_dec f' f) as [->|Hne].
    + rewrite updN_eq. rewrite Hf in Hf'. inversion Hf'. eauto.
    + rewrite updN_neq by exact Hne. eauto.
Qed.

(* the contents of an inode that has a writable descriptor change *)
Lemma Inv_data : forall s Z P r f d c,
  Inv s Z P r -> fds s f = Some d -> fd_wr d = true ->
  Inv (set_data s (fd_ino d) c) Z P r.
Proof.
  intros s Z P r f d c I Hf Hw.
  assert (Hwriter : forall i, no_writer s i -> i <> fd_ino d).
  { intros i Hnw ->. rewrite (Hnw f d Hf eq_refl) in Hw. discriminate. }
  pose proof (fun i => published_no_writer s Z P r i I) as HZ.
  destruct I as [F1 F3 HN HA HD HS HFd HC HE].
  constructor; cbn [set_data names idata iclosed fds next]; auto.
  - intros i Hi. rewrite updn_neq by auto. auto.
  - intros i Hnw. rewrite updn_neq by auto. auto.
Qed.

(* a fresh, empty inode appears under an unsealed name *)
Lemma Inv_alloc : forall s Z P r p,
  Inv s Z P r -> names s p = None -> ~ In p (r_sealed r) ->
  Inv (mkfs (updN (names s) p (Some (next s))) (updn (idata s) (next s) []) (updn (iclosed s) (next s) [])
            (fds s) (dirs s) (S (next s))) Z P r.
Proof.
  intros s Z P r p [F1 F3 HN HA HD HS HFd HC HE] Hp HpS.
  assert (Hold : forall q j, updN (names s) p (Some (next s)) q = Some j -> j < next s -> names s q = Some j).
  { intros q j H Hj. apply updN_Some in H as [[_ E]|[_ H]]; [inversion E; lia|exact H]. }
  destruct (alloc_names (names s) (next s) p F1 HN) as [F1' HN'].
  constructor; cbn [names idata iclosed fds next]; auto.
  - intros j Hj. apply F3 in Hj. lia.
  - intros q j H Hj. eauto.
  - intros j H. rewrite updN_neq in H by (intros <-; contradiction). auto.
  - intros f d Hf. pose proof (HFd f d Hf) as Hok. apply (fd_ok_mono _ _ _ _ _ _ _ _ Hok); cbn [names next]; eauto.
    + intros q H. apply (Hold q _ H). apply Hok.
    + intros hs Hin. exists hs. split; [exact Hin|apply incl_refl].
  - intros j Hj. rewrite updn_neq; [auto|]. apply F3 in Hj. lia.
  - intros j Hnw. destruct (Nat.eq_dec j (next s)) as [->|Hne].
    + rewrite !updn_eq. reflexivity.
    + rewrite !updn_neq by exact Hne. apply HE. exact Hnw.
Qed.

(* a free descriptor number is opened on the inode named p; writable only if p is not sealed *)
Lemma Inv_open : forall s Z P r p i f w a,
  Inv s Z P r -> names s p = Some i -> fds s f = None ->
  (w = true -> ~ In p (r_sealed r)) ->
  Inv (set_fd s f (Some (mkfd i w a 0))) Z P
      (mkr (r_sealed r) (if w then (f, [p]) :: r_wfds r else r_wfds r)).
Proof.
  intros s Z P r p i f w a [F1 F3 HN HA HD HS HFd HC HE] Hp Hf Hw.
  constructor; cbn [set_fd names idata iclosed fds next r_sealed]; auto.
  - intros f' d' H. apply updN_Some in H as [[-> E]|[_ H]].
    + inversion E. split; cbn [fd_ino fd_wr r_wfds]; [eauto|].
      intros ->. split; [intros Hi; apply (Hw eq_refl); eauto|]. exists [p]. split; [left; reflexivity|].
      intros q Hq. left. eauto.
    + apply (fd_ok_mono _ _ _ _ _ _ _ _ (HFd f' d' H)); cbn [names next r_wfds]; auto.
      intros hs Hin. exists hs. split; [destruct w; [right|]; exact Hin|apply incl_refl].
  - intros j Hnw. apply HE. apply (no_writer_anti _ _ _ Hnw). cbn [set_fd fds].
    intros f' d' Hf' Hi Hwd. rewrite updN_neq by congruence. eauto.
Qed.

Lemma in_drop_fd : forall f f' hs w, f' <> f -> In (f', hs) w -> In (f', hs) (drop_fd f w).
Proof.
  intros. unfold drop_fd. apply filter_In. split; auto. cbn.
  destruct (N.eqb_spec f' f); [contradiction|reflexivity].
Qed.

(* close(f): the descriptor goes, and a writable one leaves its inode's contents as the closed contents *)
Lemma Inv_close : forall s Z P r f d,
  Inv s Z P r -> fds s f = Some d ->
  Inv (step s (Close f true)) Z P (mkr (r_sealed r) (drop_fd f (r_wfds r))).
Proof.
  intros s Z P r f d [F1 F3 HN HA HD HS HFd HC HE] Hf. cbn [step]. rewrite Hf.
  assert (XFd : forall s', names s' = names s -> next s' = next s ->
            forall f' d', updN (fds s) f None f' = Some d' ->
            fd_ok s' Z (mkr (r_sealed r) (drop_fd f (r_wfds r))) f' d').
  { intros s' En Ex f' d' H. apply updN_Some in H as [[_ E]|[Hne H]]; [discriminate|].
    apply (fd_ok_mono _ _ _ _ _ _ _ _ (HFd f' d' H)); rewrite ?En, ?Ex; auto.
    intros hs Hin. exists hs. split; [apply in_drop_fd; assumption|apply incl_refl]. }
  assert (Hnw : forall s' j, no_writer s' j -> fds s' = updN (fds s) f None ->
            j <> fd_ino d \/ fd_wr d = false -> no_writer s j).
  { intros s' j H Ef Hor. apply (no_writer_anti _ _ _ H). rewrite Ef.
    intros f' d' Hf' Hi Hw. rewrite updN_neq; [eauto|].
    intros ->. rewrite Hf in Hf'. inversion Hf'. subst d'. destruct Hor; congruence. }
  destruct (fd_wr d) eqn:Hw;
    constructor; cbn [set_fd names idata iclosed fds next r_sealed]; auto.
  - intros j Hj. destruct (Nat.eq_dec j (fd_ino d)) as [->|Hne].
    + apply updn_eq.
    + rewrite updn_neq by exact Hne. apply HE. apply (Hnw _ j Hj eq_refl). auto.
  - intros j Hj. apply HE. apply (Hnw _ j Hj eq_refl). auto.
Qed.

(* names disappear *)
Lemma Inv_unlink : forall s Z P r p, Inv s Z P r -> Inv (set_names s (updN (names s) p None)) Z P r.
Proof.
  intros s Z P r p [F1 F3 HN HA HD HS HFd HC HE].
  assert (HU : forall q j, updN (names s) p None q = Some j -> names s q = Some j).
  { intros q j H. apply updN_Some in H as [[_ E]|[_ H]]; [discriminate|exact H]. }
  constructor; cbn [set_names names idata iclosed fds next]; eauto.
  intros f d Hf. apply (fd_ok_mono _ _ _ _ _ _ _ _ (HFd f d Hf)); cbn [names next]; auto.
  intros hs Hin. exists hs. split; [exact Hin|apply incl_refl].
Qed.

Lemma in_map_track_rename : forall a b f hs (w : list (fdnum * list path)),
  In (f, hs) w ->
  In (f, if memN a hs then b :: hs else hs)
     (map (fun e => (fst e, if memN a (snd e) then b :: snd e else snd e)) w).
Proof.
  intros. apply in_map_iff. exists (f, hs). split; auto.
Qed.

(* a rename onto `final` is accepted only when no writable descriptor is left on the source inode *)
Lemma publish_no_writer : forall s Z P r r' a i,
  Inv s Z P r -> rstep final r (Rename a final true) = Some r' -> a <> final ->
  names s a = Some i -> no_writer s i.
Proof.
  intros s Z P r r' a i I Hr Hne Ha. cbn [rstep] in Hr.
  destruct (N.eqb_spec a final); [contradiction|]. rewrite N.eqb_refl in Hr.
  destruct (existsb (fun e => memN a (snd e)) (r_wfds r)) eqn:Hex; [discriminate|].
  intros f d Hf Hino. destruct (fd_wr d) eqn:Hw; auto.
  destruct (iFd _ _ _ _ I f d Hf) as [_ Hwr]. destruct (Hwr Hw) as [_ [hs [Hin Hq]]].
  assert (Hm : memN a hs = true) by (apply memN_In; apply Hq; congruence).
  assert (existsb (fun e => memN a (snd e)) (r_wfds r) = true).
  { apply existsb_exists. exists (f, hs). split; auto. }
  congruence.
Qed.

(* rename(a, b) of the inode i: b now names i (whatever b named is unlinked), a names nothing *)
Lemma Inv_rename : forall s Z P r r' a b i,
  Inv s Z P r -> a <> b -> names s a = Some i -> rstep final r (Rename a b true) = Some r' ->
  Inv (set_names s (updN (updN (names s) b (Some i)) a None))
      (if N.eqb b final then i :: Z else Z) (if N.eqb b final then idata s i :: P else P) r'.
Proof.
  intros s Z P r r' a b i I Hab Ha Hr.
  assert (Hpub : b = final -> no_writer s i).
  { intros ->. eapply publish_no_writer; eauto. }
  cbn [rstep] in Hr. destruct (N.eqb_spec a b) as [|_]; [contradiction|].
  set (W' := map (fun e => (fst e, if memN a (snd e) then b :: snd e else snd e)) (r_wfds r)) in *.
  destruct I as [F1 F3 HN HA HD HS HFd HC HE].
  (* the descriptors, for any sealed set and any published set that gains at most i when b = final *)
  assert (XFd : forall S' Z', (forall j, In j Z' -> In j Z \/ (j = i /\ b = final)) ->
            forall f d, fds s f = Some d ->
            fd_ok (set_names s (updN (updN (names s) b (Some i)) a None)) Z' (mkr S' W') f d).
  { intros S' Z' HZ' f d Hf. destruct (HFd f d Hf) as [Hlt Hwr]. split; [exact Hlt|].
    intros Hw. destruct (Hwr Hw) as [HnZ [hs [Hin Hq]]]. split.
    - intros Hj. destruct (HZ' _ Hj) as [Hj'|[Hj' Hb]]; [contradiction|].
      rewrite (Hpub Hb f d Hf Hj') in Hw. discriminate.
    - exists (if memN a hs then b :: hs else hs). split; [apply in_map_track_rename; exact Hin|].
      cbn [set_names names]. intros q Hn. apply ren_names in Hn as [[-> Hj]|[_ [_ Hn]]].
      + rewrite Hj in Hq. assert (Hm : memN a hs = true) by (apply memN_In; auto).
        rewrite Hm. left; reflexivity.
      + destruct (memN a hs); [right|]; auto. }
  assert (XN : forall q1 q2 j, updN (updN (names s) b (Some i)) a None q1 = Some j ->
               updN (updN (names s) b (Some i)) a None q2 = Some j -> q1 = q2).
  { intros q1 q2 j H1 H2.
    apply ren_names in H1 as [[-> E1]|[N1 [_ E1]]]; apply ren_names in H2 as [[-> E2]|[N2 [_ E2]]]; eauto.
    - subst j. exfalso. apply N2. eauto.
    - subst j. exfalso. apply N1. eauto. }
  assert (XF : forall q j, updN (updN (names s) b (Some i)) a None q = Some j -> j < next s).
  { intros q j H1. apply ren_names in H1 as [[_ ->]|[_ [_ E1]]]; eauto. }
  destruct (N.eqb_spec b final) as [->|Hbf].
  - destruct (existsb (fun e => memN a (snd e)) (r_wfds r)); [discriminate|].
    inversion Hr; subst r'; clear Hr.
    constructor; cbn [set_names names idata iclosed fds next r_sealed]; auto.
    + intros j [<-|Hj]; eauto.
    + intros q j Hn Hj. apply ren_names in Hn as [[-> _]|[N1 [_ E1]]]; [exact HS|].
      destruct Hj as [<-|Hj]; [|eauto]. exfalso. apply N1. eauto.
    + intros j Hn. apply ren_names in Hn as [[_ ->]|[_ [N2 _]]]; [left; reflexivity|contradiction].
    + apply XFd. intros j [<-|Hj]; auto.
    + intros j [<-|Hj]; [right; left; reflexivity|].
      destruct (HC j Hj); [left|right; right]; assumption.
  - inversion Hr; subst r'; clear Hr.
    constructor; cbn [set_names names idata iclosed fds next r_sealed]; auto.
    + intros q j Hn Hj. apply ren_names in Hn as [[-> ->]|[_ [_ E1]]].
      * assert (Hm : memN a (r_sealed r) = true) by (apply memN_In; eauto).
        rewrite Hm. left; reflexivity.
      * destruct (memN a (r_sealed r)); [right|]; eauto.
    + intros j Hn. apply ren_names in Hn as [[E _]|[_ [_ E1]]]; [congruence|auto].
    + destruct (memN a (r_sealed r)); [right|]; exact HS.
Qed.

(* rename(a, b) with no file at a: the file system stays, the recogniser seals and tracks more *)
Lemma Inv_rename_absent : forall s Z P r r' a b,
  Inv s Z P r -> a <> b -> rstep final r (Rename a b true) = Some r' -> Inv s Z P r'.
Proof.
  intros s Z P r r' a b I Hab Hr. cbn [rstep] in Hr. apply N.eqb_neq in Hab. rewrite Hab in Hr.
  assert (HWk : forall f d hs, fds s f = Some d -> In (f, hs) (r_wfds r) ->
            exists hs', In (f, hs') (map (fun e => (fst e, if memN a (snd e) then b :: snd e else snd e)) (r_wfds r)) /\ incl hs hs').
  { intros f d hs _ Hin. exists (if memN a hs then b :: hs else hs). split; [apply in_map_track_rename; exact Hin|].
    destruct (memN a hs); [apply incl_tl|]; apply incl_refl. }
  destruct (N.eqb b final).
  - destruct (existsb _ _); [discriminate|]. inversion Hr; subst r'.
    apply (Inv_weaken _ _ _ _ _ I); auto.
  - inversion Hr; subst r'. apply (Inv_weaken _ _ _ _ _ I); [|exact HWk]. cbn [r_sealed].
    intros q Hq. destruct (memN a (r_sealed r)); [right|]; exact Hq.
Qed.

Lemma Inv_step : forall s Z P r o r',
  Inv s Z P r -> rstep final r o = Some r' ->
  Inv (step s o) (ghostZ final s o Z) (ghostP final s o P) r'.
Proof.
  intros s Z P r o r' I Hr.
  destruct o as [p fl f ok|f bs ok|f off bs ok|f off ok|f len ok|f ok|a b ok|p ok|p ok|f ok|];
    [..|discriminate Hr].
  (* a failed call changes neither the file system nor the recogniser *)
  all: destruct ok; [|inversion Hr; subst r'; exact I].
  all: unfold ghostZ, ghostP; cbn [publishes].
  - (* Openat *)
    cbn [rstep] in Hr.
    destruct (memN p (r_sealed r) && (writable fl || o_trunc fl || o_creat fl)) eqn:Hrej; [discriminate|].
    inversion Hr; subst r'; clear Hr.
    assert (Hweak : Inv s Z P (mkr (r_sealed r) (if writable fl then (f, [p]) :: r_wfds r else r_wfds r))).
    { apply (Inv_weaken _ _ _ _ _ I); [auto|].
      intros f0 d0 hs _ Hin. exists hs. split; [destruct (writable fl); [right|]; exact Hin|apply incl_refl]. }
    cbn [step]. destruct (fds s f) eqn:Hfd; [exact Hweak|].
    destruct (names s p) as [i|] eqn:Hp.
    + destruct (o_creat fl && o_excl fl); [exact Hweak|].
      assert (I1 : Inv (set_fd s f (Some (mkfd i (writable fl) (o_append fl) 0))) Z P
                       (mkr (r_sealed r) (if writable fl then (f, [p]) :: r_wfds r else r_wfds r))).
      { apply Inv_open; auto. intros Hw Hin. apply memN_In in Hin. rewrite Hin, Hw in Hrej. discriminate. }
      destruct (o_trunc fl && writable fl) eqn:Htr; [|exact I1].
      apply andb_prop in Htr as [_ Hw].
      apply (Inv_data _ _ _ _ f (mkfd i (writable fl) (o_append fl) 0) [] I1); [apply updN_eq|exact Hw].
    + destruct (o_creat fl) eqn:Hcr; [|exact Hweak].
      assert (HpS : ~ In p (r_sealed r)).
      { intros Hin. apply memN_In in Hin. rewrite Hin, orb_true_r in Hrej. discriminate. }
      apply (Inv_open (mkfs (updN (names s) p (Some (next s))) (updn (idata s) (next s) [])
                            (updn (iclosed s) (next s) []) (fds s) (dirs s) (S (next s)))); auto.
      * apply Inv_alloc; assumption.
      * apply updN_eq.
  - (* Write *)
    inversion Hr; subst r'. cbn [step].
    destruct (fds s f) as [d|] eqn:Hf; [|exact I].
    destruct (fd_wr d) eqn:Hw; [|exact I].
    set (off := if fd_app d then _ else _).
    pose proof (Inv_touch _ _ _ _ f d (fd_app d) (off + length bs)
                  (Inv_data _ _ _ _ f d (write_at (idata s (fd_ino d)) off bs) I Hf Hw) Hf) as I1.
    rewrite Hw in I1. exact I1.
  - (* Pwrite *)
    inversion Hr; subst r'. cbn [step].
    destruct (fds s f) as [d|] eqn:Hf; [|exact I].
    destruct (fd_wr d) eqn:Hw; [|exact I].
    apply (Inv_data _ _ _ _ f); assumption.
  - (* Lseek *)
    inversion Hr; subst r'. cbn [step].
    destruct (fds s f) as [d|] eqn:Hf; [|exact I].
    apply Inv_touch; assumption.
  - (* Ftruncate *)
    inversion Hr; subst r'. cbn [step].
    destruct (fds s f) as [d|] eqn:Hf; [|exact I].
    destruct (fd_wr d) eqn:Hw; [|exact I].
    apply (Inv_data _ _ _ _ f); assumption.
  - (* Close *)
    inversion Hr; subst r'.
    destruct (fds s f) as [d|] eqn:Hf; [exact (Inv_close _ _ _ _ f d I Hf)|].
    cbn [step]. rewrite Hf. apply (Inv_weaken _ _ _ _ _ I); [auto|].
    intros f' d' hs Hf' Hin. exists hs. split; [|apply incl_refl].
    apply in_drop_fd; [congruence|exact Hin].
  - (* Rename *)
    cbn [step].
    destruct (N.eqb_spec a b) as [Hab|Hab].
    { cbn [rstep] in Hr. rewrite (proj2 (N.eqb_eq a b) Hab) in Hr. inversion Hr; subst r'. exact I. }
    destruct (names s a) as [i|] eqn:Ha.
    + pose proof (Inv_rename _ _ _ _ _ a b i I Hab Ha Hr) as I1. destruct (N.eqb b final); exact I1.
    + pose proof (Inv_rename_absent _ _ _ _ _ a b I Hab Hr) as I1. destruct (N.eqb b final); exact I1.
  - (* Unlink *)
    inversion Hr; subst r'. apply Inv_unlink. exact I.
  - (* Mkdir *)
    inversion Hr; subst r'. destruct I. constructor; auto.
  - (* Fsync *)
    inversion Hr; subst r'. exact I.
Qed.
End Soundness.

Lemma rrun_app : forall final t1 t2 r,
  rrun final (t1 ++ t2) r = match rrun final t1 r with Some r1 => rrun final t2 r1 | None => None end.
Proof.
  intros final t1. induction t1 as [|o t1 IH]; intros t2 r; cbn [app rrun]; [reflexivity|].
  destruct (rstep final r o); [apply IH|reflexivity].
Qed.

Lemma safe_publish_app_l : forall final t1 t2, safe_publish final (t1 ++ t2) = true -> safe_publish final t1 = true.
Proof.
  intros final t1 t2. unfold safe_publish. rewrite rrun_app.
  destruct (rrun final t1 (r0 final)); [reflexivity|discriminate].
Qed.

(* write(2) and fsync(2) on f: the calls between the open and the close of a file a producer fills *)
Inductive data_op (f : fdnum) : op -> Prop :=
| data_write : forall bs ok, data_op f (Write f bs ok)
| data_fsync : forall ok, data_op f (Fsync f ok).

(* the recogniser does not look at them: neither at how many there are, nor at the bytes, nor at the outcome *)
Lemma rrun_data : forall final f ws r, Forall (data_op f) ws -> rrun final ws r = Some r.
Proof.
  intros final f ws r H. induction H as [|o ws Ho _ IH]; [reflexivity|].
  cbn [rrun]. destruct Ho as [bs []|[]]; exact IH.
Qed.

Theorem safe_publish_ignores_data : forall final f ws t1 t2,
  Forall (data_op f) ws -> safe_publish final (t1 ++ ws ++ t2) = safe_publish final (t1 ++ t2).
Proof.
  intros final f ws t1 t2 H. unfold safe_publish. rewrite !rrun_app.
  destruct (rrun final t1 (r0 final)); [|reflexivity]. rewrite rrun_app, (rrun_data final f ws _ H). reflexivity.
Qed.

Corollary safe_publish_data_irrelevant : forall final f ws ws' t1 t2,
  Forall (data_op f) ws -> Forall (data_op f) ws' ->
  safe_publish final (t1 ++ ws ++ t2) = safe_publish final (t1 ++ ws' ++ t2).
Proof.
  intros final f ws ws' t1 t2 H H'.
  rewrite (safe_publish_ignores_data final f ws t1 t2 H), (safe_publish_ignores_data final f ws' t1 t2 H'). reflexivity.
Qed.

Lemma rstep_sealed : forall final r o r' p,
  rstep final r o = Some r' -> In p (r_sealed r) -> In p (r_sealed r').
Proof.
  intros final r o r' p H Hin.
  destruct o as [q fl f ok|f bs ok|f off bs ok|f off ok|f len ok|f ok|a b ok|q ok|q ok|f ok|];
    [..|discriminate H].
  all: destruct ok; [|inversion H; subst r'; exact Hin].
  all: cbn [rstep] in H.
  (* only Openat and Rename touch the sealed set or refuse *)
  all: try (inversion H; subst r'; exact Hin).
  - (* Openat *)
    destruct (memN q (r_sealed r) && _); [discriminate|]. inversion H; subst r'. exact Hin.
  - (* Rename *)
    destruct (N.eqb a b); [inversion H; subst r'; exact Hin|].
    destruct (N.eqb b final).
    + destruct (existsb _ _); [discriminate|]. inversion H; subst r'. exact Hin.
    + inversion H; subst r'. cbn [r_sealed]. destruct (memN a (r_sealed r)); [right|]; exact Hin.
Qed.

Lemma rrun_sealed : forall final t r r' p,
  rrun final t r = Some r' -> In p (r_sealed r) -> In p (r_sealed r').
Proof.
  intros final t. induction t as [|o t IH]; intros r r' p H Hin; cbn [rrun] in H.
  - inversion H; subst r'. exact Hin.
  - destruct (rstep final r o) as [r1|] eqn:Hs; [|discriminate]. eauto using rstep_sealed.
Qed.

(* a successful direct write-open / truncation / creation of `final` is never accepted *)
Theorem safe_publish_rejects_direct_open : forall final t1 t2 fl f,
  (writable fl || o_trunc fl || o_creat fl) = true ->
  safe_publish final (t1 ++ Openat final fl f true :: t2) = false.
Proof.
  intros final t1 t2 fl f Hfl. unfold safe_publish. rewrite rrun_app.
  destruct (rrun final t1 (r0 final)) as [r1|] eqn:H1; [|reflexivity].
  assert (Hin : In final (r_sealed r1)) by (apply (rrun_sealed _ _ _ _ _ H1); left; reflexivity).
  cbn [rrun rstep]. apply memN_In in Hin. rewrite Hin, Hfl. reflexivity.
Qed.

Corollary safe_publish_no_direct_open : forall final t fl f,
  In (Openat final fl f true) t -> (writable fl || o_trunc fl || o_creat fl) = true ->
  safe_publish final t = false.
Proof.
  intros final t fl f Hin Hfl. apply in_split in Hin as [t1 [t2 ->]].
  apply safe_publish_rejects_direct_open. exact Hfl.
Qed.

Lemma Inv_init : forall final s0,
  quiescent s0 ->
  Inv final (content_at s0 final) s0
      (match names s0 final with Some i => [i] | None => [] end) [] (r0 final).
Proof.
  intros final s0 [Q1 [Q2 [Q3 Q4]]].
  assert (HZ : forall i, In i (match names s0 final with Some i => [i] | None => [] end) -> names s0 final = Some i).
  { intros i. destruct (names s0 final); [intros [<-|[]]; reflexivity|intros []]. }
  constructor; cbn [r0 r_sealed r_wfds].
  - exact Q3.
  - intros i Hi. eauto.
  - exact Q2.
  - intros p i Hp Hi. left. eauto.
  - intros i Hi. rewrite Hi. left; reflexivity.
  - left; reflexivity.
  - intros f d Hf. rewrite Q1 in Hf. discriminate.
  - intros i Hi. left. unfold content_at. rewrite (HZ i Hi). reflexivity.
  - intros i _. apply Q4.
Qed.

(* op j of t is op j+1 of o :: t, executed in the same state *)
Lemma published_shift : forall final o t s k c,
  published_before final t (step s o) k c -> published_before final (o :: t) s (S k) c.
Proof.
  intros final o t s k c [j [a [i [Hj H]]]]. exists (S j), a, i. split; [lia|exact H].
Qed.

(* Along an accepted trace the invariant holds after every prefix, and whatever it counts as published
   beyond P was published by a rename of that prefix. *)
Lemma sound_from : forall final old t s Z P r rf,
  Inv final old s Z P r -> rrun final t r = Some rf ->
  forall k, exists Z' P' r', Inv final old (run (firstn k t) s) Z' P' r' /\
    forall c, In c P' -> In c P \/ published_before final t s k c.
Proof.
  intros final old t. induction t as [|o t IH]; intros s Z P r rf I Hacc k.
  - exists Z, P, r. rewrite firstn_nil. split; [exact I|auto].
  - destruct k as [|k]; [exists Z, P, r; split; [exact I|auto]|].
    cbn [rrun] in Hacc. destruct (rstep final r o) as [r1|] eqn:Hs; [|discriminate].
    destruct (IH _ _ _ _ _ (Inv_step final old _ _ _ _ _ _ I Hs) Hacc k) as [Z' [P' [r' [I' HP']]]].
    exists Z', P', r'. split; [exact I'|].
    intros c Hc. destruct (HP' c Hc) as [Hc1|Hc1]; [|right; apply published_shift; exact Hc1].
    unfold ghostP in Hc1. destruct (publishes final s o) as [i|] eqn:Hpub; [|left; exact Hc1].
    destruct Hc1 as [<-|Hc1]; [|left; exact Hc1]. right.
    (* o is the rename that publishes inode i: op 0 of the trace *)
    apply publishes_Some in Hpub as [a [-> [Hne Ha]]].
    assert (Hnw : no_writer s i) by (eapply publish_no_writer; eauto).
    exists 0, a, i. split; [lia|]. split; [reflexivity|]. split; [exact Hne|].
    cbn. repeat split; auto. apply (iE _ _ _ _ _ _ I). exact Hnw.
Qed.

Theorem safe_publish_sound : forall final t s0,
  safe_publish final t = true -> quiescent s0 ->
  forall k, let s := run (firstn k t) s0 in
    content_at s final = None \/
    content_at s final = content_at s0 final \/
    exists c, content_at s final = Some c /\ published_before final t s0 k c.
Proof.
  intros final t s0 Hsp Q k. unfold safe_publish in Hsp.
  destruct (rrun final t (r0 final)) as [rf|] eqn:Hacc; [|discriminate].
  destruct (sound_from _ _ _ _ _ _ _ _ (Inv_init final s0 Q) Hacc k) as [Z [P [r [I HP]]]].
  cbn zeta. unfold content_at at 1 2 4.
  destruct (names (run (firstn k t) s0) final) as [i|] eqn:Hf; [|left; reflexivity].
  right. destruct (iC _ _ _ _ _ _ I i (iD _ _ _ _ _ _ I i Hf)) as [Hold|Hin].
  - left. symmetry. exact Hold.
  - right. exists (idata (run (firstn k t) s0) i). split; [reflexivity|].
    destruct (HP _ Hin) as [[]|H]; exact H.
Qed.

(* every initial state built by mk_fs (what the driver and the examples use) satisfies the hypothesis *)
Lemma mk_fs_quiescent : forall files, quiescent (mk_fs files).
Proof.
  induction files as [|[p d] rest IH]; cbn [mk_fs].
  - repeat split; cbn; intros; try discriminate; auto.
  - destruct IH as [Q1 [Q2 [Q3 Q4]]].
    destruct (names (mk_fs rest) p) as [i|] eqn:Hp.
    + repeat split; cbn [names idata iclosed fds next]; auto.
      intros j. unfold updn. destruct (Nat.eqb j i); auto.
    + destruct (alloc_names (names (mk_fs rest)) (next (mk_fs rest)) p Q3 Q2) as [Q3' Q2'].
      repeat split; cbn [names idata iclosed fds next]; auto.
      intros j. unfold updn. destruct (Nat.eqb j (next (mk_fs rest))); auto.
Qed.
