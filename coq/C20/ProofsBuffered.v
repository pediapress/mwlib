(* C20 — producers that fill a temp file and then rename it.  The shape `temp_file`: open(tmp, "w") on a free
   descriptor, write(2)/fsync(2) calls on it, close.  The recogniser is back in its initial state after it, and the
   file system has gained exactly one file, named tmp, holding the bytes written: so close-then-rename is accepted
   and publishes those bytes, whatever issued the writes.
   Producers that write through a user-space buffer of ANY capacity, for ANY payload / chunking, are of this shape;
   rename-before-close (seeded/C20-3) is rejected and really exposes a strict prefix whenever bytes are pending at
   the rename. *)
From Coq Require Import List NArith Bool Arith Lia.
From MW Require Import C20.FsTrace C20.Model C20.Proofs.
Import ListNotations.

Definition temp_file (tmp : path) (f : fdnum) (ws : list op) : list op :=
  Openat tmp fl_w f true :: ws ++ [Close f true].

Lemma rrun_open_data : forall final tmp f ws,
  tmp <> final -> Forall (data_op f) ws ->
  rrun final (Openat tmp fl_w f true :: ws) (r0 final) = Some (mkr [final] [(f, [tmp])]).
Proof.
  intros final tmp f ws Hne Hws. cbn [rrun rstep r0 r_sealed r_wfds memN existsb].
  apply N.eqb_neq in Hne. rewrite Hne. cbn [orb andb fl_w writable o_mode].
  apply (rrun_data final f ws _ Hws).
Qed.

Theorem safe_publish_temp_file : forall final tmp f ws tail,
  tmp <> final -> Forall (data_op f) ws ->
  safe_publish final (temp_file tmp f ws ++ tail) = safe_publish final tail.
Proof.
  intros final tmp f ws tail Hne Hws. unfold safe_publish, temp_file.
  rewrite app_comm_cons, <- app_assoc, rrun_app, (rrun_open_data final tmp f ws Hne Hws).
  cbn [app rrun rstep r_sealed r_wfds drop_fd filter fst]. rewrite N.eqb_refl. reflexivity.
Qed.

(* the rename comes while the descriptor is still open for writing *)
Theorem safe_publish_rename_open_rejected : forall final tmp f ws tail,
  tmp <> final -> Forall (data_op f) ws ->
  safe_publish final (Openat tmp fl_w f true :: ws ++ Rename tmp final true :: tail) = false.
Proof.
  intros final tmp f ws tail Hne Hws. unfold safe_publish.
  rewrite app_comm_cons, rrun_app, (rrun_open_data final tmp f ws Hne Hws).
  cbn [rrun rstep r_wfds existsb memN snd]. apply N.eqb_neq in Hne. rewrite Hne, !N.eqb_refl. reflexivity.
Qed.

Lemma run_app : forall t1 t2 s, run (t1 ++ t2) s = run t2 (run t1 s).
Proof. intros. apply fold_left_app. Qed.

Lemma written_app : forall a b, written (a ++ b) = written a ++ written b.
Proof.
  induction a as [|o a IH]; intros b; [reflexivity|].
  cbn [app written]. destruct o; try apply IH. destruct ok; [|apply IH]. rewrite IH, app_assoc. reflexivity.
Qed.

Lemma write_at_end : forall d bs, write_at d (length d) bs = d ++ bs.
Proof.
  intros d bs. unfold write_at, resize. rewrite firstn_all, Nat.sub_diag. cbn [repeat].
  rewrite app_nil_r, skipn_all2 by lia. rewrite app_nil_r. reflexivity.
Qed.

(* f is a plain (non-append) writable descriptor on inode i, positioned at the end of the file *)
Definition at_end (s : fs) (f : fdnum) (i : nat) : Prop := fds s f = Some (mkfd i true false (length (idata s i))).

(* s' is s with bs appended to inode i through f *)
Definition appended (s s' : fs) (f : fdnum) (i : nat) (bs : bytes) : Prop :=
  names s' = names s /\ next s' = next s /\
  idata s' i = idata s i ++ bs /\ (forall j, j <> i -> idata s' j = idata s j) /\
  at_end s' f i /\ (forall x, x <> f -> fds s' x = fds s x).

Lemma step_write_end : forall s f i bs, at_end s f i -> appended s (step s (Write f bs true)) f i bs.
Proof.
  intros s f i bs Hfd. unfold appended, at_end in *. cbn [step]. rewrite Hfd. cbn [fd_wr fd_ino fd_app fd_off].
  rewrite write_at_end. cbn [set_fd set_data names idata fds next].
  rewrite updn_eq, updN_eq, app_length. repeat split; auto.
  - intros j Hj. apply updn_neq. exact Hj.
  - intros x Hx. apply updN_neq. exact Hx.
Qed.

Lemma appended_refl : forall s f i, at_end s f i -> appended s s f i [].
Proof. intros s f i H. unfold appended. rewrite app_nil_r. repeat split; auto. Qed.

(* sequential writes at the end append; failed writes and fsyncs change nothing *)
Lemma run_data : forall f i ws s, Forall (data_op f) ws -> at_end s f i -> appended s (run ws s) f i (written ws).
Proof.
  intros f i ws s H. revert s. induction H as [|o ws Ho _ IH]; intros s Hfd.
  - apply appended_refl. exact Hfd.
  - assert (H1 : appended s (step s o) f i (written [o])).
    { destruct Ho as [bs ok|ok].
      - destruct ok; [|apply appended_refl; exact Hfd].
        cbn [written]. rewrite app_nil_r. apply step_write_end. exact Hfd.
      - replace (step s (Fsync f ok)) with s by (destruct ok; reflexivity). apply appended_refl. exact Hfd. }
    destruct H1 as [Hn1 [Hx1 [Hd1 [Ho1 [Hf1 Hg1]]]]].
    destruct (IH (step s o) Hf1) as [Hn2 [Hx2 [Hd2 [Ho2 [Hf2 Hg2]]]]].
    change (run (o :: ws) s) with (run ws (step s o)). change (o :: ws) with ([o] ++ ws). rewrite written_app.
    unfold appended. repeat split; try congruence.
    + rewrite Hd2, Hd1. symmetry. apply app_assoc.
    + intros j Hj. rewrite (Ho2 j Hj). apply Ho1. exact Hj.
    + intros x Hx. rewrite (Hg2 x Hx). apply Hg1. exact Hx.
Qed.

(* s is s0 with one more file: tmp names a new inode that holds c, f is positioned at its end, everything else is
   as in s0 *)
Definition fresh_file (s0 s : fs) (tmp : path) (f : fdnum) (c : bytes) : Prop :=
  names s = updN (names s0) tmp (Some (next s0)) /\ idata s (next s0) = c /\
  (forall i, i <> next s0 -> idata s i = idata s0 i) /\
  at_end s f (next s0) /\ (forall x, x <> f -> fds s x = fds s0 x).

(* open(tmp, "w") of a name that does not exist, on a free descriptor number *)
Lemma open_temp : forall s0 tmp f, names s0 tmp = None -> fds s0 f = None ->
  fresh_file s0 (step s0 (Openat tmp fl_w f true)) tmp f [].
Proof.
  intros s0 tmp f Hn Hf. unfold fresh_file, at_end. cbn [step]. rewrite Hf, Hn.
  cbn [fl_w o_creat o_append writable o_mode names idata fds]. rewrite updn_eq, updN_eq.
  repeat split; auto.
  - intros i Hi. apply updn_neq. exact Hi.
  - intros x Hx. apply updN_neq. exact Hx.
Qed.

Lemma fresh_file_appended : forall s0 s s' tmp f c bs,
  fresh_file s0 s tmp f c -> appended s s' f (next s0) bs -> fresh_file s0 s' tmp f (c ++ bs).
Proof.
  intros s0 s s' tmp f c bs [Hn1 [Hd1 [Ho1 [_ Hx1]]]] [Hn2 [_ [Hd2 [Ho2 [Hf2 Hx2]]]]].
  unfold fresh_file. repeat split; try congruence.
  - intros i Hi. rewrite (Ho2 i Hi). apply Ho1. exact Hi.
  - intros x Hx. rewrite (Hx2 x Hx). apply Hx1. exact Hx.
Qed.

Lemma run_open_data : forall tmp f ws s0,
  names s0 tmp = None -> fds s0 f = None -> Forall (data_op f) ws ->
  fresh_file s0 (run (Openat tmp fl_w f true :: ws) s0) tmp f (written ws).
Proof.
  intros tmp f ws s0 Hn Hf Hws. pose proof (open_temp s0 tmp f Hn Hf) as H1.
  apply (fresh_file_appended _ _ _ _ _ [] _ H1). apply (run_data f (next s0) ws _ Hws), H1.
Qed.

(* ... and after the close every descriptor is as before, too *)
Theorem run_temp_file : forall tmp f ws s0,
  names s0 tmp = None -> fds s0 f = None -> Forall (data_op f) ws ->
  let s := run (temp_file tmp f ws) s0 in
  names s = updN (names s0) tmp (Some (next s0)) /\ idata s (next s0) = written ws /\
  (forall i, i <> next s0 -> idata s i = idata s0 i) /\ (forall x, fds s x = fds s0 x).
Proof.
  intros tmp f ws s0 Hn Hf Hws. cbn zeta. unfold temp_file. rewrite app_comm_cons, run_app.
  destruct (run_open_data tmp f ws s0 Hn Hf Hws) as [Hn1 [Hd1 [Ho1 [Hf1 Hx1]]]]. unfold at_end in Hf1.
  set (s1 := run (Openat tmp fl_w f true :: ws) s0) in *. cbn [run fold_left step]. rewrite Hf1. cbn [fd_wr fd_ino set_fd names idata fds].
  repeat split; auto.
  intros x. destruct (N.eq_dec x f) as [->|Hx].
  - rewrite updN_eq. symmetry. exact Hf.
  - rewrite updN_neq by exact Hx. apply Hx1. exact Hx.
Qed.

Lemma rename_publishes : forall s a b i,
  a <> b -> names s a = Some i -> content_at (step s (Rename a b true)) b = Some (idata s i).
Proof.
  intros s a b i Hab Ha. cbn [step]. apply N.eqb_neq in Hab. rewrite Hab, Ha.
  unfold content_at. cbn [set_names names idata]. apply N.eqb_neq in Hab.
  rewrite updN_neq by congruence. rewrite updN_eq. reflexivity.
Qed.

(* close-then-rename publishes exactly what went through write(2) *)
Theorem temp_file_rename_publishes : forall tmp final f ws s0,
  tmp <> final -> names s0 tmp = None -> fds s0 f = None -> Forall (data_op f) ws ->
  content_at (run (temp_file tmp f ws ++ [Rename tmp final true]) s0) final = Some (written ws).
Proof.
  intros tmp final f ws s0 Hne Hn Hf Hws. rewrite run_app.
  destruct (run_temp_file tmp f ws s0 Hn Hf Hws) as [Hn1 [Hd1 _]].
  cbn [run fold_left]. rewrite (rename_publishes _ tmp final (next s0) Hne); [rewrite Hd1; reflexivity|].
  rewrite Hn1. apply updN_eq.
Qed.

(* a temp file that is not renamed leaves every other name as it was *)
Theorem temp_file_keeps : forall tmp f ws s0 p,
  names s0 tmp = None -> fds s0 f = None -> Forall (data_op f) ws ->
  p <> tmp -> (forall i, names s0 p = Some i -> i < next s0) ->
  content_at (run (temp_file tmp f ws) s0) p = content_at s0 p.
Proof.
  intros tmp f ws s0 p Hn Hf Hws Hp Hlt.
  destruct (run_temp_file tmp f ws s0 Hn Hf Hws) as [Hn1 [_ [Ho1 _]]].
  unfold content_at. rewrite Hn1, updN_neq by exact Hp.
  destruct (names s0 p) as [i|] eqn:E; [|reflexivity].
  rewrite Ho1; [reflexivity|]. specialize (Hlt i eq_refl). lia.
Qed.

(* rename-before-close exposes what went through write(2) so far *)
Theorem rename_open_exposes : forall tmp final f ws s0,
  tmp <> final -> names s0 tmp = None -> fds s0 f = None -> Forall (data_op f) ws ->
  content_at (run ((Openat tmp fl_w f true :: ws) ++ [Rename tmp final true]) s0) final = Some (written ws).
Proof.
  intros tmp final f ws s0 Hne Hn Hf Hws. rewrite run_app.
  destruct (run_open_data tmp f ws s0 Hn Hf Hws) as [Hn1 [Hd1 _]].
  set (s1 := run (Openat tmp fl_w f true :: ws) s0) in *. cbn [run fold_left]. rewrite (rename_publishes _ tmp final (next s0) Hne); [rewrite Hd1; reflexivity|].
  rewrite Hn1. apply updN_eq.
Qed.

Lemma bw_ops_data : forall B f cs buf, Forall (data_op f) (fst (bw_ops B f buf cs)).
Proof.
  intros B f cs. induction cs as [|c cs IH]; intros buf; cbn [bw_ops].
  - constructor.
  - destruct (Nat.leb (length buf + length c) B); [apply IH|].
    assert (Hpre : Forall (data_op f) (match buf with [] => [] | _ => [Write f buf true] end)).
    { destruct buf; repeat constructor. }
    destruct (Nat.leb B (length c)); cbn [fst]; apply Forall_app; split; auto.
    constructor; [constructor|apply IH].
Qed.

(* nothing is lost or duplicated: what went to write(2) plus what is pending is the pending start + the chunks *)
Lemma bw_ops_conserves : forall B f cs buf,
  written (fst (bw_ops B f buf cs)) ++ snd (bw_ops B f buf cs) = buf ++ concat cs.
Proof.
  intros B f cs. induction cs as [|c cs IH]; intros buf; cbn [bw_ops concat].
  - cbn. rewrite app_nil_r. reflexivity.
  - destruct (Nat.leb (length buf + length c) B); [rewrite IH, app_assoc; reflexivity|].
    assert (Hpre : written (match buf with [] => [] | _ => [Write f buf true] end) = buf).
    { destruct buf; cbn [written]; [reflexivity|rewrite app_nil_r; reflexivity]. }
    destruct (Nat.leb B (length c)); cbn [fst snd]; rewrite written_app, Hpre.
    + cbn [written]. rewrite <- !app_assoc. f_equal. f_equal. apply (IH []).
    + rewrite <- app_assoc. f_equal. apply IH.
Qed.

(* what the file object hands to write(2) until it is closed *)
Definition bw_all (B : nat) (f : fdnum) (chunks : list bytes) : list op :=
  fst (bw_ops B f [] chunks) ++ flush_ops f (snd (bw_ops B f [] chunks)).

Lemma bw_all_data : forall B f chunks, Forall (data_op f) (bw_all B f chunks).
Proof.
  intros B f chunks. apply Forall_app. split; [apply bw_ops_data|].
  unfold flush_ops. destruct (snd (bw_ops B f [] chunks)); repeat constructor.
Qed.

Lemma bw_all_written : forall B f chunks, written (bw_all B f chunks) = concat chunks.
Proof.
  intros B f chunks. unfold bw_all. change (concat chunks) with ([] ++ concat chunks).
  rewrite <- (bw_ops_conserves B f chunks []), written_app. f_equal.
  unfold flush_ops. destruct (snd (bw_ops B f [] chunks)); cbn [written]; [reflexivity|apply app_nil_r].
Qed.

Lemma producer_ok_temp_file : forall B f chunks,
  producer_ok B f chunks = temp_file TEMP f (bw_all B f chunks) ++ [Rename TEMP FINAL true].
Proof. intros B f chunks. unfold producer_ok, temp_file, bw_all. cbn [app]. rewrite <- !app_assoc. reflexivity. Qed.

Lemma temp_not_final : TEMP <> FINAL.
Proof. discriminate. Qed.

(* close-then-rename: accepted for every buffer capacity, descriptor and chunking of the payload *)
Theorem buffered_producer_accepted : forall B f chunks, safe_publish FINAL (producer_ok B f chunks) = true.
Proof.
  intros B f chunks. rewrite producer_ok_temp_file.
  rewrite (safe_publish_temp_file FINAL TEMP f _ _ temp_not_final (bw_all_data B f chunks)). reflexivity.
Qed.

(* the faithful producer publishes exactly the payload (and nothing before the rename) *)
Theorem buffered_producer_publishes_payload : forall B f chunks s0,
  names s0 TEMP = None -> fds s0 f = None ->
  content_at (run (producer_ok B f chunks) s0) FINAL = Some (concat chunks).
Proof.
  intros B f chunks s0 Hn Hf. rewrite producer_ok_temp_file, <- bw_all_written with (B := B) (f := f).
  apply (temp_file_rename_publishes TEMP FINAL f _ s0 temp_not_final Hn Hf (bw_all_data B f chunks)).
Qed.

(* the state right after the early rename (seeded/C20-3): FINAL names an inode that holds only what went through
   write(2) so far; the bytes still pending are the missing tail (bw_ops_conserves) *)
Theorem early_rename_exposes_written : forall B f chunks s0,
  names s0 TEMP = None -> fds s0 f = None ->
  content_at (run (early_prefix B f chunks) s0) FINAL = Some (written (fst (bw_ops B f [] chunks))).
Proof.
  intros B f chunks s0 Hn Hf.
  apply (rename_open_exposes TEMP FINAL f _ s0 temp_not_final Hn Hf (bw_ops_data B f chunks [])).
Qed.

Lemma early_prefix_firstn : forall B f chunks,
  firstn (length (early_prefix B f chunks)) (producer_early B f chunks) = early_prefix B f chunks.
Proof.
  intros B f chunks. unfold producer_early. rewrite firstn_app, Nat.sub_diag, firstn_all. cbn [firstn]. apply app_nil_r.
Qed.

(* a reader who finds c where the payload should be, with a non-empty rest missing, has found a strict prefix *)
Lemma strict_prefix : forall (c tail whole : bytes),
  c ++ tail = whole -> tail <> [] -> c <> whole /\ exists tail, tail <> [] /\ c ++ tail = whole.
Proof.
  intros c tail whole Hsum Htail. split; [|eauto].
  intros E. rewrite <- Hsum in E. rewrite <- (app_nil_r c) in E at 1. apply app_inv_head in E. auto.
Qed.
