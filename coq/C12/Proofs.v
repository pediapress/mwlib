(* C12 — generic proofs: shape, idempotence and spelling invariance of splitname, for any Unicode tables and any
   site that satisfy the (boolean, finitely checkable) obligations below.  ProofsInst.v discharges them for CPython's
   tables and the 12 bundled sites by vm_compute. *)
From Coq Require Import List NArith ZArith Bool Lia.
From MW Require Import Common.Str C12.Model C12.ListLemmas.
Import ListNotations.
Open Scope N_scope.

Section Proofs.
  Variable is_ws : N -> bool.
  Variable upper_char lower_char : N -> str.
  Variable cased ignorable : N -> bool.

  Notation is_edge := (is_edge is_ws).
  Notation strip_edges := (strip_edges is_ws).
  Notation py_strip := (py_strip is_ws).
  Notation lower := (lower lower_char cased ignorable).
  Notation lower_go := (lower_go lower_char cased ignorable).
  Notation maybe_capitalize := (maybe_capitalize upper_char).
  Notation find_namespace := (find_namespace is_ws lower_char cased ignorable).
  Notation splitname := (splitname is_ws upper_char lower_char cased ignorable).
  Notation drop_colons := (drop_colons is_ws).
  Notation finish := (finish upper_char).

  (* a character that is neither stripped at an edge nor an underscore *)
  Definition plain (c : N) : bool := negb (is_edge c) && negb (N.eqb c c_underscore).

  (* obligations on the Unicode tables, each a finite check over the generated tables *)
  Hypothesis ws_space : is_ws c_space = true.
  Hypothesis ws_colon : is_ws c_colon = false.
  Hypothesis ws_sigmas : is_ws c_fsigma = false /\ is_ws c_sigma = false.
  Hypothesis upper_plain : forall c, plain c = true ->
    upper_char c <> [] /\ Forall (fun x => plain x = true /\ (x = c_colon -> c = c_colon)) (upper_char c).
  Hypothesis upper_head_fixed : forall c h r, upper_char c = h :: r -> upper_char h = [h].
  Hypothesis lower_head_nonws : forall c, is_ws c = false ->
    match lower_char c with h :: _ => is_ws h = false | [] => False end.
  (* the last two only for the spelling theorems *)
  Hypothesis lower_ws_id : forall c, is_ws c = true -> lower_char c = [c].
  Hypothesis ws_Sigma : is_ws c_Sigma = false.

  (* tidy strings: what the first line of splitname produces *)
  Definition no_us (s : str) : Prop := Forall (fun c => c <> c_underscore) s.
  Definition tidy (s : str) : Prop := no_us s /\ sq s = true /\ ends_ok is_edge s.

  Lemma no_us_notin s : no_us s -> ~ In c_underscore s.
  Proof. intros H X. unfold no_us in H. rewrite Forall_forall in H. exact (H _ X eq_refl). Qed.

  Lemma edge_space : is_edge c_space = true.
  Proof. unfold Model.is_edge. rewrite ws_space. reflexivity. Qed.

  Lemma edge_colon : is_edge c_colon = false.
  Proof. unfold Model.is_edge. rewrite ws_colon. reflexivity. Qed.

  Lemma edge_false_ws c : is_edge c = false -> is_ws c = false.
  Proof. unfold Model.is_edge. intros H. apply orb_false_iff in H as [H _]. apply orb_false_iff in H as [H _]. exact H. Qed.

  Lemma tidy_pre s : tidy s -> squeeze (strip_edges (repl_us s)) = s.
  Proof.
    intros [H1 [H2 H3]]. rewrite repl_us_id by (apply no_us_notin; exact H1).
    unfold Model.strip_edges. rewrite strip_id by exact H3. apply sq_squeeze. exact H2.
  Qed.

  Lemma no_us_app a b : no_us (a ++ b) <-> no_us a /\ no_us b.
  Proof. unfold no_us. apply Forall_app. Qed.

  Lemma tidy_sub_strip a s : no_us (a ++ s) -> sq (a ++ s) = true -> tidy (strip_edges s).
  Proof.
    intros H1 H2. destruct (strip_infix is_edge s) as [e1 [e2 E]]. fold (strip_edges s) in E.
    apply no_us_app in H1 as [_ H1]. apply sq_app_inv in H2 as [_ H2].
    rewrite E in H1, H2. apply no_us_app in H1 as [_ H1]. apply no_us_app in H1 as [H1 _].
    apply sq_app_inv in H2 as [_ H2]. apply sq_app_inv in H2 as [H2 _].
    split; [exact H1 | split; [exact H2 | apply strip_ends_ok]].
  Qed.

  Definition head_not_colon (s : str) : Prop := match s with c :: _ => c <> c_colon | [] => True end.

  Lemma drop_colons_fuel fuel : forall name d, (length name < fuel)%nat -> tidy name ->
    tidy (fst (drop_colons fuel name d)) /\ head_not_colon (fst (drop_colons fuel name d)) /\
    (snd (drop_colons fuel name d) = d \/ snd (drop_colons fuel name d) = 0%Z).
  Proof.
    induction fuel as [|f IH]; intros name d Hl Ht; [lia|].
    cbn [Model.drop_colons]. destruct name as [|c r]; [cbn; auto|].
    destruct (N.eqb_spec c c_colon) as [->|Hne].
    - assert (Ht' : tidy (strip_edges r)).
      { destruct Ht as [H1 [H2 _]]. apply (tidy_sub_strip [c_colon]); assumption. }
      assert (Hl' : (length (strip_edges r) < f)%nat).
      { pose proof (strip_length is_edge r). unfold Model.strip_edges. cbn in Hl. lia. }
      destruct (IH (strip_edges r) 0%Z Hl' Ht') as [A [B C]]. split; [exact A | split; [exact B|]].
      right. destruct C as [C|C]; exact C.
    - cbn. auto.
  Qed.

  Lemma drop_colons_id fuel name d : head_not_colon name -> drop_colons (S fuel) name d = (name, d).
  Proof.
    intros H. cbn [Model.drop_colons]. destruct name as [|c r]; [reflexivity|].
    cbn in H. apply N.eqb_neq in H. rewrite H. reflexivity.
  Qed.

  Lemma drop_colons_colon fuel r d : drop_colons (S fuel) (c_colon :: r) d = drop_colons fuel (strip_edges r) 0%Z.
  Proof. reflexivity. Qed.

  Definition capfix (cap : bool) (s : str) : Prop := maybe_capitalize cap s = s.

  Lemma plain_not_space c : plain c = true -> c <> c_space.
  Proof.
    unfold plain. intros H Hc. subst c. rewrite edge_space in H. cbn in H. discriminate.
  Qed.

  Lemma plain_not_edge c : plain c = true -> is_edge c = false.
  Proof. unfold plain. intros H. apply andb_true_iff in H as [H _]. apply negb_true_iff in H. exact H. Qed.

  Lemma plain_not_us c : plain c = true -> c <> c_underscore.
  Proof. unfold plain. intros H. apply andb_true_iff in H as [_ H]. apply negb_true_iff in H. apply N.eqb_neq in H. exact H. Qed.

  Lemma tidy_head_plain c r : tidy (c :: r) -> plain c = true.
  Proof.
    intros [H1 [_ [H3 _]]]. unfold plain. cbn in H3. rewrite H3. inversion H1; subst.
    apply N.eqb_neq in H2. rewrite H2. reflexivity.
  Qed.

  Lemma rev_last_app_ne (a b : str) : b <> [] -> match rev (a ++ b) with [] => True | l :: _ => match rev b with [] => True | l' :: _ => l = l' end end.
  Proof.
    intros Hb. rewrite rev_app_distr. destruct (rev b) eqn:E; [|reflexivity].
    apply rev_nil_inv in E. contradiction.
  Qed.

  Lemma cap_tidy cap s : tidy s -> tidy (maybe_capitalize cap s) /\ capfix cap (maybe_capitalize cap s) /\
      (head_not_colon s -> head_not_colon (maybe_capitalize cap s)).
  Proof.
    intros Ht. destruct cap; cbn [Model.maybe_capitalize]; [|split; [exact Ht | split; [reflexivity | auto]]].
    destruct s as [|c r]; [split; [exact Ht | split; [reflexivity | auto]]|].
    pose proof (tidy_head_plain _ _ Ht) as Hp. destruct (upper_plain c Hp) as [Hne Hall].
    destruct (upper_char c) as [|h u] eqn:Eu; [congruence|].
    assert (Hns : Forall (fun x => x <> c_space) (h :: u)).
    { eapply Forall_impl; [|exact Hall]. intros x [Hx _]. apply plain_not_space. exact Hx. }
    destruct Ht as [H1 [H2 [H3 H4]]].
    split; [split; [|split]|split].
    - apply no_us_app. split.
      + eapply Forall_impl; [|exact Hall]. intros x [Hx _]. apply plain_not_us. exact Hx.
      + inversion H1; assumption.
    - apply sq_app; [apply sq_no_space; exact Hns| |rewrite last32_no_space by exact Hns; reflexivity].
      change (c :: r) with ([c] ++ r) in H2. apply sq_app_inv in H2 as [_ H2]. exact H2.
    - split.
      + cbn. inversion Hall as [|? ? [Hh _] _]. apply plain_not_edge. exact Hh.
      + assert (Hl : last_ok is_edge (h :: u)).
        { apply last_ok_Forall. eapply Forall_impl; [|exact Hall]. intros x [Hx _]. apply plain_not_edge. exact Hx. }
        destruct r as [|d r'].
        * rewrite app_nil_r. exact Hl.
        * apply (last_ok_app is_edge (h :: u) (d :: r')); [discriminate|].
          apply (last_ok_tail is_edge c); [discriminate | exact H4].
    - unfold capfix. cbn [Model.maybe_capitalize app]. rewrite (upper_head_fixed c h u Eu). reflexivity.
    - intros Hc. cbn in Hc. cbn. inversion Hall as [|? ? [_ Hh] _]. intros X. apply Hc. exact (Hh X).
  Qed.

  (* the normal form of `name` after the preprocessing of splitname *)
  Definition normal (cap : bool) (name : str) : Prop := tidy name /\ head_not_colon name /\ capfix cap name.

  Definition core (st : site) (name : str) (dns : Z) : result (Z * str * str) :=
    match split1 c_colon name with
    | Some (nspart, partial) =>
        match find_namespace st nspart dns with
        | KeyError => KeyError
        | Ok (was, nsnum, prefix) =>
            finish (s_capitalize st) nsnum prefix (if (was : bool) then strip_edges partial else name)
        end
    | None =>
        match star_of st dns with
        | None => KeyError
        | Some prefix => finish (s_capitalize st) dns prefix name
        end
    end.

  Definition pre_name (st : site) (t : str) (dns : Z) : str * Z :=
    let name0 := squeeze (strip_edges (repl_us t)) in
    let r := drop_colons (S (length name0)) name0 dns in
    (maybe_capitalize (s_capitalize st) (fst r), snd r).

  Lemma splitname_core st t dns : splitname st t dns = core st (fst (pre_name st t dns)) (snd (pre_name st t dns)).
  Proof.
    unfold Model.splitname, pre_name, core.
    destruct (drop_colons _ _ dns) as [n1 d1]. reflexivity.
  Qed.

  Lemma pre_tidy0 t : tidy (squeeze (strip_edges (repl_us t))).
  Proof.
    split; [|split].
    - apply squeeze_subseq_Forall. destruct (strip_infix is_edge (repl_us t)) as [e1 [e2 E]].
      assert (H : no_us (repl_us t)).
      { apply Forall_forall. intros c Hc Heq. subst c. exact (repl_us_no_us t Hc). }
      rewrite E in H. apply no_us_app in H as [_ H]. apply no_us_app in H as [H _]. exact H.
    - apply squeeze_sq.
    - apply squeeze_ends_ok, strip_ends_ok.
  Qed.

  Lemma pre_normal st t dns : normal (s_capitalize st) (fst (pre_name st t dns)) /\
      (snd (pre_name st t dns) = dns \/ snd (pre_name st t dns) = 0%Z).
  Proof.
    unfold pre_name. cbn [fst snd].
    set (name0 := squeeze (strip_edges (repl_us t))).
    destruct (drop_colons_fuel (S (length name0)) name0 dns ltac:(lia) (pre_tidy0 t)) as [A [B C]].
    split; [|exact C].
    destruct (cap_tidy (s_capitalize st) _ A) as [T [F H]].
    split; [exact T | split; [exact (H B) | exact F]].
  Qed.

  Lemma splitname_normal st name dns : normal (s_capitalize st) name -> splitname st name dns = core st name dns.
  Proof.
    intros [Ht [Hc Hf]]. rewrite splitname_core. unfold pre_name. cbn [fst snd].
    rewrite tidy_pre by exact Ht. rewrite drop_colons_id by exact Hc. cbn [fst snd].
    unfold capfix in Hf. rewrite Hf. reflexivity.
  Qed.

  (* what the proofs use of a site: ids are unique, a namespace without local name has no canonical name either,
     a local name is tidy, colon-free and looked up (capitalised, as splitname does) finds its own namespace, an alias
     points to a namespace with a local name *)
  Record site_good (st : site) : Prop := {
    good_ids : forall e, In e (s_namespaces st) -> star_of st (ns_id e) = Some (ns_star e);
    good_unnamed : forall e, In e (s_namespaces st) -> ns_star e = [] -> canon_or_empty e = [];
    good_named : forall e, In e (s_namespaces st) -> ns_star e <> [] ->
      tidy (ns_star e) /\ ~ In c_colon (ns_star e) /\
      forall d, find_namespace st (maybe_capitalize (s_capitalize st) (ns_star e)) d = Ok (true, ns_id e, ns_star e);
    good_alias : forall a, In a (s_aliases st) -> exists c r, star_of st (fst a) = Some (c :: r) }.

  Lemma star_of_some st k L : star_of st k = Some L -> exists e, In e (s_namespaces st) /\ ns_id e = k /\ ns_star e = L.
  Proof.
    unfold star_of. destruct (find _ _) as [e|] eqn:E; [|discriminate]. intros H. inversion H; subst.
    apply find_some in E as [E1 E2]. apply Z.eqb_eq in E2. exists e. auto.
  Qed.

  Lemma lower_head_nonws_str c r : is_ws c = false ->
    match lower (c :: r) with h :: _ => is_ws h = false | [] => False end.
  Proof.
    intros H. unfold Model.lower. cbn [Model.lower_go].
    destruct (N.eqb c c_Sigma).
    - destruct (_ && _); cbn; apply ws_sigmas.
    - pose proof (lower_head_nonws c H) as X. destruct (lower_char c); [contradiction|]. cbn. exact X.
  Qed.

  Lemma key_nonempty c r : is_ws c = false -> py_strip (lower (c :: r)) <> [].
  Proof.
    intros H. pose proof (lower_head_nonws_str c r H) as X. destruct (lower (c :: r)) as [|h t]; [contradiction|].
    unfold Model.py_strip. pose proof (strip_lead is_ws [] h t (Forall_nil _) X) as E. cbn [app] in E. rewrite E. discriminate.
  Qed.

  Lemma find_namespace_true st c r d k L : site_good st -> is_ws c = false ->
    find_namespace st (c :: r) d = Ok (true, k, L) ->
    L <> [] /\ exists e, In e (s_namespaces st) /\ ns_id e = k /\ ns_star e = L.
  Proof.
    intros Hs Hc. unfold Model.find_namespace.
    pose proof (key_nonempty c r Hc) as Hk. remember (py_strip (lower (c :: r))) as key eqn:Ek. clear Ek.
    destruct (find _ (s_namespaces st)) as [e|] eqn:E1.
    - intros H. injection H as Hk' HL'. subst k L. apply find_some in E1 as [Hin Hm]. split; [|exists e; auto].
      intros Hnil. rewrite Hnil, (good_unnamed st Hs e Hin Hnil) in Hm.
      destruct key as [|k0 key']; [congruence | discriminate Hm].
    - destruct (find _ (s_aliases st)) as [a|] eqn:E2.
      + apply find_some in E2 as [Hin _]. destruct (good_alias st Hs a Hin) as [x [y E3]]. rewrite E3.
        intros H. inversion H; subst. split; [discriminate|]. apply star_of_some in E3. exact E3.
      + destruct (star_of st d); [intros H; inversion H | discriminate].
  Qed.

  Lemma find_namespace_false st N d k L : find_namespace st N d = Ok (false, k, L) -> k = d /\ star_of st d = Some L.
  Proof.
    unfold Model.find_namespace.
    destruct (find _ (s_namespaces st)) as [e|]; [intros H; inversion H|].
    destruct (find _ (s_aliases st)) as [a|]; [destruct (star_of st (fst a)); intros H; inversion H|].
    destruct (star_of st d) eqn:E; [|discriminate]. intros H. inversion H; subst. auto.
  Qed.

  Definition prefix_of (L : str) : str := match L with [] => [] | _ => L ++ [c_colon] end.

  (* the two kinds of answer of `core st name d` *)
  Inductive core_spec (st : site) (name : str) (d : Z) : Z -> str -> str -> Prop :=
  (* the title landed in a namespace with a local name (found by its prefix, or the default namespace): "local name:P" *)
  | core_named e P : In e (s_namespaces st) -> ns_star e <> [] -> tidy P -> capfix (s_capitalize st) P ->
      core_spec st name d (ns_id e) P (ns_star e ++ c_colon :: P)
  (* it stayed in the default namespace d, which has no local name: the name as it is *)
  | core_unnamed : star_of st d = Some [] -> core_spec st name d d name name.

  Lemma glue_named (L : str) P : L <> [] -> prefix_of L ++ P = L ++ c_colon :: P.
  Proof. intros H. unfold prefix_of. destruct L; [congruence|]. rewrite <- app_assoc. reflexivity. Qed.

  Lemma finish_eq cap k L s : finish cap k L s = Ok (k, maybe_capitalize cap s, prefix_of L ++ maybe_capitalize cap s).
  Proof. reflexivity. Qed.

  Lemma finish_default st name d L k P F : normal (s_capitalize st) name -> star_of st d = Some L ->
    finish (s_capitalize st) d L name = Ok (k, P, F) -> core_spec st name d k P F.
  Proof.
    intros [Ht [_ Hf]] HL. rewrite finish_eq. unfold capfix in Hf. rewrite Hf. intros H. inversion H; subst k P F.
    destruct L as [|x y]; [apply core_unnamed; exact HL|].
    apply star_of_some in HL as [e [H1 [H2 H3]]]. subst d. rewrite glue_named by discriminate. rewrite <- H3.
    apply core_named; [exact H1 | rewrite H3; discriminate | exact Ht | exact Hf].
  Qed.

  Lemma core_result st name d k P F : site_good st -> normal (s_capitalize st) name ->
    core st name d = Ok (k, P, F) -> core_spec st name d k P F.
  Proof.
    intros Hs Hn. pose proof Hn as [Ht [Hc _]]. unfold core.
    destruct (split1 c_colon name) as [[N R]|] eqn:Es.
    - apply split1_some in Es as [En _]. destruct (find_namespace st N d) as [[[was k'] L]|] eqn:Ef; [|discriminate].
      destruct was.
      + (* N is not empty and does not start with white space, since name is tidy and does not start with ':' *)
        destruct N as [|c r]; [subst name; cbn in Hc; congruence|].
        assert (Hws : is_ws c = false).
        { subst name. destruct Ht as [_ [_ [H _]]]. exact (edge_false_ws c H). }
        destruct (find_namespace_true st c r d k' L Hs Hws Ef) as [HL [e [H1 [H2 H3]]]].
        assert (Tp : tidy (strip_edges R)).
        { destruct Ht as [A [B _]]. subst name. apply (tidy_sub_strip ((c :: r) ++ [c_colon])); rewrite <- app_assoc; assumption. }
        destruct (cap_tidy (s_capitalize st) _ Tp) as [T [Fx _]].
        rewrite finish_eq. intros H. inversion H; subst k P F k' L. rewrite glue_named by exact HL.
        apply core_named; assumption.
      + apply find_namespace_false in Ef as [-> HL]. exact (finish_default st name d L k P F Hn HL).
    - destruct (star_of st d) as [L|] eqn:HL; [|discriminate]. exact (finish_default st name d L k P F Hn HL).
  Qed.

  Lemma no_colon_cap cap L : tidy L -> ~ In c_colon L -> ~ In c_colon (maybe_capitalize cap L).
  Proof.
    intros Ht Hn. destruct cap; [|exact Hn]. destruct L as [|c r]; [exact Hn|]. cbn [Model.maybe_capitalize].
    pose proof (tidy_head_plain _ _ Ht) as Hp. destruct (upper_plain c Hp) as [_ Hall].
    intros X. apply in_app_or in X as [X|X].
    - rewrite Forall_forall in Hall. destruct (Hall _ X) as [_ Y]. apply Hn. left. exact (Y eq_refl).
    - apply Hn. right. exact X.
  Qed.

  Lemma tidy_prefixed L P : tidy L -> L <> [] -> tidy P -> tidy (L ++ c_colon :: P).
  Proof.
    intros [A1 [A2 A3]] Hne [B1 [B2 B3]]. split; [|split].
    - apply no_us_app. split; [exact A1|]. constructor; [discriminate | exact B1].
    - apply sq_app; [exact A2 | cbn [sq]; rewrite B2; reflexivity | cbn; apply andb_false_r].
    - destruct P as [|p0 P'].
      + apply ends_ok_app; [exact Hne | discriminate | exact A3 | split; cbn; apply edge_colon].
      + apply ends_ok_app; [exact Hne | discriminate | exact A3 |].
        apply ends_ok_cons_last; [apply edge_colon | apply (ends_ok_last _ _ B3)].
  Qed.

  Lemma reread_prefixed st e P d : site_good st -> In e (s_namespaces st) -> ns_star e <> [] ->
    tidy P -> capfix (s_capitalize st) P ->
    splitname st (ns_star e ++ c_colon :: P) d = Ok (ns_id e, P, ns_star e ++ c_colon :: P).
  Proof.
    intros Hs Hin Hne Tp Fp. destruct (good_named st Hs e Hin Hne) as [TL [NL FL]].
    set (L := ns_star e) in *. set (cap := s_capitalize st) in *.
    rewrite splitname_core. unfold pre_name. cbn [fst snd].
    rewrite tidy_pre by (apply tidy_prefixed; assumption).
    assert (Hh : head_not_colon (L ++ c_colon :: P)).
    { destruct L as [|c r]; [congruence|]. cbn. intros X. apply NL. left. exact X. }
    rewrite drop_colons_id by exact Hh. cbn [fst snd]. fold cap.
    assert (Ec : maybe_capitalize cap (L ++ c_colon :: P) = maybe_capitalize cap L ++ c_colon :: P).
    { destruct cap; [|reflexivity]. destruct L; [congruence|]. cbn. rewrite <- app_assoc. reflexivity. }
    rewrite Ec. unfold core. rewrite split1_app by (apply no_colon_cap; assumption).
    fold cap. rewrite FL, finish_eq.
    assert (Es : strip_edges P = P) by (unfold Model.strip_edges; apply strip_id; apply Tp).
    rewrite Es. fold cap. unfold capfix in Fp. rewrite Fp, glue_named by exact Hne. reflexivity.
  Qed.

  Theorem splitname_shape st t dns k P F : site_good st -> splitname st t dns = Ok (k, P, F) ->
    exists L, star_of st k = Some L /\ F = prefix_of L ++ P /\ maybe_capitalize (s_capitalize st) P = P /\
              (k = dns \/ k = 0%Z \/ L <> []).
  Proof using ws_space ws_sigmas upper_plain upper_head_fixed lower_head_nonws.
    intros Hs H. rewrite splitname_core in H. destruct (pre_normal st t dns) as [Hn Hd].
    destruct (core_result st _ _ k P F Hs Hn H) as [e P' H1 H3 _ H6|H2].
    - exists (ns_star e). split; [apply (good_ids st Hs); exact H1|].
      split; [|split; [exact H6 | right; right; exact H3]].
      symmetry. apply glue_named. exact H3.
    - exists []. split; [exact H2 | split; [reflexivity | split]].
      + destruct Hn as [_ [_ Hf]]. exact Hf.
      + destruct Hd as [Hd|Hd]; rewrite Hd; auto.
  Qed.

  Theorem splitname_idempotent st t dns k P F : site_good st -> splitname st t dns = Ok (k, P, F) ->
    splitname st F k = Ok (k, P, F) /\
    (star_of st k <> Some [] -> forall dns', splitname st F dns' = Ok (k, P, F)).
  Proof using ws_space ws_colon ws_sigmas upper_plain upper_head_fixed lower_head_nonws.
    intros Hs H. rewrite splitname_core in H. destruct (pre_normal st t dns) as [Hn Hd].
    pose proof (core_result st _ _ k P F Hs Hn H) as R. destruct R as [e P' H1 H3 H5 H6|H2].
    - split; [|intros _ dns']; apply reread_prefixed; assumption.
    - split.
      + rewrite splitname_normal by exact Hn. exact H.
      + intros X. congruence.
  Qed.

  Definition lower_flat (s : str) : str := flat_map lower_char s.

  Lemma lower_go_flat s : forall bef, ~ In c_Sigma s -> lower_go bef s = lower_flat s.
  Proof.
    induction s as [|c r IH]; intros bef H; [reflexivity|]. cbn [Model.lower_go lower_flat flat_map].
    destruct (N.eqb_spec c c_Sigma) as [->|_]; [exfalso; apply H; left; reflexivity|].
    rewrite IH by (intros X; apply H; right; exact X). reflexivity.
  Qed.

  Lemma lower_flat_eq s : ~ In c_Sigma s -> lower s = lower_flat s.
  Proof. apply lower_go_flat. Qed.

  Lemma lower_flat_app a b : lower_flat (a ++ b) = lower_flat a ++ lower_flat b.
  Proof. apply flat_map_app. Qed.

  Lemma lower_flat_ws w : Forall (fun c => is_ws c = true) w -> lower_flat w = w.
  Proof.
    induction 1 as [|c r Hc _ IH]; [reflexivity|]. cbn [lower_flat flat_map]. rewrite (lower_ws_id c Hc).
    fold (lower_flat r). rewrite IH. reflexivity.
  Qed.

  (* The lookup of _find_namespace on a key that is already lower-cased and stripped, against the names of the site
     lower-cased once (`site_keys`).  The model lower-cases every name again for every lookup; a check that looks up
     every name of a site would do so quadratically often. *)
  Definition site_keys (st : site) : list (str * str * ns_entry) * list (str * (Z * str)) :=
    (map (fun e => (lower (ns_star e), lower (canon_or_empty e), e)) (s_namespaces st),
     map (fun a => (lower (snd a), a)) (s_aliases st)).

  Definition lookup (keys : list (str * str * ns_entry) * list (str * (Z * str))) (st : site) (key : str) (defaultns : Z)
    : result (bool * Z * str) :=
    match find (fun t => str_eqb (fst (fst t)) key || str_eqb (snd (fst t)) key) (fst keys) with
    | Some t => Ok (true, ns_id (snd t), ns_star (snd t))
    | None =>
        match find (fun t => str_eqb (fst t) key) (snd keys) with
        | Some t => match star_of st (fst (snd t)) with
                    | Some s => Ok (true, fst (snd t), s)
                    | None => KeyError
                    end
        | None => match star_of st defaultns with
                  | Some s => Ok (false, defaultns, s)
                  | None => KeyError
                  end
        end
    end.

  Lemma find_namespace_key st N d : find_namespace st N d = lookup (site_keys st) st (py_strip (lower N)) d.
  Proof.
    unfold Model.find_namespace, lookup, site_keys. cbn [fst snd]. set (key := py_strip (lower N)).
    pose proof (find_keyed (fun e => (lower (ns_star e), lower (canon_or_empty e)))
                  (fun kk => str_eqb (fst kk) key || str_eqb (snd kk) key) (s_namespaces st)) as E1.
    pose proof (find_keyed (fun a : Z * str => lower (snd a)) (fun k => str_eqb k key) (s_aliases st)) as E2.
    cbn beta in E1, E2. cbn [fst snd] in E1. rewrite E1, E2.
    destruct (find _ (map _ (s_namespaces st))) as [t|]; [reflexivity|].
    destruct (find _ (map _ (s_aliases st))) as [t|]; reflexivity.
  Qed.

  Lemma lookup_found keys st key d k L : lookup keys st key d = Ok (true, k, L) -> forall d', lookup keys st key d' = Ok (true, k, L).
  Proof.
    unfold lookup. intros H d'.
    destruct (find _ (fst keys)) as [t|]; [exact H|].
    destruct (find _ (snd keys)) as [t|]; [exact H|].
    destruct (star_of st d); [inversion H | discriminate].
  Qed.

  (* one-to-one case variants of a character *)
  Definition single (u : str) : list N := match u with [a] => [a] | _ => [] end.
  Definition cands (b : N) : list N := b :: single (upper_char b) ++ single (lower_char b).
  (* s is a per-letter case variant of n *)
  Definition cv (s n : str) : Prop := Forall2 (fun a b => In a (cands b)) s n.

  Definition is_Sigma (c : N) : bool := N.eqb c c_Sigma.

  (* the character a may be written for the letter b of a name *)
  Record char_good (a b : N) : Prop := {
    cg_not_Sigma : a <> c_Sigma;
    cg_lower : lower_char a = lower_char b;
    cg_upper_lower : lower_flat (upper_char a) = lower_char b;
    cg_upper_not_Sigma : ~ In c_Sigma (upper_char a);
    cg_plain : a = c_space \/ plain a = true;
    cg_not_colon : a <> c_colon;
    cg_space : N.eqb a c_space = N.eqb b c_space }.

  Definition char_ok (a b : N) : bool :=
    negb (is_Sigma a) && str_eqb (lower_char a) (lower_char b) && str_eqb (lower_flat (upper_char a)) (lower_char b)
    && negb (existsb is_Sigma (upper_char a)) && (N.eqb a c_space || plain a) && negb (N.eqb a c_colon)
    && Bool.eqb (N.eqb a c_space) (N.eqb b c_space).

  Lemma char_ok_spec a b : char_ok a b = true -> char_good a b.
  Proof.
    unfold char_ok, is_Sigma. intros H.
    apply andb_true_iff in H as [H H7]. apply andb_true_iff in H as [H H6]. apply andb_true_iff in H as [H H5].
    apply andb_true_iff in H as [H H4]. apply andb_true_iff in H as [H H3]. apply andb_true_iff in H as [H1 H2].
    split.
    - apply N.eqb_neq, negb_true_iff. exact H1.
    - apply str_eqb_spec. exact H2.
    - apply str_eqb_spec. exact H3.
    - intros X. apply negb_true_iff, not_true_iff_false in H4. apply H4, existsb_exists. exists c_Sigma.
      split; [exact X | apply N.eqb_refl].
    - apply orb_true_iff in H5 as [H5|H5]; [left; apply N.eqb_eq; exact H5 | right; exact H5].
    - apply N.eqb_neq, negb_true_iff. exact H6.
    - apply Bool.eqb_prop. exact H7.
  Qed.

  Definition ends_okb (p : N -> bool) (s : str) : bool :=
    match s with [] => true | h :: _ => negb (p h) end && match rev s with [] => true | l :: _ => negb (p l) end.
  Definition tidyb (s : str) : bool := forallb (fun c => negb (N.eqb c c_underscore)) s && sq s && ends_okb is_edge s.

  Lemma ends_okb_spec p s : ends_okb p s = true -> ends_ok p s.
  Proof.
    unfold ends_okb, ends_ok. intros H. apply andb_true_iff in H as [H1 H2]. split.
    - destruct s; [exact I|]. apply negb_true_iff in H1. exact H1.
    - destruct (rev s); [exact I|]. apply negb_true_iff in H2. exact H2.
  Qed.

  Lemma tidyb_spec s : tidyb s = true -> tidy s.
  Proof.
    unfold tidyb. intros H. apply andb_true_iff in H as [H H3]. apply andb_true_iff in H as [H1 H2].
    split; [|split; [exact H2 | apply ends_okb_spec; exact H3]].
    apply Forall_forall. intros c Hc. rewrite forallb_forall in H1. specialize (H1 c Hc).
    apply negb_true_iff in H1. apply N.eqb_neq in H1. exact H1.
  Qed.

  (* lower-casing a letter that is not white space gives a non-empty string without white space at either end *)
  Definition lower_endsb (b : N) : bool :=
    is_ws b || match lower_char b with [] => false | _ :: _ => ends_okb is_ws (lower_char b) end.

  Lemma lower_endsb_spec b : lower_endsb b = true -> is_ws b = false ->
    exists h t, lower_char b = h :: t /\ ends_ok is_ws (h :: t).
  Proof.
    unfold lower_endsb. intros H Hb. rewrite Hb in H. cbn [orb] in H.
    destruct (lower_char b) as [|h t]; [discriminate|]. exists h, t. split; [reflexivity | exact (ends_okb_spec _ _ H)].
  Qed.

  (* the first character of the lower-cased name comes from its first letter, the last from its last *)
  Lemma lower_flat_ends n : (forall b, In b n -> lower_endsb b = true) -> ends_ok is_ws n -> ends_ok is_ws (lower_flat n).
  Proof.
    intros Hall [Hh Hl]. split.
    - destruct n as [|c r]; [exact I|].
      destruct (lower_endsb_spec c (Hall c (or_introl eq_refl)) Hh) as [h [t [E [Hf _]]]].
      cbn [lower_flat flat_map]. rewrite E. exact Hf.
    - destruct (snoc_cases n) as [->|[a [l ->]]]; [exact I|]. rewrite rev_app_distr in Hl. cbn [rev app] in Hl.
      destruct (lower_endsb_spec l (Hall l (in_elt l a [])) Hl) as [h [t [E [_ Hf]]]].
      rewrite lower_flat_app. cbn [lower_flat flat_map]. rewrite app_nil_r, E.
      exact (last_ok_app is_ws _ (h :: t) ltac:(discriminate) Hf).
  Qed.

  (* the check per letter b of a name: every case variant of b may be written for it, and lower_endsb *)
  Definition cand_ok (b : N) : bool := forallb (fun a => char_ok a b) (cands b) && lower_endsb b.

  Definition res_is (r : result (bool * Z * str)) (b : bool) (k : Z) (L : str) : bool :=
    match r with
    | Ok (b', k', L') => Bool.eqb b b' && Z.eqb k k' && str_eqb L L'
    | KeyError => false
    end.

  Lemma res_is_spec r b k L : res_is r b k L = true -> r = Ok (b, k, L).
  Proof.
    destruct r as [[[b' k'] L']|]; cbn; [|discriminate]. intros H.
    apply andb_true_iff in H as [H H3]. apply andb_true_iff in H as [H1 H2].
    apply Bool.eqb_prop in H1. apply Z.eqb_eq in H2. apply str_eqb_spec in H3. congruence.
  Qed.

  (* `letter` bounds the characters of the names, so that `cand_ok` is checked once per character and not once per
     occurrence *)
  Definition name_ok (letter : N -> bool) keys (st : site) (k : Z) (n : str) : bool :=
    match n with
    | [] => true
    | _ => tidyb n
           && match star_of st k with Some L => res_is (lookup keys st (lower_flat n) 0%Z) true k L | None => false end
           && forallb letter n
    end.

  Definition names_of (st : site) (k : Z) : list str :=
    flat_map (fun e => if Z.eqb (ns_id e) k then ns_star e :: match ns_canon e with Some c => [c] | None => [] end else [])
             (s_namespaces st)
    ++ flat_map (fun a => if Z.eqb (fst a) k then [snd a] else []) (s_aliases st).

  Definition site_names_ok_with letter keys (st : site) : bool :=
    forallb (fun e => name_ok letter keys st (ns_id e) (ns_star e)
                      && match ns_canon e with Some c => name_ok letter keys st (ns_id e) c | None => true end)
            (s_namespaces st)
    && forallb (fun a => name_ok letter keys st (fst a) (snd a)) (s_aliases st).
  Definition site_names_ok letter (st : site) : bool := site_names_ok_with letter (site_keys st) st.

  Lemma names_of_ok letter st k n : site_names_ok letter st = true -> In n (names_of st k) ->
    name_ok letter (site_keys st) st k n = true.
  Proof.
    unfold site_names_ok, site_names_ok_with, names_of. intros H Hin. apply andb_true_iff in H as [H1 H2].
    rewrite forallb_forall in H1, H2. apply in_app_or in Hin as [Hin|Hin]; apply in_flat_map in Hin as [x [Hx Hin]].
    - specialize (H1 x Hx). apply andb_true_iff in H1 as [A B].
      destruct (Z.eqb_spec (ns_id x) k) as [<-|]; [|contradiction].
      destruct Hin as [<-|Hin]; [exact A|]. destruct (ns_canon x); [|contradiction]. destruct Hin as [<-|[]]. exact B.
    - specialize (H2 x Hx). destruct (Z.eqb_spec (fst x) k) as [<-|]; [|contradiction]. destruct Hin as [<-|[]]. exact H2.
  Qed.

  Lemma cv_good letter s n : (forall b, letter b = true -> cand_ok b = true) -> cv s n -> forallb letter n = true ->
    Forall2 char_good s n.
  Proof.
    intros Hl. induction 1 as [|a b s' n' Hab _ IH]; intros H; [constructor|]. cbn [forallb] in H.
    apply andb_true_iff in H as [H1 H2]. constructor; [|exact (IH H2)].
    apply Hl in H1. unfold cand_ok in H1. apply andb_true_iff in H1 as [H1 _]. rewrite forallb_forall in H1.
    exact (char_ok_spec a b (H1 a Hab)).
  Qed.

  Lemma variant_lower s n : Forall2 char_good s n -> lower_flat s = lower_flat n /\ ~ In c_Sigma s /\ ~ In c_colon s.
  Proof.
    induction 1 as [|a b s' n' Hab _ [IH1 [IH2 IH3]]]; [repeat split; intros []|]. repeat split.
    - cbn [lower_flat flat_map]. fold (lower_flat s') (lower_flat n'). rewrite (cg_lower _ _ Hab), IH1. reflexivity.
    - intros [X|X]; [exact (cg_not_Sigma _ _ Hab X) | exact (IH2 X)].
    - intros [X|X]; [exact (cg_not_colon _ _ Hab X) | exact (IH3 X)].
  Qed.

  Lemma char_good_edge a b : char_good a b -> is_edge b = false -> is_edge a = false.
  Proof.
    intros Hab Hb. destruct (cg_plain _ _ Hab) as [->|E]; [|apply plain_not_edge; exact E].
    pose proof (cg_space _ _ Hab) as Hsp. rewrite N.eqb_refl in Hsp. symmetry in Hsp. apply N.eqb_eq in Hsp. subst b.
    rewrite edge_space in Hb. discriminate.
  Qed.

  Lemma variant_hd32 s n : Forall2 char_good s n -> hd32 s = hd32 n.
  Proof. destruct 1 as [|a b s' n' Hab _]; [reflexivity | exact (cg_space _ _ Hab)]. Qed.

  (* a variant has its spaces where the name has them *)
  Lemma variant_sq s n : Forall2 char_good s n -> sq s = sq n.
  Proof.
    induction 1 as [|a b s' n' Hab Hr IH]; [reflexivity|]. cbn [sq].
    rewrite (cg_space _ _ Hab), (variant_hd32 _ _ Hr), IH. reflexivity.
  Qed.

  Lemma variant_no_us s n : Forall2 char_good s n -> no_us s.
  Proof.
    induction 1 as [|a b s' n' Hab _ IH]; constructor; [|exact IH].
    destruct (cg_plain _ _ Hab) as [->|E]; [discriminate | apply plain_not_us; exact E].
  Qed.

  Lemma variant_tidy s n : Forall2 char_good s n -> tidy n -> tidy s.
  Proof.
    intros H [_ [T2 [T3 T4]]]. split; [exact (variant_no_us _ _ H) | split; [rewrite (variant_sq _ _ H); exact T2|]].
    split.
    - destruct H as [|a b s' n' Hab _]; [exact I|]. exact (char_good_edge a b Hab T3).
    - apply Forall2_rev in H. destruct H as [|a b s' n' Hab _]; [exact I|]. exact (char_good_edge a b Hab T4).
  Qed.

  (* white space / edge characters possibly written as '_' *)
  Definition edge' (c : N) : Prop := is_edge c = true \/ c = c_underscore.
  Definition ws' (c : N) : Prop := is_ws c = true \/ c = c_underscore.

  Lemma repl_edge' E : Forall edge' E -> Forall (fun c => is_edge c = true) (repl_us E).
  Proof.
    induction 1 as [|c r Hc _ IH]; [constructor|]. unfold repl_us in *. cbn [map]. constructor; [|exact IH].
    destruct (N.eqb_spec c c_underscore) as [->|Hne]; [apply edge_space|]. destruct Hc; [assumption|contradiction].
  Qed.

  Lemma repl_ws' E : Forall ws' E -> Forall (fun c => is_ws c = true) (repl_us E).
  Proof.
    induction 1 as [|c r Hc _ IH]; [constructor|]. unfold repl_us in *. cbn [map]. constructor; [|exact IH].
    destruct (N.eqb_spec c c_underscore) as [->|Hne]; [apply ws_space|]. destruct Hc; [assumption|contradiction].
  Qed.

  Lemma ws_is_edge w : Forall (fun c => is_ws c = true) w -> Forall (fun c => is_edge c = true) w.
  Proof. apply Forall_impl. intros c H. unfold Model.is_edge. rewrite H. reflexivity. Qed.

  Lemma ends_ok_hd32 s : ends_ok is_edge s -> hd32 s = false.
  Proof.
    intros [H _]. destruct s as [|h r]; [reflexivity|]. cbn. apply N.eqb_neq. intros ->. rewrite edge_space in H. discriminate.
  Qed.

  Lemma ends_ok_last32 s : ends_ok is_edge s -> last32 s = false.
  Proof.
    intros [_ H]. unfold last32. destruct (rev s) as [|h r]; [reflexivity|]. apply N.eqb_neq. intros ->. rewrite edge_space in H. discriminate.
  Qed.

  (* the page part: edge* <remainder> edge*  normalises to the remainder *)
  Lemma tail_norm E3 zp E4 p : Forall (fun c => is_edge c = true) E3 -> Forall (fun c => is_edge c = true) E4 ->
    squeeze zp = p -> tidy p ->
    let U := squeeze (rstrip is_edge (E3 ++ zp ++ E4)) in strip_edges U = p /\ last_ok is_edge U.
  Proof.
    intros H3 H4 Ez [_ [_ Hp]]. assert (Hz : ends_ok is_edge zp) by (apply squeeze_ends_ok; rewrite Ez; exact Hp). cbn zeta.
    destruct (snoc_cases zp) as [->|[a [l ->]]].
    - cbn [app]. rewrite rstrip_all by (apply Forall_app; split; assumption). cbn in Ez. subst p. split; [reflexivity | exact I].
    - assert (Hl : is_edge l = false).
      { destruct Hz as [_ Hz]. rewrite rev_app_distr in Hz. exact Hz. }
      replace (E3 ++ (a ++ [l]) ++ E4) with ((E3 ++ a) ++ l :: E4) by (rewrite <- !app_assoc; reflexivity).
      rewrite rstrip_mid by exact Hl. rewrite rstrip_all by exact H4.
      replace ((E3 ++ a) ++ [l]) with (E3 ++ (a ++ [l])) by (rewrite <- !app_assoc; reflexivity).
      rewrite squeeze_app by (rewrite (ends_ok_hd32 _ Hz); apply andb_false_r). rewrite Ez.
      split.
      + apply strip_prefixed; [apply squeeze_subseq_Forall; exact H3 | exact Hp].
      + destruct Hp as [_ Hp]. destruct p as [|p0 p'].
        * apply squeeze_nil_inv in Ez. destruct a; discriminate.
        * apply last_ok_app; [discriminate | exact Hp].
  Qed.

  Definition lead (C : option str) : str := match C with None => [] | Some E2 => c_colon :: E2 end.

  (* the body  <name> ws* ":" <tail>  after squeezing *)
  Lemma body_norm z s Wr T' : squeeze z = s -> tidy s -> s <> [] -> Forall (fun c => is_ws c = true) Wr ->
    last_ok is_edge (squeeze T') ->
    squeeze (z ++ Wr ++ c_colon :: T') = s ++ squeeze Wr ++ c_colon :: squeeze T' /\
    ends_ok is_edge (s ++ squeeze Wr ++ c_colon :: squeeze T').
  Proof.
    intros Ez [_ [_ Hs]] Hne HW HT. assert (Hz : ends_ok is_edge z) by (apply squeeze_ends_ok; rewrite Ez; exact Hs). split.
    - rewrite squeeze_app by (rewrite (ends_ok_last32 _ Hz); reflexivity). rewrite Ez.
      rewrite squeeze_app by (cbn [hd32]; apply andb_false_r). cbn [squeeze]. cbn. reflexivity.
    - destruct s as [|s0 s']; [congruence|]. split; [exact (proj1 Hs)|].
      change (last_ok is_edge ((s0 :: s') ++ squeeze Wr ++ c_colon :: squeeze T')).
      apply last_ok_app; [destruct (squeeze Wr); discriminate|]. apply last_ok_app; [discriminate|].
      destruct (squeeze T') as [|u0 u'] eqn:EU.
      + unfold last_ok. cbn. apply edge_colon.
      + change (c_colon :: u0 :: u') with ([c_colon] ++ u0 :: u'). apply last_ok_app; [discriminate | exact HT].
  Qed.

  Lemma cap_app cap s x : s <> [] -> maybe_capitalize cap (s ++ x) = maybe_capitalize cap s ++ x.
  Proof. intros H. destruct cap; [|reflexivity]. destruct s; [congruence|]. cbn. rewrite <- app_assoc. reflexivity. Qed.

  Lemma name_ok_props letter keys st k n s : (forall b, letter b = true -> cand_ok b = true) ->
    name_ok letter keys st k n = true -> n <> [] -> cv s n ->
    tidy n /\ ends_ok is_ws (lower_flat n) /\ Forall2 char_good s n /\
    exists L, star_of st k = Some L /\ lookup keys st (lower_flat n) 0%Z = Ok (true, k, L).
  Proof.
    intros Hl Hok Hne Hcv. unfold name_ok in Hok. destruct n as [|n0 n']; [congruence|].
    apply andb_true_iff in Hok as [Hok Hch]. apply andb_true_iff in Hok as [Htn Hlk]. apply tidyb_spec in Htn.
    split; [exact Htn|]. split; [|split; [exact (cv_good _ _ _ Hl Hcv Hch)|]].
    { apply lower_flat_ends; [|exact (ends_ok_weaken _ _ _ edge_false_ws (proj2 (proj2 Htn)))].
      rewrite forallb_forall in Hch. intros b Hb. apply Hch, Hl in Hb. apply andb_true_iff in Hb as [_ Hb]. exact Hb. }
    destruct (star_of st k) as [L|]; [|discriminate]. exists L. split; [reflexivity | apply res_is_spec; exact Hlk].
  Qed.

  Lemma cv_tidy letter keys st k n s : (forall b, letter b = true -> cand_ok b = true) ->
    name_ok letter keys st k n = true -> n <> [] -> cv s n -> tidy s.
  Proof using ws_space.
    intros Hl Hok Hne Hcv. destruct (name_ok_props _ _ _ _ _ _ Hl Hok Hne Hcv) as [Htn [_ [HF _]]].
    exact (variant_tidy _ _ HF Htn).
  Qed.

  (* capitalising a variant keeps what the lookup needs of it *)
  Lemma cap_variant cap s n : Forall2 char_good s n -> tidy s ->
    ~ In c_colon (maybe_capitalize cap s) /\ ~ In c_Sigma (maybe_capitalize cap s) /\
    lower_flat (maybe_capitalize cap s) = lower_flat n.
  Proof.
    intros HF Hts. destruct (variant_lower _ _ HF) as [Hlow [HnS HnC]].
    destruct cap; cbn [Model.maybe_capitalize]; [|split; [exact HnC | split; [exact HnS | exact Hlow]]].
    destruct HF as [|a0 n0 s' n' Hab0 HF']; [split; [exact HnC | split; [exact HnS | exact Hlow]]|].
    destruct (variant_lower _ _ HF') as [Hlow' [HnS' HnC']].
    destruct (upper_plain a0 (tidy_head_plain _ _ Hts)) as [_ Hall]. rewrite Forall_forall in Hall. split; [|split].
    - intros X. apply in_app_or in X as [X|X]; [|exact (HnC' X)].
      exact (cg_not_colon _ _ Hab0 (proj2 (Hall _ X) eq_refl)).
    - intros X. apply in_app_or in X as [X|X]; [exact (cg_upper_not_Sigma _ _ Hab0 X) | exact (HnS' X)].
    - rewrite lower_flat_app. cbn [lower_flat flat_map]. fold (lower_flat n').
      rewrite (cg_upper_lower _ _ Hab0), Hlow'. reflexivity.
  Qed.

  (* the namespace lookup on a case variant of an admissible name, followed by white space *)
  Lemma lookup_variant letter st k L n s W2 d : (forall b, letter b = true -> cand_ok b = true) ->
    name_ok letter (site_keys st) st k n = true -> n <> [] -> star_of st k = Some L -> cv s n ->
    Forall (fun c => is_ws c = true) W2 ->
    ~ In c_colon (maybe_capitalize (s_capitalize st) s ++ W2) /\
    find_namespace st (maybe_capitalize (s_capitalize st) s ++ W2) d = Ok (true, k, L).
  Proof.
    intros Hl Hok Hne HL Hcv HW.
    destruct (name_ok_props _ _ _ _ _ _ Hl Hok Hne Hcv) as [Htn [Hwe [HF [L' [HL' Hlk]]]]].
    assert (L' = L) by congruence. subst L'. clear HL'.
    destruct (cap_variant (s_capitalize st) s n HF (variant_tidy _ _ HF Htn)) as [C1 [C2 C3]].
    assert (Hws : forall c, In c W2 -> is_ws c = true) by (apply Forall_forall; exact HW).
    split.
    - intros X. apply in_app_or in X as [X|X]; [exact (C1 X)|]. apply Hws in X. rewrite ws_colon in X. discriminate.
    - rewrite find_namespace_key, lower_flat_eq.
      + rewrite lower_flat_app, C3, (lower_flat_ws _ HW). unfold Model.py_strip. rewrite (strip_suffixed _ _ _ HW Hwe).
        exact (lookup_found _ _ _ _ _ _ Hlk d).
      + intros X. apply in_app_or in X as [X|X]; [exact (C2 X)|]. apply Hws in X. rewrite ws_Sigma in X. discriminate.
  Qed.

  Fixpoint nodupb (l : list Z) : bool :=
    match l with [] => true | x :: r => negb (existsb (Z.eqb x) r) && nodupb r end.

  Lemma nodupb_find (l : list ns_entry) e : nodupb (map ns_id l) = true -> In e l ->
    find (fun x => Z.eqb (ns_id x) (ns_id e)) l = Some e.
  Proof.
    induction l as [|x l IH]; intros Hn Hin; [contradiction|].
    cbn in Hn. apply andb_true_iff in Hn as [Hn1 Hn2]. cbn [find].
    destruct Hin as [->|Hin]; [rewrite Z.eqb_refl; reflexivity|].
    destruct (Z.eqb_spec (ns_id x) (ns_id e)) as [Heq|Hne]; [|exact (IH Hn2 Hin)].
    exfalso. apply negb_true_iff in Hn1. assert (X : existsb (Z.eqb (ns_id x)) (map ns_id l) = true).
    { apply existsb_exists. exists (ns_id e). split; [apply in_map; exact Hin | apply Z.eqb_eq; exact Heq]. }
    congruence.
  Qed.

  Definition site_ok (st : site) : bool :=
    nodupb (map ns_id (s_namespaces st))
    && forallb (fun e => match ns_star e, canon_or_empty e with [], _ :: _ => false | _, _ => true end) (s_namespaces st)
    && forallb (fun a => match star_of st (fst a) with Some (_ :: _) => true | _ => false end) (s_aliases st).

  Lemma cv_refl n : cv n n.
  Proof. induction n; constructor; [left; reflexivity | assumption]. Qed.

  Lemma site_ok_good letter st : (forall b, letter b = true -> cand_ok b = true) ->
    site_ok st = true -> site_names_ok letter st = true -> site_good st.
  Proof using ws_space ws_colon upper_plain lower_ws_id ws_Sigma.
    intros Hl Hs Hn. unfold site_ok in Hs. apply andb_true_iff in Hs as [Hs Hal]. apply andb_true_iff in Hs as [Hid Hun].
    rewrite forallb_forall in Hal, Hun.
    assert (Hids : forall e, In e (s_namespaces st) -> star_of st (ns_id e) = Some (ns_star e)).
    { intros e Hin. unfold star_of. rewrite (nodupb_find _ e Hid Hin). reflexivity. }
    split.
    - exact Hids.
    - intros e Hin E. specialize (Hun e Hin). rewrite E in Hun. destruct (canon_or_empty e); [reflexivity | discriminate].
    - intros e Hin Hne.
      assert (Hnm : In (ns_star e) (names_of st (ns_id e))).
      { apply in_or_app. left. apply in_flat_map. exists e. rewrite Z.eqb_refl. split; [exact Hin | left; reflexivity]. }
      pose proof (names_of_ok letter st _ _ Hn Hnm) as Hok.
      destruct (name_ok_props _ _ _ _ _ _ Hl Hok Hne (cv_refl _)) as [Ht [_ [HF _]]].
      split; [exact Ht|]. split; [exact (proj2 (proj2 (variant_lower _ _ HF)))|]. intros d.
      destruct (lookup_variant letter st _ _ _ _ [] d Hl Hok Hne (Hids e Hin) (cv_refl _) (Forall_nil _)) as [_ Hf].
      rewrite app_nil_r in Hf. exact Hf.
    - intros a Hin. specialize (Hal a Hin). destruct (star_of st (fst a)) as [[|c r]|]; try discriminate. exists c, r. reflexivity.
  Qed.

  (* the constructive reading of "underscores or runs of spaces": y spells x when every space of x is written as a
     non-empty run of ' ' / '_' and every other character is kept *)
  Inductive expands : str -> str -> Prop :=
  | ex_nil : expands [] []
  | ex_char c a b : c <> c_space -> c <> c_underscore -> expands a b -> expands (c :: a) (c :: b)
  | ex_space a b run : run <> [] -> Forall (fun x => x = c_space \/ x = c_underscore) run -> expands a b ->
      expands (c_space :: a) (run ++ b).

  Lemma expands_squeeze x y : expands x y -> sq x = true -> squeeze (repl_us y) = x.
  Proof.
    induction 1 as [|c a b Hc1 Hc2 _ IH|a b run Hne Hall _ IH]; intros Hsq; [reflexivity| |].
    - cbn [sq] in Hsq. apply andb_true_iff in Hsq as [_ Hsq]. specialize (IH Hsq).
      unfold repl_us in *. cbn [map]. apply N.eqb_neq in Hc2. rewrite Hc2. cbn [squeeze]. apply N.eqb_neq in Hc1. rewrite Hc1. cbn.
      rewrite IH. reflexivity.
    - cbn [sq] in Hsq. apply andb_true_iff in Hsq as [Hh Hsq]. specialize (IH Hsq).
      rewrite repl_us_app. rewrite squeeze_spaces.
      + rewrite IH. reflexivity.
      + destruct run; [congruence | discriminate].
      + unfold repl_us. apply Forall_forall. intros x Hx. apply in_map_iff in Hx as [y0 [<- Hy]].
        rewrite Forall_forall in Hall. destruct (Hall _ Hy) as [->| ->]; reflexivity.
      + rewrite <- (squeeze_hd32 (repl_us b)), IH. rewrite N.eqb_refl in Hh. cbn in Hh. apply negb_true_iff in Hh. exact Hh.
  Qed.

  (* the preprocessing of a prefixed title: edge* [":" edge*] <spelling of s> ws* ":" edge* <spelling of p> edge*;
     U is the page part, still with white space to the left *)
  Lemma pre_name_prefixed st s NS' W p P' E1 C E3 E4 dns :
    tidy s -> s <> [] -> head_not_colon s -> squeeze (repl_us NS') = s ->
    Forall ws' W -> Forall edge' E1 -> Forall edge' (match C with Some E2 => E2 | None => [] end) ->
    Forall edge' E3 -> Forall edge' E4 -> tidy p -> squeeze (repl_us P') = p ->
    exists U, strip_edges U = p /\
      pre_name st (E1 ++ lead C ++ NS' ++ W ++ c_colon :: E3 ++ P' ++ E4) dns
      = (maybe_capitalize (s_capitalize st) (s ++ squeeze (repl_us W) ++ c_colon :: U),
         match C with Some _ => 0%Z | None => dns end).
  Proof.
    intros Hts Hsne Hsh Ez HW HE1 HC HE3 HE4 Htp Ezp.
    set (z := repl_us NS') in *. set (zp := repl_us P') in *.
    pose proof (repl_ws' _ HW) as HWr. pose proof (repl_edge' _ HE1) as HE1r. pose proof (repl_edge' _ HE3) as HE3r.
    pose proof (repl_edge' _ HE4) as HE4r. pose proof (repl_edge' _ HC) as HCr.
    set (Wr := repl_us W) in *. set (E1r := repl_us E1) in *. set (E3r := repl_us E3) in *. set (E4r := repl_us E4) in *.
    set (T := E3r ++ zp ++ E4r). set (T' := rstrip is_edge T).
    destruct (tail_norm E3r zp E4r p HE3r HE4r Ezp Htp) as [HU HUl]. fold T in HU, HUl. fold T' in HU, HUl.
    destruct (body_norm z s Wr T' Ez Hts Hsne HWr HUl) as [HB1 HB2].
    set (X := s ++ squeeze Wr ++ c_colon :: squeeze T') in *.
    assert (Hz : ends_ok is_edge z) by (apply squeeze_ends_ok; rewrite Ez; apply Hts).
    assert (Hzne : z <> []) by (intros Hz0; rewrite Hz0 in Ez; cbn in Ez; congruence).
    assert (HXh : head_not_colon X) by (destruct s; [congruence | exact Hsh]).
    exists (squeeze T'). split; [exact HU|]. fold X. unfold pre_name.
    assert (Hrepl : repl_us (E1 ++ lead C ++ NS' ++ W ++ c_colon :: E3 ++ P' ++ E4)
                    = E1r ++ repl_us (lead C) ++ z ++ Wr ++ c_colon :: T).
    { rewrite !repl_us_app. unfold repl_us at 5. cbn [map]. fold (repl_us (E3 ++ P' ++ E4)). rewrite !repl_us_app. reflexivity. }
    rewrite Hrepl. destruct C as [E2|]; cbn [lead].
    - change (repl_us (c_colon :: E2)) with (c_colon :: repl_us E2). cbn [app]. set (E2r := repl_us E2) in *.
      assert (Hstrip : strip_edges (E1r ++ c_colon :: E2r ++ z ++ Wr ++ c_colon :: T) = c_colon :: E2r ++ z ++ Wr ++ c_colon :: T').
      { unfold Model.strip_edges. rewrite strip_lead by (exact HE1r || apply edge_colon).
        rewrite !app_assoc, rstrip_mid by apply edge_colon. reflexivity. }
      rewrite Hstrip, squeeze_cons_nonspace by discriminate.
      rewrite squeeze_app by (rewrite hd32_app_ne by exact Hzne; rewrite (ends_ok_hd32 _ Hz); apply andb_false_r).
      rewrite HB1. fold X. cbn [length]. rewrite drop_colons_colon.
      unfold Model.strip_edges. rewrite strip_prefixed by (try apply squeeze_subseq_Forall; assumption).
      rewrite drop_colons_id by exact HXh. reflexivity.
    - cbn [repl_us map app].
      assert (Hstrip : strip_edges (E1r ++ z ++ Wr ++ c_colon :: T) = z ++ Wr ++ c_colon :: T').
      { unfold Model.strip_edges. destruct z as [|z0 z']; [congruence|]. cbn [app].
        rewrite strip_lead by (exact HE1r || exact (proj1 Hz)). rewrite !app_assoc, rstrip_mid by apply edge_colon. reflexivity. }
      rewrite Hstrip, HB1. fold X. rewrite drop_colons_id by exact HXh. reflexivity.
  Qed.

  (* the preprocessing of a decorated title: edge* [":" edge*] <spelling of p> edge* *)
  Lemma pre_name_decorated st p P' E1 C E4 dns :
    Forall edge' E1 -> Forall edge' (match C with Some E2 => E2 | None => [] end) -> Forall edge' E4 ->
    tidy p -> head_not_colon p -> squeeze (repl_us P') = p ->
    pre_name st (E1 ++ lead C ++ P' ++ E4) dns
    = (maybe_capitalize (s_capitalize st) p, match C with Some _ => 0%Z | None => dns end).
  Proof.
    intros HE1 HC HE4 Htp Hph Ezp.
    pose proof (repl_edge' _ HE1) as HE1r. pose proof (repl_edge' _ HE4) as HE4r. pose proof (repl_edge' _ HC) as HCr.
    set (zp := repl_us P') in *. set (E1r := repl_us E1) in *. set (E4r := repl_us E4) in *.
    assert (Hzp : ends_ok is_edge zp) by (apply squeeze_ends_ok; rewrite Ezp; apply Htp).
    unfold pre_name. rewrite !repl_us_app. fold zp E1r E4r. destruct C as [E2|]; cbn [lead].
    - change (repl_us (c_colon :: E2)) with (c_colon :: repl_us E2). cbn [app]. set (E2r := repl_us E2) in *.
      destruct (tail_norm E2r zp E4r p HCr HE4r Ezp Htp) as [HU HUl].
      assert (Hstrip : strip_edges (E1r ++ c_colon :: E2r ++ zp ++ E4r) = c_colon :: rstrip is_edge (E2r ++ zp ++ E4r)).
      { apply strip_lead; [exact HE1r | apply edge_colon]. }
      rewrite Hstrip, squeeze_cons_nonspace by discriminate. cbn [length].
      rewrite drop_colons_colon, HU, drop_colons_id by exact Hph. reflexivity.
    - change (repl_us []) with (@nil N). cbn [app].
      assert (Hstrip : strip_edges (E1r ++ zp ++ E4r) = zp).
      { apply strip_padded; assumption. }
      rewrite Hstrip, Ezp. rewrite drop_colons_id by exact Hph. reflexivity.
  Qed.

  Theorem splitname_spelling letter st k L n s NS' W p P' E1 C E3 E4 dns :
    (forall b, letter b = true -> cand_ok b = true) ->
    site_names_ok letter st = true -> In n (names_of st k) -> n <> [] -> star_of st k = Some L ->
    cv s n -> expands s NS' ->
    Forall ws' W -> Forall edge' E1 -> Forall edge' (match C with Some E2 => E2 | None => [] end) -> Forall edge' E3 -> Forall edge' E4 ->
    tidy p -> expands p P' ->
    splitname st (E1 ++ lead C ++ NS' ++ W ++ c_colon :: E3 ++ P' ++ E4) dns
    = Ok (k, maybe_capitalize (s_capitalize st) p, prefix_of L ++ maybe_capitalize (s_capitalize st) p).
  Proof using ws_space ws_colon upper_plain lower_ws_id ws_Sigma.
    intros Hl Hsite Hin Hne HL Hcv Hes HW HE1 HC HE3 HE4 Htp Hep.
    pose proof (names_of_ok letter st k n Hsite Hin) as Hok.
    pose proof (cv_tidy _ _ _ _ _ _ Hl Hok Hne Hcv) as Hts.
    assert (Hsne : s <> []) by (intros ->; inversion Hcv; subst; congruence).
    assert (Hsh : head_not_colon s).
    { destruct (name_ok_props _ _ _ _ _ _ Hl Hok Hne Hcv) as [_ [_ [HF _]]]. destruct (variant_lower _ _ HF) as [_ [_ HnC]].
      destruct s as [|s0 s']; [exact I|]. cbn. intros ->. apply HnC. left. reflexivity. }
    destruct (pre_name_prefixed st s NS' W p P' E1 C E3 E4 dns Hts Hsne Hsh (expands_squeeze s NS' Hes (proj1 (proj2 Hts)))
                HW HE1 HC HE3 HE4 Htp (expands_squeeze p P' Hep (proj1 (proj2 Htp)))) as [U [HU Hpre]].
    rewrite splitname_core, Hpre. cbn [fst snd]. rewrite cap_app by exact Hsne. rewrite app_assoc.
    assert (HW2 : Forall (fun c => is_ws c = true) (squeeze (repl_us W))) by (apply squeeze_subseq_Forall, repl_ws'; exact HW).
    destruct (lookup_variant letter st k L n s _ (match C with Some _ => 0%Z | None => dns end) Hl Hok Hne HL Hcv HW2) as [Hnc Hfind].
    unfold core. rewrite split1_app by exact Hnc. rewrite Hfind, finish_eq, HU. reflexivity.
  Qed.

  (* titles whose text before the first colon is NOT a name of the site (for instance a namespace name that only another
     wiki defines: "Portal:x" on a wiki without portal namespace): the whole text is an ordinary page name of the default
     namespace (the main namespace after a leading colon).  not_a_name: no local name, canonical name or alias of the
     site equals the prefix the way _find_namespace compares (lower-cased, stripped). *)
  Definition not_a_name (st : site) (a : str) : Prop :=
    let key := py_strip (lower a) in
    find (fun e => str_eqb (lower (ns_star e)) key || str_eqb (lower (canon_or_empty e)) key) (s_namespaces st) = None /\
    find (fun al => str_eqb (lower (snd al)) key) (s_aliases st) = None.

  Lemma find_namespace_not_a_name st a d Ld : not_a_name st a -> star_of st d = Some Ld ->
    find_namespace st a d = Ok (false, d, Ld).
  Proof. intros [H1 H2] HL. unfold Model.find_namespace. rewrite H1, H2, HL. reflexivity. Qed.

  (* a decorated title p whose text before the first colon, if there is a colon, is not a name of the site lands in the
     default namespace (the main namespace after a leading colon) *)
  Theorem splitname_spelling_default st p P' E1 C E4 dns d Ld :
    Forall edge' E1 -> Forall edge' (match C with Some E2 => E2 | None => [] end) -> Forall edge' E4 ->
    tidy p -> head_not_colon p -> expands p P' ->
    d = (match C with Some _ => 0%Z | None => dns end) -> star_of st d = Some Ld ->
    (forall a b, split1 c_colon (maybe_capitalize (s_capitalize st) p) = Some (a, b) -> not_a_name st a) ->
    splitname st (E1 ++ lead C ++ P' ++ E4) dns
    = Ok (d, maybe_capitalize (s_capitalize st) p, prefix_of Ld ++ maybe_capitalize (s_capitalize st) p).
  Proof using ws_space ws_colon upper_plain upper_head_fixed.
    intros HE1 HC HE4 Htp Hph Hep -> HLd Hnot. pose proof (expands_squeeze p P' Hep (proj1 (proj2 Htp))) as Ezp.
    rewrite splitname_core, (pre_name_decorated st p P' E1 C E4 dns HE1 HC HE4 Htp Hph Ezp). cbn [fst snd]. unfold core.
    destruct (cap_tidy (s_capitalize st) p Htp) as [_ [Hfix _]]. unfold capfix in Hfix.
    destruct (split1 c_colon _) as [[a b]|].
    - rewrite (find_namespace_not_a_name st a _ Ld (Hnot a b eq_refl) HLd), finish_eq, Hfix. reflexivity.
    - rewrite HLd, finish_eq, Hfix. reflexivity.
  Qed.

  Theorem splitname_spelling_plain st p P' E1 C E4 dns d Ld :
    Forall edge' E1 -> Forall edge' (match C with Some E2 => E2 | None => [] end) -> Forall edge' E4 ->
    tidy p -> ~ In c_colon p -> expands p P' ->
    d = (match C with Some _ => 0%Z | None => dns end) -> star_of st d = Some Ld ->
    splitname st (E1 ++ lead C ++ P' ++ E4) dns
    = Ok (d, maybe_capitalize (s_capitalize st) p, prefix_of Ld ++ maybe_capitalize (s_capitalize st) p).
  Proof using ws_space ws_colon upper_plain upper_head_fixed.
    intros HE1 HC HE4 Htp Hnc Ezp Hd HLd.
    assert (Hph : head_not_colon p) by (destruct p as [|p0 p']; [exact I | cbn; intros ->; apply Hnc; left; reflexivity]).
    apply splitname_spelling_default; try assumption.
    intros a b Hs. rewrite split1_none in Hs by (apply no_colon_cap; assumption). discriminate.
  Qed.

  Theorem splitname_spelling_foreign st p P' E1 C E4 dns d Ld a b :
    Forall edge' E1 -> Forall edge' (match C with Some E2 => E2 | None => [] end) -> Forall edge' E4 ->
    tidy p -> head_not_colon p -> expands p P' ->
    d = (match C with Some _ => 0%Z | None => dns end) -> star_of st d = Some Ld ->
    split1 c_colon (maybe_capitalize (s_capitalize st) p) = Some (a, b) -> not_a_name st a ->
    splitname st (E1 ++ lead C ++ P' ++ E4) dns
    = Ok (d, maybe_capitalize (s_capitalize st) p, prefix_of Ld ++ maybe_capitalize (s_capitalize st) p).
  Proof using ws_space ws_colon upper_plain upper_head_fixed.
    intros HE1 HC HE4 Htp Hph Ezp Hd HLd Hsplit Hnot.
    apply splitname_spelling_default; try assumption.
    intros a' b' Hs. rewrite Hsplit in Hs. injection Hs as <- _. exact Hnot.
  Qed.
End Proofs.
