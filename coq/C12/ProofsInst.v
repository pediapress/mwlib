(* C12 — the obligations of Proofs.v discharged for CPython's tables (Gen_unicode.v) and for the bundled sites
   (Gen_sites.v) by computation over the finite tables; the generic theorems instantiated. *)
From Coq Require Import List NArith ZArith PArith FMapPositive Bool Lia.
From MW Require Import Common.Str C12.Model C12.ListLemmas C12.Proofs C12.Gen_unicode C12.Gen_sites C12.Inst.
Import ListNotations.
Open Scope N_scope.

Lemma pmap_of_find l p u : PositiveMap.find p (pmap_of l) = Some u -> In (p, u) l.
Proof.
  induction l as [|[k v] l IH]; cbn [pmap_of fold_right fst snd].
  - rewrite PositiveMap.gempty. discriminate.
  - destruct (Pos.eq_dec p k) as [->|Hne].
    + rewrite PositiveMap.gss. intros H. inversion H. left. reflexivity.
    + rewrite PositiveMap.gso by exact Hne. intros H. right. exact (IH H).
Qed.

(* what holds of every entry of a table, and of the characters it leaves alone, holds of every looked-up image *)
Lemma table_char_ind l (ok : positive * str -> bool) (P : N -> str -> Prop) :
  forallb ok l = true ->
  (forall c, table_char (pmap_of l) c = [c] -> P c [c]) -> (forall p u, ok (p, u) = true -> P (Npos p) u) ->
  forall c, P c (table_char (pmap_of l) c).
Proof.
  intros Hl Hid Hok c. pose proof (Hid c) as Hc. destruct c as [|p]; [exact (Hc eq_refl)|]. unfold table_char in *.
  destruct (PositiveMap.find p (pmap_of l)) as [u|] eqn:E; [|exact (Hc eq_refl)].
  rewrite forallb_forall in Hl. exact (Hok p u (Hl _ (pmap_of_find _ _ _ E))).
Qed.

Notation pplain := (plain py_is_ws).

Lemma py_ws_space : py_is_ws c_space = true.
Proof. vm_compute. reflexivity. Qed.
Lemma py_ws_colon : py_is_ws c_colon = false.
Proof. vm_compute. reflexivity. Qed.
Lemma py_ws_sigmas : py_is_ws c_fsigma = false /\ py_is_ws c_sigma = false.
Proof. vm_compute. split; reflexivity. Qed.
Lemma py_ws_Sigma : py_is_ws c_Sigma = false.
Proof. vm_compute. reflexivity. Qed.

(* one sweep over the upper-case table: the first character of an image is a fixed point; images of plain characters are
   plain and contain ':' only for ':' *)
Definition upper_entry_ok (e : positive * str) : bool :=
  let c := Npos (fst e) in
  match snd e with [] => false | h :: _ => str_eqb (py_upper_char h) [h] end &&
  (negb (pplain c) || forallb (fun x => pplain x && (negb (N.eqb x c_colon) || N.eqb c c_colon)) (snd e)).

Lemma gen_upper_ok : forallb upper_entry_ok gen_upper = true.
Proof. vm_compute. reflexivity. Qed.

Lemma py_upper_plain : forall c, pplain c = true ->
  py_upper_char c <> [] /\ Forall (fun x => pplain x = true /\ (x = c_colon -> c = c_colon)) (py_upper_char c).
Proof.
  refine (table_char_ind gen_upper upper_entry_ok
            (fun c u => pplain c = true -> u <> [] /\ Forall (fun x => pplain x = true /\ (x = c_colon -> c = c_colon)) u) gen_upper_ok _ _).
  - intros c _ Hc. split; [discriminate|]. constructor; [|constructor]. split; [exact Hc | tauto].
  - intros p u H Hc. unfold upper_entry_ok in H. cbn [fst snd] in H.
    apply andb_true_iff in H as [H1 H2]. rewrite Hc in H2. cbn [negb orb] in H2. split; [destruct u; [discriminate H1 | discriminate]|].
    apply Forall_forall. intros x Hx. rewrite forallb_forall in H2. specialize (H2 x Hx). apply andb_true_iff in H2 as [A B].
    split; [exact A|]. intros ->. rewrite N.eqb_refl in B. destruct (N.eqb_spec (Npos p) c_colon) as [e|ne]; [exact e | cbn in B; discriminate B].
Qed.

Lemma py_upper_head_fixed : forall c h r, py_upper_char c = h :: r -> py_upper_char h = [h].
Proof.
  refine (table_char_ind gen_upper upper_entry_ok (fun _ u => forall h r, u = h :: r -> py_upper_char h = [h]) gen_upper_ok _ _).
  - intros c E h r H. injection H as <- _. exact E.
  - intros p u H h r ->. unfold upper_entry_ok in H. cbn [snd] in H.
    apply andb_true_iff in H as [H _]. apply str_eqb_spec in H. exact H.
Qed.

Definition lower_entry_ok (e : positive * str) : bool :=
  negb (py_is_ws (Npos (fst e))) &&
  match snd e with [] => false | h :: _ => negb (py_is_ws h) end.

Lemma gen_lower_ok : forallb lower_entry_ok gen_lower = true.
Proof. vm_compute. reflexivity. Qed.

Lemma py_lower_head_nonws : forall c, py_is_ws c = false ->
  match py_lower_char c with h :: _ => py_is_ws h = false | [] => False end.
Proof.
  refine (table_char_ind gen_lower lower_entry_ok
            (fun c u => py_is_ws c = false -> match u with h :: _ => py_is_ws h = false | [] => False end) gen_lower_ok _ _).
  - intros c _ Hc. exact Hc.
  - intros p u H _. unfold lower_entry_ok in H. cbn [fst snd] in H.
    apply andb_true_iff in H as [_ H]. destruct u; [discriminate|]. apply negb_true_iff in H. exact H.
Qed.

Lemma py_lower_ws_id : forall c, py_is_ws c = true -> py_lower_char c = [c].
Proof.
  refine (table_char_ind gen_lower lower_entry_ok (fun c u => py_is_ws c = true -> u = [c]) gen_lower_ok _ _).
  - reflexivity.
  - intros p u H Hc. unfold lower_entry_ok in H. cbn [fst snd] in H.
    apply andb_true_iff in H as [H _]. rewrite Hc in H. discriminate.
Qed.

Notation pcand_ok := (cand_ok py_is_ws py_upper_char py_lower_char).

Definition site_names (st : site) : list str :=
  map ns_star (s_namespaces st) ++ map canon_or_empty (s_namespaces st) ++ map snd (s_aliases st).
Definition letters : PositiveMap.t unit :=
  fold_right (fun c m => match c with Npos p => PositiveMap.add p tt m | N0 => m end) (PositiveMap.empty unit)
             (concat (flat_map (fun p => site_names (snd p)) all_sites)).
Definition py_letter (c : N) : bool :=
  match c with Npos p => match PositiveMap.find p letters with Some _ => true | None => false end | N0 => false end.

Lemma letters_ok : forallb (fun e => pcand_ok (Npos (fst e))) (PositiveMap.elements letters) = true.
Proof. vm_compute. reflexivity. Qed.

Lemma py_letter_ok b : py_letter b = true -> pcand_ok b = true.
Proof.
  destruct b as [|p]; [discriminate|]. unfold py_letter. destruct (PositiveMap.find p letters) as [u|] eqn:E; [|discriminate].
  intros _. pose proof letters_ok as H. rewrite forallb_forall in H. exact (H _ (PositiveMap.elements_correct _ _ E)).
Qed.

Notation psite_names_ok := (site_names_ok py_is_ws py_lower_char py_cased py_ignorable py_letter).
Notation psite_good := (site_good py_is_ws py_upper_char py_lower_char py_cased py_ignorable).

Lemma all_sites_ok : forallb (fun p => site_ok (snd p) && psite_names_ok (snd p)) all_sites = true.
Proof. vm_compute. reflexivity. Qed.

Lemma site_in_ok nm st : In (nm, st) all_sites -> psite_good st /\ psite_names_ok st = true.
Proof.
  intros H. pose proof all_sites_ok as A. rewrite forallb_forall in A. specialize (A _ H). cbn [snd] in A.
  apply andb_true_iff in A as [A B]. split; [|exact B].
  exact (site_ok_good py_is_ws py_upper_char py_lower_char py_cased py_ignorable py_ws_space py_ws_colon py_upper_plain
           py_lower_ws_id py_ws_Sigma py_letter st py_letter_ok A B).
Qed.

Lemma site_by_name_in nm st : site_by_name nm = Some st -> In (nm, st) all_sites.
Proof.
  unfold site_by_name. destruct (find _ all_sites) as [[n s]|] eqn:F; [|discriminate]. intros E. injection E as <-.
  apply find_some in F as [I E]. apply str_eqb_spec in E. cbn [fst] in E. subst n. exact I.
Qed.

Notation pcap := (maybe_capitalize py_upper_char).

Notation ptidy := (tidy py_is_ws).
Notation pcv := (cv py_upper_char py_lower_char).
Notation pedge' := (edge' py_is_ws).
Notation pws' := (ws' py_is_ws).

Lemma py_spelling nm st k L n s NS' W p P' E1 C E3 E4 dns :
  In (nm, st) all_sites -> In n (names_of st k) -> n <> [] -> star_of st k = Some L ->
  pcv s n -> expands s NS' ->
  Forall pws' W -> Forall pedge' E1 -> Forall pedge' (match C with Some E2 => E2 | None => [] end) -> Forall pedge' E3 -> Forall pedge' E4 ->
  ptidy p -> expands p P' ->
  py_splitname st (E1 ++ lead C ++ NS' ++ W ++ c_colon :: E3 ++ P' ++ E4) dns
  = Ok (k, pcap (s_capitalize st) p, prefix_of L ++ pcap (s_capitalize st) p).
Proof.
  intros Hin Hn Hne HL Hcv Hex HW H1 HC H3 H4 Hp Hexp. destruct (site_in_ok _ _ Hin) as [_ Hs].
  exact (splitname_spelling py_is_ws py_upper_char py_lower_char py_cased py_ignorable
           py_ws_space py_ws_colon py_upper_plain py_lower_ws_id py_ws_Sigma
           py_letter st k L n s NS' W p P' E1 C E3 E4 dns py_letter_ok Hs Hn Hne HL Hcv Hex
           HW H1 HC H3 H4 Hp Hexp).
Qed.

Lemma py_spelling_plain nm st p P' E1 C E4 dns d Ld :
  In (nm, st) all_sites ->
  Forall pedge' E1 -> Forall pedge' (match C with Some E2 => E2 | None => [] end) -> Forall pedge' E4 ->
  ptidy p -> ~ In c_colon p -> expands p P' ->
  d = (match C with Some _ => 0%Z | None => dns end) -> star_of st d = Some Ld ->
  py_splitname st (E1 ++ lead C ++ P' ++ E4) dns
  = Ok (d, pcap (s_capitalize st) p, prefix_of Ld ++ pcap (s_capitalize st) p).
Proof.
  intros Hin H1 HC H4 Hp Hnc Hexp Hd HLd.
  exact (splitname_spelling_plain py_is_ws py_upper_char py_lower_char py_cased py_ignorable
           py_ws_space py_ws_colon py_upper_plain py_upper_head_fixed
           st p P' E1 C E4 dns d Ld H1 HC H4 Hp Hnc Hexp Hd HLd).
Qed.

Lemma py_get_fqname_split st t dns F : py_get_fqname st t dns = Ok F -> exists k P, py_splitname st t dns = Ok (k, P, F).
Proof.
  intros H. unfold py_get_fqname, get_fqname in H. fold (py_splitname st t dns) in H.
  destruct (py_splitname st t dns) as [[[k P] F']|] eqn:E; [|discriminate].
  inversion H; subst. exists k, P. reflexivity.
Qed.

Lemma py_splitname_fq st t dns k P F : py_splitname st t dns = Ok (k, P, F) -> py_get_fqname st t dns = Ok F.
Proof. intros H. unfold py_get_fqname, get_fqname. fold (py_splitname st t dns). rewrite H. reflexivity. Qed.
