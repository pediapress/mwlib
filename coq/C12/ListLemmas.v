(* C12 — lemmas about the string primitives of Model.v (strip, squeeze, replace, split), and at the end a few facts about
   lists (Forall2, find, existsb) that C14 uses as well. *)
From Coq Require Import List NArith ZArith Bool Lia.
From MW Require Import Common.Str C12.Model.
Import ListNotations.
Open Scope N_scope.

(* the first character, if any, is kept by p-stripping *)
Definition first_ok (p : N -> bool) (s : str) : Prop := match s with [] => True | h :: _ => p h = false end.

Lemma lstrip_app_all p e x : Forall (fun c => p c = true) e -> lstrip p (e ++ x) = lstrip p x.
Proof. induction 1 as [|c e Hc _ IH]; cbn; [reflexivity|]. rewrite Hc. exact IH. Qed.

Lemma lstrip_stop p c r : p c = false -> lstrip p (c :: r) = c :: r.
Proof. intros H. cbn. rewrite H. reflexivity. Qed.

Lemma lstrip_id p s : first_ok p s -> lstrip p s = s.
Proof. destruct s as [|h r]; [reflexivity | apply lstrip_stop]. Qed.

Lemma lstrip_app_stop p u c v : p c = false -> lstrip p (u ++ c :: v) = lstrip p u ++ c :: v.
Proof.
  intros H. induction u as [|x u IH]; cbn.
  - rewrite H. reflexivity.
  - destruct (p x); [exact IH | reflexivity].
Qed.

Lemma lstrip_suffix p s : exists e, s = e ++ lstrip p s /\ Forall (fun c => p c = true) e.
Proof.
  induction s as [|c r IH]; cbn.
  - exists []. split; [reflexivity | constructor].
  - destruct (p c) eqn:E.
    + destruct IH as [e [H1 H2]]. exists (c :: e). split; [cbn; congruence | constructor; assumption].
    + exists []. split; [reflexivity | constructor].
Qed.

Lemma lstrip_all p e : Forall (fun c => p c = true) e -> lstrip p e = [].
Proof. intros H. rewrite <- (app_nil_r e). rewrite lstrip_app_all by exact H. reflexivity. Qed.

Lemma lstrip_head_false p s : first_ok p (lstrip p s).
Proof. induction s as [|c r IH]; cbn; [exact I|]. destruct (p c) eqn:E; [exact IH | exact E]. Qed.

Lemma rev_nil_inv {A} (s : list A) : rev s = [] -> s = [].
Proof. intros E. apply (f_equal (@rev A)) in E. rewrite rev_involutive in E. exact E. Qed.

(* the same of the last character *)
Definition last_ok (p : N -> bool) (s : str) : Prop := first_ok p (rev s).

Lemma last_ok_app p a b : b <> [] -> last_ok p b -> last_ok p (a ++ b).
Proof.
  unfold last_ok. intros Hb H. rewrite rev_app_distr. destruct (rev b) eqn:E; [|exact H].
  apply rev_nil_inv in E. contradiction.
Qed.

Lemma last_ok_tail p c b : b <> [] -> last_ok p (c :: b) -> last_ok p b.
Proof.
  unfold last_ok. intros Hb H. cbn [rev] in H. destruct (rev b) eqn:E; [|exact H].
  apply rev_nil_inv in E. contradiction.
Qed.

Lemma last_ok_Forall p s : Forall (fun c => p c = false) s -> last_ok p s.
Proof.
  unfold last_ok. intros H. apply Forall_rev in H. destruct (rev s); [exact I|]. inversion H; assumption.
Qed.

(* rstrip = rev . lstrip . rev: a fact about rstrip is the fact about lstrip on the reversed string *)
Lemma rstrip_app_all p x e : Forall (fun c => p c = true) e -> rstrip p (x ++ e) = rstrip p x.
Proof. intros H. unfold rstrip. rewrite rev_app_distr. rewrite lstrip_app_all by (apply Forall_rev; exact H). reflexivity. Qed.

Lemma rstrip_mid p a c b : p c = false -> rstrip p (a ++ c :: b) = a ++ c :: rstrip p b.
Proof.
  intros H. unfold rstrip. rewrite rev_app_distr. cbn [rev]. rewrite <- app_assoc. cbn [app].
  rewrite lstrip_app_stop by exact H. rewrite rev_app_distr. cbn [rev]. rewrite rev_involutive.
  rewrite <- app_assoc. reflexivity.
Qed.

Lemma rstrip_id p s : last_ok p s -> rstrip p s = s.
Proof. intros H. unfold rstrip. rewrite lstrip_id by exact H. apply rev_involutive. Qed.

Lemma rstrip_all p e : Forall (fun c => p c = true) e -> rstrip p e = [].
Proof. intros H. unfold rstrip. rewrite lstrip_all by (apply Forall_rev; exact H). reflexivity. Qed.

Lemma rstrip_nil p : rstrip p [] = [].
Proof. reflexivity. Qed.

Lemma rstrip_prefix p s : exists e, s = rstrip p s ++ e /\ Forall (fun c => p c = true) e.
Proof.
  destruct (lstrip_suffix p (rev s)) as [e [H1 H2]]. exists (rev e). split.
  - unfold rstrip. rewrite <- rev_app_distr, <- H1, rev_involutive. reflexivity.
  - apply Forall_rev. exact H2.
Qed.

Lemma rstrip_last_false p s : last_ok p (rstrip p s).
Proof. unfold last_ok, rstrip. rewrite rev_involutive. apply lstrip_head_false. Qed.

(* a string whose first and last characters are kept by p-stripping *)
Definition ends_ok (p : N -> bool) (s : str) : Prop :=
  match s with [] => True | h :: _ => p h = false end /\ match rev s with [] => True | l :: _ => p l = false end.

Lemma ends_ok_weaken (p q : N -> bool) s : (forall c, p c = false -> q c = false) -> ends_ok p s -> ends_ok q s.
Proof.
  intros H [Hh Hl]. split.
  - destruct s; [exact I | exact (H _ Hh)].
  - destruct (rev s); [exact I | exact (H _ Hl)].
Qed.

Lemma snoc_cases {A} (s : list A) : s = [] \/ exists a l, s = a ++ [l].
Proof. destruct (rev s) as [|l a] eqn:E.
  - left. exact (rev_nil_inv s E).
  - right. exists (rev a), l. apply (f_equal (@rev A)) in E. rewrite rev_involutive in E. exact E.
Qed.

Lemma strip_id p s : ends_ok p s -> strip p s = s.
Proof. intros [H1 H2]. unfold strip. rewrite lstrip_id by exact H1. apply rstrip_id. exact H2. Qed.

Lemma strip_lead p e h m : Forall (fun c => p c = true) e -> p h = false -> strip p (e ++ h :: m) = h :: rstrip p m.
Proof.
  intros He Hh. unfold strip. rewrite lstrip_app_all by exact He. rewrite lstrip_stop by exact Hh.
  exact (rstrip_mid p [] h m Hh).
Qed.

Lemma strip_padded p e1 x e2 : Forall (fun c => p c = true) e1 -> Forall (fun c => p c = true) e2 -> ends_ok p x ->
  strip p (e1 ++ x ++ e2) = x.
Proof.
  intros H1 H2 [Hf Hl]. destruct x as [|h r].
  - unfold strip. rewrite lstrip_app_all by exact H1. cbn [app]. rewrite lstrip_all by exact H2. reflexivity.
  - cbn [app]. rewrite strip_lead by assumption. rewrite rstrip_app_all by exact H2.
    transitivity (rstrip p (h :: r)); [symmetry; exact (rstrip_mid p [] h r Hf) | apply rstrip_id; exact Hl].
Qed.

Lemma strip_prefixed p e x : Forall (fun c => p c = true) e -> ends_ok p x -> strip p (e ++ x) = x.
Proof. intros He Hx. rewrite <- (app_nil_r x) at 1. apply strip_padded; [exact He | constructor | exact Hx]. Qed.

Lemma strip_suffixed p x e : Forall (fun c => p c = true) e -> ends_ok p x -> strip p (x ++ e) = x.
Proof. exact (strip_padded p [] x e (Forall_nil _)). Qed.

Lemma strip_infix p s : exists e1 e2, s = e1 ++ strip p s ++ e2.
Proof.
  unfold strip. destruct (lstrip_suffix p s) as [e1 [H1 _]]. destruct (rstrip_prefix p (lstrip p s)) as [e2 [H2 _]].
  exists e1, e2. rewrite <- H2. exact H1.
Qed.

Lemma strip_length p s : (length (strip p s) <= length s)%nat.
Proof. destruct (strip_infix p s) as [e1 [e2 E]]. rewrite E at 2. rewrite !app_length. lia. Qed.

Lemma strip_ends_ok p s : ends_ok p (strip p s).
Proof.
  unfold strip. split; [|apply rstrip_last_false].
  pose proof (lstrip_head_false p s) as H. destruct (rstrip_prefix p (lstrip p s)) as [e [E He]].
  destruct (rstrip p (lstrip p s)) as [|h r] eqn:R; [exact I|].
  rewrite E in H. cbn in H. exact H.
Qed.

Lemma ends_ok_app p a b : a <> [] -> b <> [] -> ends_ok p a -> ends_ok p b -> ends_ok p (a ++ b).
Proof.
  intros Ha Hb [A1 _] [_ B2]. split.
  - destruct a; [congruence|]. exact A1.
  - exact (last_ok_app p a b Hb B2).
Qed.

Lemma ends_ok_cons_last p c a : p c = false -> last_ok p a -> ends_ok p (c :: a).
Proof.
  intros Hc Ha. split; [exact Hc|]. unfold last_ok in Ha. cbn [rev]. destruct (rev a) as [|l r]; cbn; assumption.
Qed.

Lemma ends_ok_first p s : ends_ok p s -> match s with [] => True | h :: _ => p h = false end.
Proof. intros [H _]. exact H. Qed.
Lemma ends_ok_last p s : ends_ok p s -> last_ok p s.
Proof. intros [_ H]. exact H. Qed.

Lemma last_app_ne {A} (a b : list A) : b <> [] -> forall d, last (a ++ b) d = last b d.
Proof. intros Hb d. induction a as [|x a IH]; [reflexivity|]. cbn [app]. rewrite <- IH.
  destruct (a ++ b) eqn:E; [|reflexivity]. destruct a; cbn in E; [congruence|discriminate]. Qed.

(* hd32 s: s begins with a space.  sq s: s has no two spaces in a row, so that squeeze leaves it as it is (sq_squeeze) *)
Definition hd32 (s : str) : bool := match s with d :: _ => N.eqb d c_space | [] => false end.

Fixpoint sq (s : str) : bool :=
  match s with
  | [] => true
  | c :: r => negb (N.eqb c c_space && hd32 r) && sq r
  end.

(* squeeze keeps the first character (and, by squeeze_rev below, the last) *)
Lemma squeeze_hd s : hd_error (squeeze s) = hd_error s.
Proof.
  induction s as [|c r IH]; [reflexivity|]. cbn [squeeze]. fold (hd32 r).
  destruct (N.eqb c c_space && hd32 r) eqn:E; [|reflexivity].
  apply andb_true_iff in E as [E1 E2]. apply N.eqb_eq in E1. rewrite IH.
  destruct r as [|d r']; [discriminate|]. cbn in E2. apply N.eqb_eq in E2. cbn. congruence.
Qed.

Lemma hd32_hd s z : hd_error s = hd_error z -> hd32 s = hd32 z.
Proof. destruct s, z; cbn; intros E; try discriminate; [reflexivity | injection E as <-; reflexivity]. Qed.

Lemma squeeze_cons_nonspace c r : c <> c_space -> squeeze (c :: r) = c :: squeeze r.
Proof. intros H. cbn [squeeze]. apply N.eqb_neq in H. rewrite H. reflexivity. Qed.

Lemma squeeze_hd32 s : hd32 (squeeze s) = hd32 s.
Proof. apply hd32_hd, squeeze_hd. Qed.

Lemma squeeze_sq s : sq (squeeze s) = true.
Proof.
  induction s as [|c r IH]; [reflexivity|]. cbn [squeeze]. fold (hd32 r).
  destruct (N.eqb c c_space && hd32 r) eqn:E; [exact IH|].
  cbn [sq]. rewrite squeeze_hd32, E, IH. reflexivity.
Qed.

Lemma sq_squeeze s : sq s = true -> squeeze s = s.
Proof.
  induction s as [|c r IH]; [reflexivity|]. cbn [sq squeeze]. fold (hd32 r). intros H.
  apply andb_true_iff in H as [H1 H2]. apply negb_true_iff in H1. rewrite H1, IH by exact H2. reflexivity.
Qed.

Lemma sq_app_inv a b : sq (a ++ b) = true -> sq a = true /\ sq b = true.
Proof.
  induction a as [|c r IH]; cbn [app sq]; [intros H; split; [reflexivity|exact H]|].
  intros H. apply andb_true_iff in H as [H1 H2]. destruct (IH H2) as [Ha Hb]. split; [|exact Hb].
  rewrite Ha, andb_true_r. apply negb_true_iff. apply negb_true_iff in H1.
  destruct (N.eqb c c_space); [|reflexivity]. cbn in *. destruct r; [reflexivity|exact H1].
Qed.

(* last32 s: s ends with a space.  `last32 a && hd32 b = false` is the condition under which squeeze distributes
   over a ++ b *)
Definition last32 (s : str) : bool := match rev s with l :: _ => N.eqb l c_space | [] => false end.

Lemma last32_cons c r : r <> [] -> last32 (c :: r) = last32 r.
Proof.
  intros H. unfold last32. cbn [rev]. destruct (rev r) eqn:E; [|reflexivity].
  apply rev_nil_inv in E. contradiction.
Qed.

Lemma squeeze_app a b : last32 a && hd32 b = false -> squeeze (a ++ b) = squeeze a ++ squeeze b.
Proof.
  induction a as [|c r IH]; [reflexivity|]. intros H.
  destruct r as [|d r'].
  - cbn [app squeeze]. unfold last32 in H. cbn in H. fold (hd32 b). rewrite H. cbn. rewrite andb_false_r. reflexivity.
  - rewrite last32_cons in H by discriminate. specialize (IH H).
    change ((c :: d :: r') ++ b) with (c :: (d :: r') ++ b). cbn [squeeze]. cbn [app]. fold (hd32 (d :: r')). cbn [hd32].
    change (d :: r' ++ b) with ((d :: r') ++ b). rewrite IH.
    destruct (N.eqb c c_space && N.eqb d c_space); reflexivity.
Qed.

Lemma sq_app a b : sq a = true -> sq b = true -> last32 a && hd32 b = false -> sq (a ++ b) = true.
Proof.
  intros Ha Hb H. rewrite <- (sq_squeeze a Ha), <- (sq_squeeze b Hb), <- squeeze_app by exact H. apply squeeze_sq.
Qed.

Lemma squeeze_subseq_Forall (P : N -> Prop) s : Forall P s -> Forall P (squeeze s).
Proof.
  induction 1 as [|c r Hc Hr IH]; [constructor|]. cbn [squeeze].
  destruct (N.eqb c c_space && _); [exact IH | constructor; assumption].
Qed.

Lemma squeeze_nil_inv s : squeeze s = [] -> s = [].
Proof. intros E. pose proof (squeeze_hd s) as H. rewrite E in H. destruct s; [reflexivity | discriminate]. Qed.

Lemma squeeze_rev s : squeeze (rev s) = rev (squeeze s).
Proof.
  induction s as [|c r IH]; [reflexivity|]. cbn [rev].
  destruct (N.eqb c c_space && hd32 r) eqn:E.
  - (* c = 32 and r starts with 32 *)
    cbn [squeeze]. fold (hd32 r). rewrite E. rewrite <- IH.
    apply andb_true_iff in E as [E1 E2]. apply N.eqb_eq in E1. subst c.
    destruct r as [|d r']; [discriminate|]. cbn in E2. apply N.eqb_eq in E2. subst d.
    cbn [rev]. rewrite <- app_assoc. cbn [app].
    (* squeeze (x ++ [32;32]) = squeeze (x ++ [32]) *)
    generalize (rev r') as x. intros x. induction x as [|y x IHx]; [reflexivity|].
    cbn [app squeeze]. rewrite IHx.
    destruct x as [|z x']; [reflexivity|]. reflexivity.
  - rewrite squeeze_app.
    + cbn [squeeze]. fold (hd32 r). rewrite E. cbn [rev]. rewrite IH. cbn. rewrite andb_false_r. reflexivity.
    + unfold last32. rewrite rev_involutive. cbn [hd32]. fold (hd32 r). rewrite andb_comm. exact E.
Qed.

Lemma first_ok_hd (p : N -> bool) s z : hd_error s = hd_error z -> first_ok p s -> first_ok p z.
Proof. destruct s, z; cbn; intros E H; try discriminate; [exact I | injection E as <-; exact H]. Qed.

Lemma squeeze_ends_ok p s : ends_ok p (squeeze s) <-> ends_ok p s.
Proof.
  pose proof (squeeze_hd s) as E1. pose proof (squeeze_hd (rev s)) as E2. rewrite squeeze_rev in E2.
  split; intros [H1 H2]; split.
  - exact (first_ok_hd p _ _ E1 H1).
  - exact (first_ok_hd p _ _ E2 H2).
  - exact (first_ok_hd p _ _ (eq_sym E1) H1).
  - exact (first_ok_hd p _ _ (eq_sym E2) H2).
Qed.

Lemma sq_no_space s : Forall (fun c => c <> c_space) s -> sq s = true.
Proof.
  induction 1 as [|c r Hc _ IH]; [reflexivity|]. cbn [sq]. rewrite IH.
  apply N.eqb_neq in Hc. rewrite Hc. reflexivity.
Qed.

Lemma last32_no_space s : Forall (fun c => c <> c_space) s -> last32 s = false.
Proof.
  intros H. unfold last32. apply Forall_rev in H. destruct (rev s) as [|l r]; [reflexivity|].
  inversion H; subst. apply N.eqb_neq. assumption.
Qed.

Lemma squeeze_spaces run z : run <> [] -> Forall (fun x => x = c_space) run -> hd32 z = false ->
  squeeze (run ++ z) = c_space :: squeeze z.
Proof.
  intros Hne Hall Hz. induction run as [|x run IH]; [congruence|]. inversion Hall; subst.
  destruct run as [|y run'].
  - cbn [app squeeze]. fold (hd32 z). rewrite Hz. cbn. reflexivity.
  - cbn [app squeeze]. inversion H2; subst. cbn [N.eqb c_space Pos.eqb andb].
    change (c_space :: run' ++ z) with ((c_space :: run') ++ z). apply IH; [discriminate | assumption].
Qed.

Lemma repl_us_id s : ~ In c_underscore s -> repl_us s = s.
Proof.
  induction s as [|c r IH]; [reflexivity|]. intros H. unfold repl_us in *. cbn [map].
  rewrite IH by (intros X; apply H; right; exact X).
  destruct (N.eqb_spec c c_underscore) as [->|]; [exfalso; apply H; left; reflexivity | reflexivity].
Qed.

Lemma repl_us_no_us s : ~ In c_underscore (repl_us s).
Proof.
  induction s as [|c r IH]; [intros []|]. unfold repl_us in *. cbn [map]. intros [H|H]; [|exact (IH H)].
  destruct (N.eqb_spec c c_underscore); [discriminate | congruence].
Qed.

Lemma repl_us_app a b : repl_us (a ++ b) = repl_us a ++ repl_us b.
Proof. apply map_app. Qed.

Lemma split1_app c a b : ~ In c a -> split1 c (a ++ c :: b) = Some (a, b).
Proof.
  induction a as [|x a IH]; intros H; cbn.
  - rewrite N.eqb_refl. reflexivity.
  - destruct (N.eqb_spec x c) as [->|]; [exfalso; apply H; left; reflexivity|].
    rewrite IH by (intros X; apply H; right; exact X). reflexivity.
Qed.

Lemma split1_none c s : ~ In c s -> split1 c s = None.
Proof.
  induction s as [|x s IH]; intros H; cbn; [reflexivity|].
  destruct (N.eqb_spec x c) as [->|]; [exfalso; apply H; left; reflexivity|].
  rewrite IH by (intros X; apply H; right; exact X). reflexivity.
Qed.

Lemma split1_some c s a b : split1 c s = Some (a, b) -> s = a ++ c :: b /\ ~ In c a.
Proof.
  revert a. induction s as [|x s IH]; intros a; cbn; [discriminate|].
  destruct (N.eqb_spec x c) as [->|Hne].
  - intros H. inversion H; subst. split; [reflexivity | intros []].
  - destruct (split1 c s) as [[a' b']|] eqn:E; [|discriminate]. intros H. inversion H; subst.
    destruct (IH a' eq_refl) as [H1 H2]. split; [cbn; congruence|]. intros [X|X]; [congruence|exact (H2 X)].
Qed.

Lemma split1_none_inv c s : split1 c s = None -> ~ In c s.
Proof.
  induction s as [|x s IH]; cbn; [intros _ []|].
  destruct (N.eqb_spec x c) as [->|Hne]; [discriminate|].
  destruct (split1 c s) as [[a b]|]; [discriminate|]. intros _ [X|X]; [congruence | exact (IH eq_refl X)].
Qed.

Lemma Forall2_rev {A B} (R : A -> B -> Prop) a b : Forall2 R a b -> Forall2 R (rev a) (rev b).
Proof.
  induction 1 as [|x y a b Hxy _ IH]; [constructor|]. cbn [rev]. apply Forall2_app; [exact IH|].
  constructor; [exact Hxy | constructor].
Qed.

Lemma hd32_app_ne z x : z <> [] -> hd32 (z ++ x) = hd32 z.
Proof. destruct z; [congruence | reflexivity]. Qed.

Lemma find_keyed {A B} (g : A -> B) (p : B -> bool) l :
  find (fun x => p (g x)) l = option_map snd (find (fun t => p (fst t)) (map (fun x => (g x, x)) l)).
Proof. induction l as [|x l IH]; [reflexivity|]. cbn. destruct (p (g x)); [reflexivity | exact IH]. Qed.

Lemma existsb_notin {A} (eqb : A -> A -> bool) x l : (forall y, eqb x y = true -> x = y) -> ~ In x l -> existsb (eqb x) l = false.
Proof.
  intros Heq H. destruct (existsb (eqb x) l) eqn:E; [|reflexivity].
  apply existsb_exists in E as [y [Hy Ey]]. apply Heq in Ey. subst y. contradiction.
Qed.
