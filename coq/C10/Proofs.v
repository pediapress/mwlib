(* C10/Proofs.v — the scanner model tiles its input: the generated rule table meets a few obligations (checked by
   evaluation); under them every action keeps the token-list invariant Inv and every scan() call consumes at least one
   character of the NUL-free remainder, so the loop ends at the sentinel with tokens that tile the text. *)
From Coq Require Import List NArith Bool Arith Lia.
From MW Require Import C10.Regex C10.Tags C10.Gen_rules C10.Model C10.Tiles.
Import ListNotations.
Local Open Scope N_scope.

Definition is_single (r : re) : bool := match r with Chr _ => true | _ => false end.

Definition generic_ok (r : re) : bool := negb (nullable r) && (avoids 0 r || is_single r).

(* a rule that cannot run across c: at a text starting with c it sees nothing but that character *)
Definition stops_at (c : N) (r : re) : bool := negb (nullable r) && (avoids c r || is_single r).

Lemma generic_ok_stops_at r : generic_ok r = stops_at 0 r.
Proof. reflexivity. Qed.

Definition rule_ok (ra : re * act) : bool :=
  let (r, a) := ra in
  match a with
  | A_end => re_eqb r (chr 0)
  | A_break => avoids 0 r && match r with Cat (Chr _) r' => negb (nullable r') | _ => false end
  | A_ret ty => if ty =? t_ebad then re_eqb r (chr EBAD) else generic_ok r
  | A_goto_notbol => is_single r
  | _ => generic_ok r
  end.

Definition is_goto (a : act) : bool := match a with A_goto_notbol => true | _ => false end.
Definition is_end (a : act) : bool := match a with A_end => true | _ => false end.

Definition re_dot : re := Chr (Cls true [(10, 10)]).     (* .   : any code point but \n *)
Definition re_any : re := Chr (Cls true []).             (* [^] : any code point *)

Definition has_rule (r : re) (rules : list (re * act)) : bool := existsb (fun ra => re_eqb (fst ra) r) rules.

(* every rule is non-nullable and cannot run across a NUL; the special rules have the exact shape
   their actions rely on *)
Lemma all_rules_ok : forallb rule_ok bol_rules = true /\ forallb rule_ok main_rules = true.
Proof. split; vm_compute; reflexivity. Qed.

(* the main block never jumps to not_bol (it would loop) *)
Lemma main_no_goto : forallb (fun ra => negb (is_goto (snd ra))) main_rules = true.
Proof. vm_compute. reflexivity. Qed.

(* the bol block never ends the scan *)
Lemma bol_no_end : forallb (fun ra => negb (is_end (snd ra))) bol_rules = true.
Proof. vm_compute. reflexivity. Qed.

(* fallback rules: every code point is matched by some rule of each block *)
Lemma fallback_total : has_rule re_dot main_rules = true /\ has_rule (chr 10) main_rules = true
                       /\ has_rule re_any bol_rules = true.
Proof. repeat split; vm_compute; reflexivity. Qed.

(* at a NUL: the bol block falls through to the main block, and the main block stops *)
Lemma at_nul : best_match bol_rules [0] = Some (A_goto_notbol, 1%nat) /\ best_match main_rules [0] = Some (A_end, 1%nat).
Proof. split; vm_compute; reflexivity. Qed.

(* utoken.scan appends at least one NUL sentinel *)
Lemma sentinels_nonempty : exists pad, sentinels = 0 :: pad.
Proof. eexists. vm_compute. reflexivity. Qed.

(* token-type numbers used by the actions differ from t_ebad *)
Lemma types_not_ebad :
  forallb (fun t => negb (t =? t_ebad))
    [t_text; t_begin_table; t_end_table; t_pre; t_section; t_section_end; t_newline; t_break; t_column; t_row;
     t_tablecaption; t_special] = true.
Proof. vm_compute. reflexivity. Qed.

Lemma forallb_in : forall {A} (f : A -> bool) l x, forallb f l = true -> In x l -> f x = true.
Proof. intros A f l x H Hin. rewrite forallb_forall in H. auto. Qed.

Lemma best_match_in : forall rules s a n, best_match rules s = Some (a, n) ->
  exists r, In (r, a) rules /\ longest_match r s = Some n.
Proof.
  induction rules as [|[r a0] tl IH]; intros s a n H; cbn [best_match] in H; [discriminate|].
  destruct (longest_match r s) as [m|] eqn:El.
  - destruct (best_match tl s) as [[a' n']|] eqn:Eb.
    + destruct (n' <=? m)%nat.
      * inversion H; subst. exists r. split; [left; reflexivity | assumption].
      * inversion H; subst. destruct (IH s a n Eb) as (r' & Hin & Hl). exists r'. split; [right|]; assumption.
    + inversion H; subst. exists r. split; [left; reflexivity | assumption].
  - destruct (IH s a n H) as (r' & Hin & Hl). exists r'. split; [right|]; assumption.
Qed.

Lemma best_match_ge : forall rules s r a n, In (r, a) rules -> longest_match r s = Some n ->
  exists a' n', best_match rules s = Some (a', n') /\ (n <= n')%nat.
Proof.
  induction rules as [|[r0 a0] tl IH]; intros s r a n Hin Hl; [contradiction|].
  cbn [best_match]. destruct Hin as [E | Hin].
  - inversion E; subst. rewrite Hl. destruct (best_match tl s) as [[a' n']|].
    + destruct (n' <=? n)%nat eqn:C; [eauto|]. apply Nat.leb_gt in C. exists a', n'. split; [reflexivity | lia].
    + eauto.
  - destruct (IH s r a n Hin Hl) as (a' & n' & E & Hge). rewrite E.
    destruct (longest_match r0 s) as [m|].
    + destruct (n' <=? m)%nat eqn:C; [|eauto]. apply Nat.leb_le in C. exists a0, m. split; [reflexivity | lia].
    + eauto.
Qed.

Lemma has_rule_in : forall r rules, has_rule r rules = true -> exists a, In (r, a) rules.
Proof.
  intros r rules H. unfold has_rule in H. apply existsb_exists in H. destruct H as ([r' a] & Hin & E).
  cbn [fst] in E. apply re_eqb_eq in E. subst. eauto.
Qed.

(* a block with a one-character rule for the class k is not stuck at a character of k *)
Lemma has_rule_chr_matches : forall k rules c tl, has_rule (Chr k) rules = true -> cls_mem c k = true ->
  best_match rules (c :: tl) <> None.
Proof.
  intros k rules c tl Hr Hm E. destruct (has_rule_in _ _ Hr) as (a & Hin).
  destruct (longest_match_chr_some k c tl Hm) as (n & Hn).
  destruct (best_match_ge _ _ _ _ _ Hin Hn) as (a' & n' & E' & _). congruence.
Qed.

Lemma best_match_ext : forall rules s1 s2,
  (forall r a, In (r, a) rules -> longest_match r s1 = longest_match r s2) ->
  best_match rules s1 = best_match rules s2.
Proof.
  induction rules as [|[r a] tl IH]; intros s1 s2 H; [reflexivity|].
  cbn [best_match]. rewrite (H r a) by (left; reflexivity).
  rewrite (IH s1 s2) by (intros r' a' Hin; apply (H r' a'); right; assumption). reflexivity.
Qed.

Lemma longest_match_chr_eq : forall k c tl,
  longest_match (Chr k) (c :: tl) = if cls_mem c k then Some 1%nat else None.
Proof.
  intros k c tl. destruct (longest_match (Chr k) (c :: tl)) as [n|] eqn:E.
  - apply longest_match_chr in E. destruct E as (-> & c' & tl' & Heq & Hm). inversion Heq; subst.
    rewrite Hm. reflexivity.
  - destruct (cls_mem c k) eqn:Em; [|reflexivity].
    destruct (longest_match_chr_some k c tl Em) as (n & Hn). congruence.
Qed.

Lemma avoids_head_none : forall c r tl, avoids c r = true -> nullable r = false ->
  longest_match r (c :: tl) = None.
Proof.
  intros c r tl Ha Hn. destruct (longest_match r (c :: tl)) as [n|] eqn:E; [|reflexivity].
  exfalso. pose proof (longest_match_pos _ _ _ Hn E) as Hp.
  apply (longest_match_avoids c r _ _ Ha E). destruct n; [lia|]. left. reflexivity.
Qed.

Lemma is_single_inv : forall r, is_single r = true -> exists k, r = Chr k.
Proof. intros r H. destruct r; try discriminate. eauto. Qed.

Lemma stops_at_cases : forall c r, stops_at c r = true ->
  (avoids c r = true /\ nullable r = false) \/ exists k, r = Chr k.
Proof.
  intros c r H. unfold stops_at in H. apply andb_true_iff in H. destruct H as [Hn Ho].
  apply negb_true_iff in Hn. apply orb_true_iff in Ho. destruct Ho as [Ha | Hs]; [left; auto|].
  right. apply is_single_inv. exact Hs.
Qed.

Lemma stops_at_head : forall c r v1 v2, stops_at c r = true ->
  longest_match r (c :: v1) = longest_match r (c :: v2).
Proof.
  intros c r v1 v2 H. destruct (stops_at_cases c r H) as [[Ha Hn] | (k & ->)].
  - rewrite !avoids_head_none by assumption. reflexivity.
  - rewrite !longest_match_chr_eq. reflexivity.
Qed.

Lemma rule_ok_head_nul : forall r a v1 v2, rule_ok (r, a) = true ->
  longest_match r (0 :: v1) = longest_match r (0 :: v2).
Proof.
  intros r a v1 v2 H. cbn [rule_ok] in H.
  assert (Hchr : forall c, re_eqb r (chr c) = true -> longest_match r (0 :: v1) = longest_match r (0 :: v2)).
  { intros c E. apply re_eqb_eq in E. subst r. unfold chr. rewrite !longest_match_chr_eq. reflexivity. }
  rewrite generic_ok_stops_at in H.
  destruct a; try (apply stops_at_head; assumption).
  - destruct (ty =? t_ebad); [eapply Hchr; eassumption | apply stops_at_head; assumption].
  - apply is_single_inv in H. destruct H as (k & ->). rewrite !longest_match_chr_eq. reflexivity.
  - apply andb_true_iff in H. destruct H as [Ha Hs].
    destruct r; try discriminate. destruct r1; try discriminate.
    rewrite !avoids_head_none; try assumption; reflexivity.
  - eapply Hchr; eassumption.
Qed.

Lemma best_match_head_nul : forall rules v, forallb rule_ok rules = true ->
  best_match rules (0 :: v) = best_match rules [0].
Proof.
  intros rules v H. apply best_match_ext. intros r a Hin.
  rewrite forallb_forall in H. apply (rule_ok_head_nul r a). apply H. assumption.
Qed.

Lemma firstn_no_c_le : forall (c : N) u v n, ~ In c (firstn n (u ++ c :: v)) -> (n <= length u)%nat.
Proof.
  intros c u v n H. destruct (Nat.le_gt_cases n (length u)) as [Hle | Hgt]; [assumption|].
  exfalso. apply H. rewrite firstn_app. apply in_or_app. right.
  destruct (n - length u)%nat eqn:E; [lia|]. left. reflexivity.
Qed.

(* what an OK rule's match looks like at a text whose NUL-free prefix u is non-empty *)
Lemma generic_ok_match : forall r u v n, generic_ok r = true -> u <> [] -> ~ In 0 u ->
  longest_match r (u ++ 0 :: v) = Some n -> (1 <= n <= length u)%nat.
Proof.
  intros r u v n H Hu Hnu Hl. rewrite generic_ok_stops_at in H. destruct (stops_at_cases 0 r H) as [[Ha Hn] | (k & ->)].
  - split; [exact (longest_match_pos _ _ _ Hn Hl)|].
    eapply firstn_no_c_le. eapply longest_match_avoids; eassumption.
  - apply longest_match_chr in Hl. destruct Hl as (-> & _). destruct u; [contradiction | cbn [length]; lia].
Qed.

Definition spans (l : list tok) : list (nat * nat) := map (fun t => (tstart t, tlen t)) l.

(* [tiles_rev l q]: l (NEWEST FIRST) tiles q exactly up to U+EBAD gaps, the last span ending at the end of q *)
Inductive tiles_rev : list (nat * nat) -> list N -> Prop :=
| tiles_rev_nil : tiles_rev [] []
| tiles_rev_cons : forall l q g w, tiles_rev l q -> allebad g -> w <> [] ->
    tiles_rev ((length q + length g, length w)%nat :: l) (q ++ g ++ w).

(* p = the text consumed so far *)
Definition Inv (s : st) (p : list N) : Prop :=
  exists q g, p = q ++ g /\ allebad g /\ tiles_rev (spans (toks s)) q /\ (last_ebad s = false -> g = []).

Lemma Inv_init : Inv init [].
Proof. exists [], []. repeat split; [constructor | constructor]. Qed.

Lemma Inv_same : forall s s' p, toks s' = toks s -> last_ebad s' = last_ebad s -> Inv s p -> Inv s' p.
Proof.
  intros s s' p Ht Hl (q & g & Hp & Hg & Hr & Hle). exists q, g. rewrite Ht, Hl. auto.
Qed.

(* bol(): the line flags are reset at the start of a line *)
Lemma Inv_bol : forall (b : bool) s p, Inv s p -> Inv (if b then set_rowchar 0 s else s) p.
Proof. intros [|] s p HI; [eapply Inv_same; [| |exact HI]; reflexivity | exact HI]. Qed.

Lemma Inv_push : forall ty s p w, Inv s p -> w <> [] -> Inv (push ty (length p) (length w) s) (p ++ w).
Proof.
  intros ty s p w (q & g & Hp & Hg & Hr & Hle) Hw. subst p.
  exists (q ++ g ++ w), []. split; [rewrite app_nil_r, app_assoc; reflexivity|].
  split; [constructor|]. split; [|reflexivity].
  unfold push. cbn [toks spans map tstart tlen]. rewrite app_length. apply tiles_rev_cons; assumption.
Qed.

Lemma Inv_found : forall ty s p w, Inv s p -> w <> [] -> (ty =? t_ebad = true -> allebad w) ->
  Inv (found ty (length p) (length w) s) (p ++ w).
Proof.
  intros ty s p w HI Hw He. unfold found. destruct (ty =? t_ebad) eqn:Ee.
  - destruct HI as (q & g & Hp & Hg & Hr & Hle). subst p.
    exists q, (g ++ w). split; [rewrite app_assoc; reflexivity|].
    split; [apply allebad_app; auto|]. split; [exact Hr|]. cbn [last_ebad]. discriminate.
  - destruct ((ty =? t_text) && negb (last_ebad s)) eqn:Em; [|apply Inv_push; assumption].
    destruct (toks s) as [|t0 tl] eqn:Et; [apply Inv_push; assumption|].
    destruct (ttype t0 =? ty) eqn:Ety; [|apply Inv_push; assumption].
    (* merge with the previous text token *)
    apply andb_true_iff in Em. destruct Em as [_ Hl]. apply negb_true_iff in Hl.
    destruct HI as (q & g & Hp & Hg & Hr & Hle). specialize (Hle Hl). subst g. rewrite app_nil_r in Hp. subst q.
    rewrite Et in Hr. cbn [spans map] in Hr.
    inversion Hr as [|l0 q0 g0 w0 Hr0 Hg0 Hw0 E1 E2]; subst.
    exists ((q0 ++ g0 ++ w0) ++ w), []. split; [rewrite app_nil_r; reflexivity|].
    split; [constructor|]. split; [|reflexivity].
    unfold set_toks. cbn [toks spans map tstart tlen].
    replace (tstart t0) with (length q0 + length g0)%nat by congruence.
    replace (tlen t0) with (length w0) by congruence.
    replace (length w0 + length w)%nat with (length (w0 ++ w)) by apply app_length.
    replace ((q0 ++ g0 ++ w0) ++ w) with (q0 ++ g0 ++ (w0 ++ w)) by (rewrite !app_assoc; reflexivity).
    apply tiles_rev_cons; try assumption. destruct w0; [contradiction | discriminate].
Qed.

Lemma spans_retag_fwd : forall i l, spans (retag_fwd i l) = spans l.
Proof.
  intros i l. revert i. induction l as [|t tl IH]; intro i; [destruct i; reflexivity|].
  destruct i; cbn [retag_fwd spans map tstart tlen]; [reflexivity|].
  f_equal. apply IH.
Qed.

Lemma spans_retag : forall i l, spans (retag i l) = spans l.
Proof.
  intros i l. unfold retag, spans. rewrite map_rev. fold (spans (retag_fwd i (rev l))).
  rewrite spans_retag_fwd. unfold spans. rewrite map_rev. apply rev_involutive.
Qed.

Lemma Inv_newline : forall s p, Inv s p -> Inv (newline_ s) p.
Proof.
  intros s p (q & g & Hp & Hg & Hr & Hle). unfold newline_. destruct (lss s) as [i|]; [|exists q, g; auto].
  exists q, g. cbn [toks last_ebad set_lss set_toks]. rewrite spans_retag. auto.
Qed.

Lemma firstn_firstn_skipn : forall (l : list N) a b,
  firstn a l ++ firstn b (skipn a l) = firstn (a + b) l.
Proof.
  intros l a. revert l. induction a as [|a IH]; intros l b; [reflexivity|].
  destruct l as [|c l]; [cbn [skipn firstn Nat.add app]; rewrite firstn_nil; reflexivity|].
  cbn [Nat.add firstn skipn app]. f_equal. apply IH.
Qed.

Lemma firstn_nonnil : forall (l : list N) n, (1 <= n <= length l)%nat -> firstn n l <> [].
Proof.
  intros l n H E. assert (L : length (firstn n l) = 0%nat) by (rewrite E; reflexivity).
  rewrite firstn_length in L. lia.
Qed.

Lemma firstn_len : forall (l : list N) n, (n <= length l)%nat -> length (firstn n l) = n.
Proof. intros l n H. rewrite firstn_length. lia. Qed.

Lemma Inv_found_firstn : forall ty s p rest k, Inv s p -> (1 <= k <= length rest)%nat -> ty =? t_ebad = false ->
  Inv (found ty (length p) k s) (p ++ firstn k rest).
Proof.
  intros ty s p rest k HI Hk Hty. pose proof (firstn_len rest k (proj2 Hk)) as Hl. rewrite <- Hl at 1.
  apply Inv_found; [assumption | apply firstn_nonnil; assumption | rewrite Hty; discriminate].
Qed.

(* what one call of scan() returns at a position where p has been read and the NUL-free remainder is u: it ends the
   scan only at the NUL itself; otherwise it consumes k >= 1 characters of u, and the invariant holds of what has been
   read then *)
Definition step_post (u rest p : list N) (res : result) : Prop :=
  match res with
  | R_stop s' => u = [] /\ Inv s' p
  | R_stuck => False
  | R_cont k s' => (1 <= k <= length u)%nat /\ Inv s' (p ++ firstn k rest)
  end.

Section Exec.
  Variable u v p : list N.
  Let rest := u ++ 0 :: v.
  Hypothesis Hu : u <> [].
  Hypothesis Hnu : ~ In 0 u.

  Lemma len_rest : forall k, (k <= length u)%nat -> (k <= length rest)%nat.
  Proof. intros k H. unfold rest. rewrite app_length. lia. Qed.

  (* found of the first k matched characters under a non-EBAD type *)
  Lemma cont_found : forall ty k s, Inv s p -> (1 <= k <= length u)%nat -> ty =? t_ebad = false ->
    step_post u rest p (R_cont k (found ty (length p) k s)).
  Proof.
    intros ty k s HI Hk Hty. split; [assumption|].
    apply Inv_found_firstn; [assumption | pose proof (len_rest k); lia | assumption].
  Qed.

  Lemma exec_spec : forall r a n s, rule_ok (r, a) = true -> is_goto a = false ->
    longest_match r rest = Some n -> Inv s p ->
    step_post u rest p (exec a rest n (length p) s).
  Proof.
    intros r a n s Hok Hng Hl HI. cbn [rule_ok] in Hok.
    assert (Hgen : generic_ok r = true -> (1 <= n <= length u)%nat)
      by (intro G; eapply generic_ok_match; eassumption).
    assert (Hone : generic_ok r = true -> (1 <= 1 <= length u)%nat) by (intro G; specialize (Hgen G); lia).
    assert (Same : forall s', toks s' = toks s -> last_ebad s' = last_ebad s -> Inv s' p)
      by (intros s' Et El; exact (Inv_same s s' p Et El HI)).
    (* the tail of the three begin-of-line table rules outside a table: " " is t_pre, anything else text *)
    assert (Hpre_or_text : generic_ok r = true ->
                  step_post u rest p (if nth 0 rest 0 =? 32 then R_cont 1 (found t_pre (length p) 1 s)
                                      else R_cont n (found t_text (length p) n s)))
      by (intro G; destruct (nth 0 rest 0 =? 32); apply cont_found; auto).
    unfold exec.
    destruct a; try discriminate Hng.
    - (* A_ret *)
      destruct (ty =? t_ebad) eqn:Ety.
      + apply re_eqb_eq in Hok. subst r. unfold chr in Hl. apply longest_match_chr in Hl.
        destruct Hl as (-> & c & tl & Hrest & Hc).
        apply cls_mem_chr in Hc. subst c.
        cbn [step_post]. split; [destruct u; [contradiction | cbn [length]; lia]|].
        rewrite Hrest. cbn [firstn].
        change 1%nat with (length [EBAD]). apply Inv_found; [assumption | discriminate |].
        intros _. constructor; [reflexivity | constructor].
      + apply cont_found; auto.
    - (* A_begin_table *)
      apply cont_found; [apply Same; reflexivity | auto | reflexivity].
    - (* A_end_table *)
      apply cont_found; [apply Same; reflexivity | auto | reflexivity].
    - (* A_bol_row *)
      destruct (negb (tablemode s =? 0)); [apply cont_found; auto | exact (Hpre_or_text Hok)].
    - (* A_bol_column *)
      destruct (negb (tablemode s =? 0)); [apply cont_found; auto | exact (Hpre_or_text Hok)].
    - (* A_bol_caption *)
      destruct (negb (tablemode s =? 0)); [apply cont_found; auto | exact (Hpre_or_text Hok)].
    - (* A_section *)
      pose proof (cont_found t_section n s HI (Hgen Hok) ltac:(reflexivity)) as G. cbn [step_post] in G |- *.
      destruct G as [Gk GI]. split; [assumption|]. eapply Inv_same; [| |exact GI]; reflexivity.
    - (* A_eq *)
      destruct ((nth n rest 0 =? 10) || (nth n rest 0 =? 0)).
      + destruct (lss s).
        * apply cont_found; [apply Same; reflexivity | auto | reflexivity].
        * apply cont_found; [assumption | auto | reflexivity].
      + apply cont_found; [assumption | auto | reflexivity].
    - (* A_break: the match is <char> r' with r' non-nullable; its first character becomes a t_newline token read at
         p, the other n - 1 a t_break token read at p ++ that character *)
      apply andb_true_iff in Hok. destruct Hok as [Ha Hshape].
      destruct r as [| | |ra rb| |]; try discriminate. destruct ra as [| |k| | |]; try discriminate.
      apply negb_true_iff in Hshape.
      pose proof (longest_match_cat_chr _ _ _ _ Hshape Hl) as H2.
      pose proof (firstn_no_c_le 0 u v n (longest_match_avoids 0 _ _ _ Ha Hl)) as Hle.
      pose proof (len_rest n Hle) as Hlr.
      cbn [step_post]. split; [lia|].
      replace (p ++ firstn n rest) with ((p ++ firstn 1 rest) ++ firstn (n - 1) (skipn 1 rest))
        by (rewrite <- app_assoc, firstn_firstn_skipn; do 2 f_equal; lia).
      replace (length p + 1)%nat with (length (p ++ firstn 1 rest))
        by (rewrite app_length, firstn_len by lia; reflexivity).
      apply Inv_found_firstn; [|rewrite skipn_length; lia | reflexivity].
      apply Inv_found_firstn; [apply Inv_newline; assumption | lia | reflexivity].
    - (* A_newline *)
      apply cont_found; [apply Inv_newline; assumption | auto | reflexivity].
    - (* A_colsep *)
      destruct (negb (tablemode s =? 0) && (negb (nth (n - 2) rest 0 =? 33) || (nth (n - 2) rest 0 =? rowchar s)));
        apply cont_found; auto; reflexivity.
    - (* A_capsep *)
      destruct (negb (tablemode s =? 0)); apply cont_found; auto; reflexivity.
    - (* A_end: its rule is "\000", which cannot match at a non-NUL character *)
      apply re_eqb_eq in Hok. subst r. unfold chr in Hl. apply longest_match_chr in Hl.
      destruct Hl as (_ & c & tl & Hrest & Hc).
      apply cls_mem_chr in Hc. subst c.
      exfalso. apply Hnu. unfold rest in Hrest. destruct u as [|c0 u0]; [contradiction|].
      cbn [app] in Hrest. inversion Hrest; subst. left. reflexivity.
  Qed.
End Exec.

Lemma main_spec : forall u v p s, u <> [] -> ~ In 0 u -> Inv s p ->
  step_post u (u ++ 0 :: v) p
       (match best_match main_rules (u ++ 0 :: v) with
        | None => R_stuck
        | Some (a, n) => exec a (u ++ 0 :: v) n (length p) s
        end).
Proof.
  intros u v p s Hu Hnu HI.
  destruct (best_match main_rules (u ++ 0 :: v)) as [[a n]|] eqn:Eb.
  - destruct (best_match_in _ _ _ _ Eb) as (r & Hin & Hl).
    apply (exec_spec u v p Hu Hnu r a n s); try assumption.
    + apply (forallb_in rule_ok main_rules); [apply all_rules_ok | assumption].
    + pose proof (forallb_in _ _ _ main_no_goto Hin) as G. cbn [snd] in G. apply negb_true_iff in G. exact G.
  - exfalso. destruct u as [|c u0]; [contradiction|]. cbn [app] in Eb.
    destruct fallback_total as (Hdot & Hnl & _).
    destruct (N.eq_dec c 10) as [-> | Hc].
    + exact (has_rule_chr_matches _ _ 10 _ Hnl (cls_mem_self 10) Eb).
    + exact (has_rule_chr_matches _ _ c _ Hdot (cls_mem_dot c Hc) Eb).
Qed.

Lemma step_spec : forall prev u v p s, ~ In 0 u -> Inv s p ->
  step_post u (u ++ 0 :: v) p (step prev (u ++ 0 :: v) (length p) s).
Proof.
  intros prev u v p s Hnu HI. unfold step.
  set (isbol := match prev with None => true | Some c => c =? 10 end).
  set (s0 := if isbol then set_rowchar 0 s else s).
  assert (HI0 : Inv s0 p) by (apply Inv_bol; exact HI).
  destruct all_rules_ok as [Hbol Hmain].
  destruct u as [|c u0].
  - (* at the NUL *)
    cbn [app]. rewrite (best_match_head_nul main_rules v Hmain), (best_match_head_nul bol_rules v Hbol).
    destruct at_nul as [-> ->]. cbn [exec step_post].
    destruct isbol; (split; [reflexivity | apply Inv_newline; assumption]).
  - set (u := c :: u0) in *. assert (Hu : u <> []) by discriminate.
    pose proof (main_spec u v p s0 Hu Hnu HI0) as Gm.
    destruct isbol; [|exact Gm].
    destruct (best_match bol_rules (u ++ 0 :: v)) as [[a n]|] eqn:Eb.
    + destruct (best_match_in _ _ _ _ Eb) as (r & Hin & Hl).
      destruct (is_goto a) eqn:Eg.
      * destruct a; try discriminate Eg. exact Gm.
      * pose proof (exec_spec u v p Hu Hnu r a n s0 (forallb_in rule_ok bol_rules _ Hbol Hin) Eg Hl HI0) as G.
        destruct a; try discriminate Eg; exact G.
    + exfalso. destruct fallback_total as (_ & _ & Hany).
      exact (has_rule_chr_matches _ _ c (u0 ++ 0 :: v) Hany eq_refl Eb).
Qed.

Lemma tiles_rev_tiles : forall l q, tiles_rev l q -> forall l2 rest, tiles (length q) l2 rest -> tiles 0 (rev l ++ l2) (q ++ rest).
Proof.
  intros l q H. induction H as [|l q g w Hr IH Hg Hw]; intros l2 rest Ht.
  - exact Ht.
  - cbn [rev]. rewrite <- app_assoc. cbn [app].
    replace ((q ++ g ++ w) ++ rest) with (q ++ (g ++ w ++ rest)) by (rewrite !app_assoc; reflexivity).
    apply IH. apply tiles_cons; try assumption.
    rewrite !app_length in Ht. rewrite Nat.add_assoc in Ht. exact Ht.
Qed.

Lemma Inv_tiles : forall s p, Inv s p -> tiles 0 (spans (rev (toks s))) p.
Proof.
  intros s p (q & g & Hp & Hg & Hr & _). subst p.
  unfold spans. rewrite map_rev. fold (spans (toks s)).
  rewrite <- (app_nil_r (rev (spans (toks s)))).
  apply tiles_rev_tiles; [assumption | constructor; assumption].
Qed.

Lemma firstn_skipn_prefix : forall (u x : list N) k, (k <= length u)%nat ->
  firstn k (u ++ x) = firstn k u /\ skipn k (u ++ x) = skipn k u ++ x.
Proof.
  intros u x k H. split.
  - rewrite firstn_app. replace (k - length u)%nat with 0%nat by lia. cbn [firstn]. apply app_nil_r.
  - rewrite skipn_app. replace (k - length u)%nat with 0%nat by lia. reflexivity.
Qed.

(* one turn of the loop: a call that consumes k characters of the prefix u has read firstn k u and goes on at skipn k u *)
Lemma run_cont : forall f prev u x p s k s',
  step prev (u ++ x) (length p) s = R_cont k s' -> (k <= length u)%nat ->
  run (S f) prev (u ++ x) (length p) s
  = run f (match k with O => prev | S j => Some (nth j (u ++ x) 0) end) (skipn k u ++ x) (length (p ++ firstn k u)) s'.
Proof.
  intros f prev u x p s k s' Hs Hk. cbn [run]. rewrite Hs.
  rewrite (proj2 (firstn_skipn_prefix u x k Hk)), app_length, firstn_length, Nat.min_l by exact Hk. reflexivity.
Qed.

Lemma run_spec : forall fuel prev u v p s, ~ In 0 u -> Inv s p -> (length u < fuel)%nat ->
  exists l, run fuel prev (u ++ 0 :: v) (length p) s = F_done l /\ tiles 0 (spans l) (p ++ u).
Proof.
  induction fuel as [|f IH]; intros prev u v p s Hnu HI Hf; [lia|].
  pose proof (step_spec prev u v p s Hnu HI) as Hs.
  destruct (step prev (u ++ 0 :: v) (length p) s) as [s'| |k s'] eqn:Est; cbn [step_post] in Hs.
  - cbn [run]. rewrite Est. destruct Hs as [-> HI']. exists (rev (toks s')). split; [reflexivity|].
    rewrite app_nil_r. apply Inv_tiles. assumption.
  - contradiction.
  - destruct Hs as [Hk HI']. rewrite (run_cont _ _ _ _ _ _ _ _ Est) by lia.
    rewrite (proj1 (firstn_skipn_prefix u (0 :: v) k ltac:(lia))) in HI'.
    replace (p ++ u) with ((p ++ firstn k u) ++ skipn k u) by (rewrite <- app_assoc, firstn_skipn; reflexivity).
    apply IH; [|exact HI'|rewrite skipn_length; lia].
    intro Hin. apply Hnu. rewrite <- (firstn_skipn k u). apply in_or_app. right. exact Hin.
Qed.

(* the text before the first NUL *)
Fixpoint before_nul (s : list N) : list N :=
  match s with
  | [] => []
  | c :: tl => if c =? 0 then [] else c :: before_nul tl
  end.

Lemma before_nul_split : forall s pad, exists v, s ++ 0 :: pad = before_nul s ++ 0 :: v.
Proof.
  induction s as [|c tl IH]; intro pad; cbn [before_nul app].
  - exists pad. reflexivity.
  - destruct (c =? 0) eqn:E.
    + apply N.eqb_eq in E. subst c. exists (tl ++ 0 :: pad). reflexivity.
    + destruct (IH pad) as (v & Hv). exists v. cbn [app]. rewrite Hv. reflexivity.
Qed.

Lemma before_nul_no_nul : forall s, ~ In 0 (before_nul s).
Proof.
  induction s as [|c tl IH]; cbn [before_nul]; [intros []|].
  destruct (c =? 0) eqn:E; [intros []|]. intros [H | H]; [subst c; discriminate | contradiction].
Qed.

Lemma before_nul_length : forall s, (length (before_nul s) <= length s)%nat.
Proof.
  induction s as [|c tl IH]; cbn [before_nul length]; [lia|]. destruct (c =? 0); cbn [length]; lia.
Qed.

Lemma scan_tiles : forall s : list N,
  exists l, scan s = F_done l /\ tiles 0 (spans l) (before_nul s).
Proof.
  intro s. unfold scan. destruct sentinels_nonempty as (pad & ->).
  destruct (before_nul_split s pad) as (v & Hv). rewrite Hv.
  destruct (run_spec (length s + 1) None (before_nul s) v [] init (before_nul_no_nul s) Inv_init) as (l & Hr & Ht).
  - pose proof (before_nul_length s). lia.
  - exists l. split; assumption.
Qed.

Lemma scan_consequences : forall s l, scan s = F_done l ->
  let s' := before_nul s in
  ordered 0 (spans l) (length s')
  /\ (forall i, (i < length s')%nat -> (forall t, In t l -> ~ (tstart t <= i < tstart t + tlen t)%nat) -> nth i s' 0 = EBAD)
  /\ filter nonebad (concat (map (slice s') (spans l))) = filter nonebad s'
  /\ (~ In EBAD s' -> contig 0 (spans l) (length s')).
Proof.
  intros s l Hs s'. destruct (scan_tiles s) as (l' & Hs' & Ht). rewrite Hs in Hs'. inversion Hs'; subst l'.
  fold s' in Ht. split; [exact (tiles_ordered _ _ _ Ht)|]. split.
  - intros i Hi Hno. apply (tiles_uncovered _ _ _ Ht i Hi). intros sp Hin Hspan.
    unfold spans in Hin. apply in_map_iff in Hin. destruct Hin as (t & <- & Hint).
    apply (Hno t Hint). unfold in_span in Hspan. cbn [fst snd Nat.add] in Hspan. exact Hspan.
  - split.
    + rewrite <- (tiles_concat _ _ _ Ht). f_equal. f_equal. apply map_ext. intros [a b].
      unfold slice, slice_rel. cbn [fst snd]. rewrite Nat.sub_0_r. reflexivity.
    + intro Hn. exact (tiles_contig _ _ _ Ht Hn).
Qed.
