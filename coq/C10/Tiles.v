(* C10/Tiles.v — the tiling relation between a list of (start,len) spans and a text, and what it
   implies (independent of the scanner model). *)
From Coq Require Import List NArith Bool Arith Lia.
Import ListNotations.
Local Open Scope N_scope.

Definition EBAD : N := 60333.      (* U+EBAD, the reserved blacklist marker *)

Definition allebad (g : list N) : Prop := Forall (fun c => c = EBAD) g.

(* [tiles off l text]: text (which starts at absolute offset off) is
     g0 ++ w1 ++ g1 ++ w2 ++ ... ++ wn ++ gn
   where every gap gi consists of U+EBAD only, every wi is non-empty, and the i-th span of l is
   exactly (absolute offset of wi, length wi). *)
Inductive tiles : nat -> list (nat * nat) -> list N -> Prop :=
| tiles_nil : forall off g, allebad g -> tiles off [] g
| tiles_cons : forall off g w l rest,
    allebad g -> w <> [] ->
    tiles (off + length g + length w) l rest ->
    tiles off ((off + length g, length w)%nat :: l) (g ++ w ++ rest).

Definition slice (t : list N) (sp : nat * nat) : list N := firstn (snd sp) (skipn (fst sp) t).

Definition nonebad (c : N) : bool := negb (c =? EBAD).

(* exact contiguity: spans are non-empty, start at off, each starts where the previous ended, end at e *)
Fixpoint contig (off : nat) (l : list (nat * nat)) (e : nat) : Prop :=
  match l with
  | [] => off = e
  | (st, len) :: tl => st = off /\ (0 < len)%nat /\ contig (off + len) tl e
  end.

(* ordered, non-overlapping, inside [off, e) *)
Fixpoint ordered (off : nat) (l : list (nat * nat)) (e : nat) : Prop :=
  match l with
  | [] => (off <= e)%nat
  | (st, len) :: tl => (off <= st)%nat /\ (0 < len)%nat /\ ordered (st + len) tl e
  end.

Lemma allebad_app : forall a b, allebad a -> allebad b -> allebad (a ++ b).
Proof. intros a b Ha Hb. apply Forall_app. split; assumption. Qed.

Lemma allebad_filter : forall g, allebad g -> filter nonebad g = [].
Proof.
  induction g as [|c g IH]; intro H; [reflexivity|].
  inversion H as [|x y Hc Hg]; subst. cbn [filter]. unfold nonebad at 1. rewrite N.eqb_refl. cbn [negb].
  apply IH. assumption.
Qed.

Lemma allebad_no_ebad : forall g, allebad g -> ~ In EBAD g -> g = [].
Proof.
  intros g H Hn. destruct g as [|c g]; [reflexivity|]. inversion H; subst. exfalso. apply Hn. left. reflexivity.
Qed.

Lemma tiles_ordered : forall off l text, tiles off l text -> ordered off l (off + length text).
Proof.
  intros off l text H. induction H as [off g Hg | off g w l rest Hg Hw Ht IH]; cbn [ordered].
  - lia.
  - rewrite !app_length. split; [lia|]. split.
    + destruct w; [contradiction | cbn [length]; lia].
    + replace (off + (length g + (length w + length rest)))%nat with (off + length g + length w + length rest)%nat by lia.
      exact IH.
Qed.

Lemma tiles_lower : forall off l text, tiles off l text -> Forall (fun sp => (off <= fst sp)%nat) l.
Proof.
  intros off l text H. induction H as [off g Hg | off g w l rest Hg Hw Ht IH]; constructor.
  - cbn [fst]. lia.
  - eapply Forall_impl; [|exact IH]. cbn beta. intros sp Hsp. lia.
Qed.

(* without U+EBAD in the text the spans are exactly contiguous from off to the end *)
Lemma tiles_contig : forall off l text, tiles off l text -> ~ In EBAD text -> contig off l (off + length text).
Proof.
  intros off l text H. induction H as [off g Hg | off g w l rest Hg Hw Ht IH]; intro Hn; cbn [contig].
  - rewrite (allebad_no_ebad g Hg Hn). cbn [length]. lia.
  - assert (g = []) as ->.
    { apply allebad_no_ebad; [assumption|]. intro Hi. apply Hn. apply in_or_app. left. assumption. }
    cbn [app length] in *. rewrite !Nat.add_0_r in *. split; [reflexivity|]. split.
    + destruct w; [contradiction | cbn [length]; lia].
    + rewrite app_length.
      replace (off + (length w + length rest))%nat with (off + length w + length rest)%nat by lia.
      apply IH. intro Hi. apply Hn. apply in_or_app. right. assumption.
Qed.

(* the span texts, relative to a text starting at off *)
Definition slice_rel (off : nat) (t : list N) (sp : nat * nat) : list N :=
  firstn (snd sp) (skipn (fst sp - off) t).

Lemma skipn_app_ge : forall (a b : list N) n, (length a <= n)%nat -> skipn n (a ++ b) = skipn (n - length a) b.
Proof.
  intros a b n H. rewrite skipn_app. rewrite skipn_all2 by assumption. reflexivity.
Qed.

Lemma tiles_concat : forall off l text, tiles off l text ->
  filter nonebad (concat (map (slice_rel off text) l)) = filter nonebad text.
Proof.
  intros off l text H. induction H as [off g Hg | off g w l rest Hg Hw Ht IH].
  - cbn [map concat filter]. symmetry. apply allebad_filter. assumption.
  - cbn [map concat]. rewrite !filter_app. rewrite (allebad_filter g Hg). cbn [app].
    assert (E1 : slice_rel off (g ++ w ++ rest) (off + length g, length w)%nat = w).
    { unfold slice_rel. cbn [fst snd]. replace (off + length g - off)%nat with (length g) by lia.
      rewrite skipn_app_ge by lia. rewrite Nat.sub_diag. cbn [skipn].
      rewrite firstn_app. rewrite Nat.sub_diag. cbn [firstn]. rewrite firstn_all. apply app_nil_r. }
    rewrite E1. f_equal. rewrite <- IH. f_equal. f_equal.
    apply map_ext_in. intros sp Hin.
    pose proof (tiles_lower _ _ _ Ht) as Hl. rewrite Forall_forall in Hl. specialize (Hl sp Hin).
    unfold slice_rel. f_equal.
    rewrite skipn_app_ge by lia. rewrite skipn_app_ge by lia. f_equal. lia.
Qed.

Definition in_span (i : nat) (sp : nat * nat) : Prop := (fst sp <= i < fst sp + snd sp)%nat.

Lemma allebad_nth : forall g i, allebad g -> (i < length g)%nat -> nth i g 0 = EBAD.
Proof.
  intros g i H Hi. unfold allebad in H. rewrite Forall_forall in H. apply H. apply nth_In. assumption.
Qed.

(* every position outside all spans holds U+EBAD: nothing else is dropped *)
Lemma tiles_uncovered : forall off l text, tiles off l text ->
  forall i, (i < length text)%nat -> (forall sp, In sp l -> ~ in_span (off + i) sp) -> nth i text 0 = EBAD.
Proof.
  intros off l text H. induction H as [off g Hg | off g w l rest Hg Hw Ht IH]; intros i Hi Hno.
  - apply allebad_nth; assumption.
  - destruct (Nat.lt_ge_cases i (length g)) as [Hlt | Hge].
    + rewrite app_nth1 by assumption. apply allebad_nth; assumption.
    + rewrite app_nth2 by assumption.
      destruct (Nat.lt_ge_cases (i - length g) (length w)) as [Hlt2 | Hge2].
      * exfalso. apply (Hno (off + length g, length w)%nat); [left; reflexivity|].
        unfold in_span. cbn [fst snd]. lia.
      * rewrite app_nth2 by assumption.
        rewrite !app_length in Hi.
        apply IH; [lia|]. intros sp Hin Hs. apply (Hno sp); [right; assumption|].
        unfold in_span in *. lia.
Qed.

Lemma tiles_nonempty : forall off l text, tiles off l text -> Forall (fun sp => (0 < snd sp)%nat) l.
Proof.
  intros off l text H. induction H as [off g Hg | off g w l rest Hg Hw Ht IH]; constructor; [|assumption].
  cbn [snd]. destruct w; [contradiction | cbn [length]; lia].
Qed.
