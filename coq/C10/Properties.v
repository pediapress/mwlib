(* C10 — property theorems only, each taken from or put together in a few lines from the lemmas of the other
   files, and followed by Print Assumptions; the check re-compiles this file on every run. *)
From Coq Require Import List NArith Bool Lia.
From MW Require Import C10.Regex C10.Tags C10.Gen_rules C10.Model C10.Tiles C10.Proofs C10.ProofsWidth.
Import ListNotations.
Local Open Scope N_scope.

(* For EVERY text s (any list of code points, any length): the scanner model — rules regenerated from
   _uscan.re, re2c longest-match/first-rule semantics, hand-transcribed actions, the NUL sentinels of utoken.scan, fuel
   length s + 1 — terminates normally (neither out of fuel nor stuck), and with s' = the part of s
   before the first NUL, its token spans tile s':
       s' = g0 ++ w1 ++ g1 ++ ... ++ wn ++ gn,   token i = (offset of wi, length wi),  wi non-empty,
   every gap gi consisting of U+EBAD only.  So the tokens are non-empty, in order, start at 0 and
   end at length s' up to U+EBAD gaps, and the only characters not covered are U+EBAD.
   (U+EBAD inside a URL / html tag / comment is covered by that token: `url`, `[^\000<>]*` do not
   exclude it; the property allows that.) *)
Theorem C10_tiling : forall s : list N,
  exists l, scan s = F_done l /\ tiles 0 (spans l) (before_nul s).
Proof. exact scan_tiles. Qed.
Print Assumptions C10_tiling.

(* What `tiles` gives in elementary terms, for the tokens l the model returns on s:
   (1) spans are non-empty, ordered, non-overlapping, inside [0, length s');
   (2) every position of s' outside all spans holds U+EBAD (nothing else is dropped);
   (3) the concatenation of the span texts equals s' once U+EBAD is filtered from both;
   (4) if s' contains no U+EBAD the spans are exactly contiguous from 0 to length s'. *)
Theorem C10_tiling_consequences : forall s l, scan s = F_done l ->
  let s' := before_nul s in
  ordered 0 (spans l) (length s')
  /\ (forall i, (i < length s')%nat -> (forall t, In t l -> ~ (tstart t <= i < tstart t + tlen t)%nat) -> nth i s' 0 = EBAD)
  /\ filter nonebad (concat (map (slice s') (spans l))) = filter nonebad s'
  /\ (~ In EBAD s' -> contig 0 (spans l) (length s')).
Proof. exact scan_consequences. Qed.
Print Assumptions C10_tiling_consequences.

(* FIELD WIDTHS.  The real scanner keeps (type, start, len) in `int`s and indexes its token vector with `int`; the model
   uses unbounded naturals.  For every text: there are at most as many tokens as code points before the first NUL, every
   token is non-empty and ends inside the text.  Hence with fewer than 2^31 = 2147483648 code points no start, length,
   end offset or token index exceeds INT_MAX (the assumption "int overflow is not modelled" needs nothing more). *)
Theorem C10_fields_bounded : forall s l, scan s = F_done l ->
  let n := length (before_nul s) in
  (length l <= n)%nat
  /\ forall t, In t l -> (0 < tlen t)%nat /\ (tstart t + tlen t <= n)%nat.
Proof. exact scan_fields_bounded. Qed.
Print Assumptions C10_fields_bounded.

Theorem C10_fields_fit_int : forall s l, scan s = F_done l ->
  (N.of_nat (length s) < 2147483648)%N ->
  (N.of_nat (length l) < 2147483648)%N
  /\ forall t, In t l -> (N.of_nat (tstart t) < 2147483648 /\ N.of_nat (tlen t) < 2147483648 /\ N.of_nat (tstart t + tlen t) < 2147483648)%N.
Proof.
  intros s l Hs Hlen. destruct (scan_fields_bounded s l Hs) as (Hcnt & Htok).
  pose proof (before_nul_length s) as Hb. split; [lia|].
  intros t Hin. destruct (Htok t Hin). lia.
Qed.
Print Assumptions C10_fields_fit_int.

(* ... and nothing NARROWER is justified: on a text without U+EBAD the token lengths add up to the length of the text
   (before the first NUL), so if every length were at most W, k tokens could cover at most k * W code points.  A single
   lexeme of more than W code points (one token: C10_long_lexeme_example) cannot be represented with lengths <= W. *)
Theorem C10_lengths_add_up : forall s l, scan s = F_done l -> ~ In EBAD (before_nul s) ->
  list_sum (map tlen l) = length (before_nul s).
Proof. exact scan_lengths_add_up. Qed.
Print Assumptions C10_lengths_add_up.

Theorem C10_narrow_length_field_loses_text : forall s l W, scan s = F_done l -> ~ In EBAD (before_nul s) ->
  (forall t, In t l -> (tlen t <= W)%nat) -> (length (before_nul s) <= length l * W)%nat.
Proof.
  intros s l W Hs Hn HW. rewrite <- (scan_lengths_add_up s l Hs Hn), <- (map_length tlen l).
  apply list_sum_bound. rewrite Forall_forall. intros x Hx. apply in_map_iff in Hx.
  destruct Hx as (t & <- & Hin). exact (HW t Hin).
Qed.
Print Assumptions C10_narrow_length_field_loses_text.

Example C10_long_lexeme_example : scan (repeat 97 300) = F_done [Tok t_text 0 300].
Proof. vm_compute. reflexivity. Qed.
Print Assumptions C10_long_lexeme_example.

(* Obligations on the GENERATED rule table (re-proved by vm_compute whenever _uscan.re changes):
   every rule is non-nullable and either avoids NUL or is a single-character class; the U+EBAD rule is
   exactly "\XEBAD", the end rule exactly "\000", the break rule is <char> <non-nullable> and avoids NUL;
   the main block has no `goto not_bol`; `.`, "\n" (main) and `[^]` (bol) exist, so some rule always
   applies; at a NUL the bol block falls through and the main block ends the scan; utoken.scan appends
   at least one NUL sentinel (the count is read from utoken.py). *)
Theorem C10_rule_table_obligations :
  (forallb rule_ok bol_rules = true /\ forallb rule_ok main_rules = true)
  /\ forallb (fun ra => negb (is_goto (snd ra))) main_rules = true
  /\ (has_rule re_dot main_rules = true /\ has_rule (chr 10) main_rules = true /\ has_rule re_any bol_rules = true)
  /\ (best_match bol_rules [0] = Some (A_goto_notbol, 1%nat) /\ best_match main_rules [0] = Some (A_end, 1%nat))
  /\ (exists pad, sentinels = 0 :: pad).
Proof. exact (conj all_rules_ok (conj main_no_goto (conj fallback_total (conj at_nul sentinels_nonempty)))). Qed.
Print Assumptions C10_rule_table_obligations.

(* The derivative matcher is correct w.r.t. the declarative semantics: a reported length is a longest
   matching prefix, and a match is reported whenever some prefix matches. *)
Theorem C10_longest_match_correct : forall r s,
  (forall n, longest_match r s = Some n ->
     (n <= length s)%nat /\ matches r (firstn n s) /\
     forall m, (m <= length s)%nat -> matches r (firstn m s) -> (m <= n)%nat)
  /\ (forall m, (m <= length s)%nat -> matches r (firstn m s) -> exists n, longest_match r s = Some n /\ (m <= n)%nat).
Proof. exact (fun r s => conj (longest_match_sound r s) (longest_match_complete r s)). Qed.
Print Assumptions C10_longest_match_correct.

(* Non-vacuity / concrete run: "a<EBAD>b=\n <NUL>c"  ->  text(0,1) text(2,2) newline(4,1) pre(5,1);
   the U+EBAD at offset 1 is dropped and prevents the merge of the two text tokens; "=" merges into
   the text token; the scan ends at the NUL. *)
Example C10_example :
  scan [97; 60333; 98; 61; 10; 32; 0; 99]
  = F_done [Tok t_text 0 1; Tok t_text 2 2; Tok t_newline 4 1; Tok t_pre 5 1]
  /\ before_nul [97; 60333; 98; 61; 10; 32; 0; 99] = [97; 60333; 98; 61; 10; 32].
Proof. vm_compute. split; reflexivity. Qed.
Print Assumptions C10_example.

(* Why the statement speaks of "gaps of U+EBAD" and not of "every U+EBAD removed": a U+EBAD that a
   longer rule runs across is part of that token.  "http://a<EBAD>" is ONE t_http_url token of length 9
   (the class of `url` does not exclude U+EBAD); the real scanner returns the same (differential run). *)
Example C10_ebad_inside_url_is_covered :
  scan [104; 116; 116; 112; 58; 47; 47; 97; 60333] = F_done [Tok t_http_url 0 9].
Proof. vm_compute. reflexivity. Qed.
Print Assumptions C10_ebad_inside_url_is_covered.
