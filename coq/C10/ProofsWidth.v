(* C10/ProofsWidth.v — how wide the fields of a token record have to be.  _uscan.re keeps (type, start, len) and the
   index into the token vector in `int`s; Model.v uses unbounded naturals.  Every start, length, end offset and the number
   of tokens are bounded by the number of code points before the first NUL, and on a text without U+EBAD the lengths add
   up to exactly that number, so no narrower field would do. *)
From Coq Require Import List NArith Bool Arith Lia.
From MW Require Import C10.Regex C10.Tags C10.Gen_rules C10.Model C10.Tiles C10.Proofs.
Import ListNotations.

Lemma ordered_bounds : forall l off e, ordered off l e ->
  Forall (fun sp => (off <= fst sp /\ 0 < snd sp /\ fst sp + snd sp <= e)%nat) l /\ (off + length l <= e)%nat.
Proof.
  induction l as [|[st len] tl IH]; intros off e H; cbn [ordered] in H.
  - split; [constructor | cbn [length]; lia].
  - destruct H as (Hoff & Hlen & Htl). destruct (IH _ _ Htl) as (Hall & Hcnt). split.
    + constructor.
      * cbn [fst snd]. split; [exact Hoff|]. split; [exact Hlen|].
        clear - Hcnt. lia.
      * eapply Forall_impl; [|exact Hall]. cbn beta. intros sp (H1 & H2 & H3). split; [lia|]. split; assumption.
    + cbn [length]. lia.
Qed.

Lemma scan_fields_bounded : forall s l, scan s = F_done l ->
  let n := length (before_nul s) in
  (length l <= n)%nat
  /\ forall t, In t l -> (0 < tlen t)%nat /\ (tstart t + tlen t <= n)%nat.
Proof.
  intros s l Hs n. destruct (scan_consequences s l Hs) as (Hord & _).
  destruct (ordered_bounds _ _ _ Hord) as (Hall & Hcnt). split.
  - unfold spans in Hcnt. rewrite map_length in Hcnt. fold n in Hcnt. lia.
  - intros t Hin. rewrite Forall_forall in Hall.
    specialize (Hall (tstart t, tlen t)). cbn [fst snd] in Hall.
    assert (In (tstart t, tlen t) (spans l)) as Hin'.
    { unfold spans. apply in_map_iff. exists t. split; [reflexivity | exact Hin]. }
    destruct (Hall Hin') as (_ & H2 & H3). fold n in H3. split; assumption.
Qed.

Lemma contig_sum : forall l off e, contig off l e -> (off + list_sum (map snd l) = e)%nat.
Proof.
  unfold list_sum.
  induction l as [|[st len] tl IH]; intros off e H; cbn [contig] in H; cbn [map fold_right snd].
  - lia.
  - destruct H as (_ & _ & Htl). specialize (IH _ _ Htl). lia.
Qed.

Lemma scan_lengths_add_up : forall s l, scan s = F_done l -> ~ In EBAD (before_nul s) ->
  list_sum (map tlen l) = length (before_nul s).
Proof.
  intros s l Hs Hn. destruct (scan_consequences s l Hs) as (_ & _ & _ & Hc).
  pose proof (contig_sum _ _ _ (Hc Hn)) as H. cbn [Nat.add] in H.
  unfold spans in H. rewrite map_map in H. cbn [snd] in H. exact H.
Qed.

Lemma list_sum_bound : forall (l : list nat) W, Forall (fun x => (x <= W)%nat) l -> (list_sum l <= length l * W)%nat.
Proof.
  unfold list_sum.
  induction l as [|x tl IH]; intros W H; cbn [fold_right length]; [lia|].
  inversion H as [|y z Hx Htl]; subst. specialize (IH W Htl). lia.
Qed.
