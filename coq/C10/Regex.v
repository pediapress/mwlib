(* C10/Regex.v — regular expressions over code points (N) with character classes given as
   range lists (+ negation), a Brzozowski-derivative matcher and `longest_match`.  Declarative
   semantics `matches`; the matcher is proved sound, complete and maximal against it, so every
   other fact is proved on the declarative side. *)
From Coq Require Import List NArith Bool Lia Arith.
Import ListNotations.
Local Open Scope N_scope.

Definition ranges := list (N * N).

Fixpoint in_ranges (c : N) (rs : ranges) : bool :=
  match rs with
  | [] => false
  | (lo, hi) :: tl => ((lo <=? c) && (c <=? hi)) || in_ranges c tl
  end.

Record cls := Cls { cneg : bool; crs : ranges }.

Definition cls_mem (c : N) (k : cls) : bool := xorb (cneg k) (in_ranges c (crs k)).

Inductive re :=
| Emp                      (* no string *)
| Eps                      (* the empty string *)
| Chr (k : cls)            (* one code point of the class *)
| Cat (a b : re)
| Alt (a b : re)
| Star (a : re).

Definition chr (c : N) : re := Chr (Cls false [(c, c)]).

Fixpoint str (l : list N) : re :=
  match l with
  | [] => Eps
  | [c] => chr c
  | c :: tl => Cat (chr c) (str tl)
  end.

Definition plus (r : re) : re := Cat r (Star r).
Definition opt (r : re) : re := Alt r Eps.
Fixpoint rep (n : nat) (r : re) (tail : re) : re :=   (* r^n tail *)
  match n with O => tail | S m => Cat r (rep m r tail) end.

Fixpoint nullable (r : re) : bool :=
  match r with
  | Emp => false
  | Eps => true
  | Chr _ => false
  | Cat a b => nullable a && nullable b
  | Alt a b => nullable a || nullable b
  | Star _ => true
  end.

Inductive matches : re -> list N -> Prop :=
| m_eps : matches Eps []
| m_chr : forall k c, cls_mem c k = true -> matches (Chr k) [c]
| m_cat : forall a b u v, matches a u -> matches b v -> matches (Cat a b) (u ++ v)
| m_altl : forall a b u, matches a u -> matches (Alt a b) u
| m_altr : forall a b u, matches b u -> matches (Alt a b) u
| m_star0 : forall a, matches (Star a) []
| m_star1 : forall a u v, u <> [] -> matches a u -> matches (Star a) v -> matches (Star a) (u ++ v).

Lemma nullable_spec : forall r, nullable r = true <-> matches r [].
Proof.
  induction r; cbn [nullable]; split; intro H; try discriminate; try reflexivity.
  - inversion H.
  - constructor.
  - inversion H.
  - apply andb_true_iff in H. destruct H as [Ha Hb].
    change (@nil N) with (@nil N ++ []). constructor; [apply IHr1 | apply IHr2]; assumption.
  - inversion H as [| |a b u v Hu Hv Heq| | | |]; subst.
    match goal with E : _ ++ _ = [] |- _ => apply app_eq_nil in E; destruct E; subst end.
    apply andb_true_iff. split; [apply IHr1 | apply IHr2]; assumption.
  - apply orb_true_iff in H. destruct H as [Ha | Hb];
      [apply m_altl; apply IHr1 | apply m_altr; apply IHr2]; assumption.
  - apply orb_true_iff. inversion H; subst; [left; apply IHr1 | right; apply IHr2]; assumption.
  - constructor.
Qed.

Lemma matches_emp : forall w, ~ matches Emp w.
Proof. intros w H. inversion H. Qed.

Lemma cat_inv : forall a b w, matches (Cat a b) w ->
  exists u v, w = u ++ v /\ matches a u /\ matches b v.
Proof. intros a b w H. inversion H; subst. eauto. Qed.

Definition is_emp (r : re) : bool := match r with Emp => true | _ => false end.

Definition cat (a b : re) : re :=
  match a with
  | Emp => Emp
  | Eps => b
  | _ => match b with Emp => Emp | Eps => a | _ => Cat a b end
  end.

Fixpoint N_pairs_eqb (x y : ranges) : bool :=
  match x, y with
  | [], [] => true
  | (a, b) :: x', (c, d) :: y' => (a =? c) && (b =? d) && N_pairs_eqb x' y'
  | _, _ => false
  end.

Definition cls_eqb (k l : cls) : bool := Bool.eqb (cneg k) (cneg l) && N_pairs_eqb (crs k) (crs l).

Fixpoint re_eqb (x y : re) : bool :=
  match x, y with
  | Emp, Emp => true
  | Eps, Eps => true
  | Chr k, Chr l => cls_eqb k l
  | Cat a b, Cat c d => re_eqb a c && re_eqb b d
  | Alt a b, Alt c d => re_eqb a c && re_eqb b d
  | Star a, Star b => re_eqb a b
  | _, _ => false
  end.

Lemma N_pairs_eqb_eq : forall x y, N_pairs_eqb x y = true -> x = y.
Proof.
  induction x as [|[a b] x IH]; destruct y as [|[c d] y]; cbn [N_pairs_eqb]; intro H;
    try discriminate; try reflexivity.
  apply andb_true_iff in H. destruct H as [H H3]. apply andb_true_iff in H. destruct H as [H1 H2].
  apply N.eqb_eq in H1. apply N.eqb_eq in H2. subst. f_equal. apply IH. assumption.
Qed.

Lemma cls_eqb_eq : forall k l, cls_eqb k l = true -> k = l.
Proof.
  intros [n1 r1] [n2 r2]. unfold cls_eqb. cbn [cneg crs]. intro H.
  apply andb_true_iff in H. destruct H as [H1 H2].
  apply Bool.eqb_prop in H1. apply N_pairs_eqb_eq in H2. subst. reflexivity.
Qed.

Lemma re_eqb_eq : forall x y, re_eqb x y = true -> x = y.
Proof.
  induction x; destruct y; cbn [re_eqb]; intro H; try discriminate; try reflexivity.
  - f_equal. apply cls_eqb_eq. assumption.
  - apply andb_true_iff in H. destruct H as [H1 H2]. f_equal; [apply IHx1 | apply IHx2]; assumption.
  - apply andb_true_iff in H. destruct H as [H1 H2]. f_equal; [apply IHx1 | apply IHx2]; assumption.
  - f_equal. apply IHx. assumption.
Qed.

(* is b one of the alternatives of a (so that Alt a b would be redundant)? *)
Fixpoint alt_mem (b a : re) : bool :=
  re_eqb a b || match a with Alt x y => alt_mem b x || alt_mem b y | _ => false end.

Definition alt (a b : re) : re :=
  match a with
  | Emp => b
  | _ => match b with
         | Emp => a
         | _ => if alt_mem b a then a else Alt a b
         end
  end.

Lemma alt_mem_sound : forall b a w, alt_mem b a = true -> matches b w -> matches a w.
Proof.
  induction a; intros w H Hm; cbn [alt_mem] in H; apply orb_true_iff in H; destruct H as [H | H];
    try discriminate; try (apply re_eqb_eq in H; subst; assumption).
  apply orb_true_iff in H. destruct H as [H | H]; [apply m_altl, IHa1 | apply m_altr, IHa2]; assumption.
Qed.

(* what the smart constructors return *)
Lemma cat_cases : forall a b,
  (cat a b = Emp /\ (a = Emp \/ b = Emp)) \/ (cat a b = b /\ a = Eps) \/ (cat a b = a /\ b = Eps) \/ cat a b = Cat a b.
Proof. intros a b. destruct a; destruct b; cbn [cat]; auto. Qed.

Lemma cat_spec : forall a b w, matches (cat a b) w <-> matches (Cat a b) w.
Proof.
  intros a b w. destruct (cat_cases a b) as [[-> E] | [[-> ->] | [[-> ->] | ->]]]; [| | |reflexivity].
  - split; intro H; [exfalso; exact (matches_emp _ H)|].
    apply cat_inv in H. destruct H as (u & v & _ & Hu & Hv).
    destruct E as [-> | ->]; exfalso; eapply matches_emp; eassumption.
  - split; intro H.
    + change w with ([] ++ w). constructor; [constructor | assumption].
    + apply cat_inv in H. destruct H as (u & v & -> & Hu & Hv). inversion Hu; subst. exact Hv.
  - split; intro H.
    + rewrite <- (app_nil_r w). constructor; [assumption | constructor].
    + apply cat_inv in H. destruct H as (u & v & -> & Hu & Hv). inversion Hv; subst. rewrite app_nil_r. exact Hu.
Qed.

Lemma alt_cases : forall a b,
  (alt a b = b /\ a = Emp) \/ (alt a b = a /\ (b = Emp \/ alt_mem b a = true)) \/ alt a b = Alt a b.
Proof.
  intros a b. destruct a; [left; auto|..]; (destruct b; [right; left; auto|..]); cbn [alt];
    (destruct (alt_mem _ _) eqn:E; [right; left; auto | right; right; reflexivity]).
Qed.

Lemma alt_spec : forall a b w, matches (alt a b) w <-> (matches a w \/ matches b w).
Proof.
  intros a b w. destruct (alt_cases a b) as [[-> ->] | [[-> E] | ->]].
  - split; [auto | intros [H | H]; [exfalso; exact (matches_emp _ H) | exact H]].
  - split; [auto | intros [H | H]; [exact H|]].
    destruct E as [-> | E]; [exfalso; exact (matches_emp _ H) | eapply alt_mem_sound; eassumption].
  - split; [intro H; inversion H; subst; auto | intros [H | H]; [apply m_altl | apply m_altr]; assumption].
Qed.

Fixpoint deriv (c : N) (r : re) : re :=
  match r with
  | Emp => Emp
  | Eps => Emp
  | Chr k => if cls_mem c k then Eps else Emp
  | Cat a b => alt (cat (deriv c a) b) (if nullable a then deriv c b else Emp)
  | Alt a b => alt (deriv c a) (deriv c b)
  | Star a => cat (deriv c a) (Star a)
  end.

Lemma star_cons_inv : forall a c w, matches (Star a) (c :: w) ->
  exists u v, w = u ++ v /\ matches a (c :: u) /\ matches (Star a) v.
Proof.
  intros a c w H. inversion H as [| | | | | |a' u v Hne Hu Hv]; subst.
  destruct u as [|c' u]; [contradiction|].
  match goal with E : (_ :: _) ++ _ = _ :: _ |- _ => cbn [app] in E; inversion E; subst end.
  exists u, v. auto.
Qed.

Lemma deriv_spec : forall r c w, matches (deriv c r) w <-> matches r (c :: w).
Proof.
  induction r; intros c w; cbn [deriv].
  - split; intro H; inversion H.
  - split; intro H; inversion H.
  - destruct (cls_mem c k) eqn:E; split; intro H.
    + inversion H; subst. constructor. assumption.
    + inversion H; subst. constructor.
    + inversion H.
    + inversion H; subst. congruence.
  - rewrite alt_spec, cat_spec. split.
    + intros [H | H].
      * inversion H as [| |a' b' u v Hu Hv| | | |]; subst.
        change (c :: u ++ v) with ((c :: u) ++ v). constructor; [apply IHr1|]; assumption.
      * destruct (nullable r1) eqn:E; [|exfalso; exact (matches_emp _ H)].
        change (c :: w) with ([] ++ c :: w). constructor; [apply nullable_spec | apply IHr2]; assumption.
    + intro H. apply cat_inv in H. destruct H as (u & v & Heq & Hu & Hv).
      destruct u as [|c' u].
      * cbn [app] in Heq. subst v. right.
        apply nullable_spec in Hu. rewrite Hu. apply IHr2. assumption.
      * cbn [app] in Heq. inversion Heq; subst. left. constructor; [apply IHr1|]; assumption.
  - rewrite alt_spec. split.
    + intros [H | H]; [apply m_altl, IHr1 | apply m_altr, IHr2]; assumption.
    + intro H. inversion H; subst; [left; apply IHr1 | right; apply IHr2]; assumption.
  - rewrite cat_spec. split.
    + intro H. inversion H as [| |a' b' u v Hu Hv| | | |]; subst.
      change (c :: u ++ v) with ((c :: u) ++ v). constructor; [discriminate | apply IHr; assumption | assumption].
    + intro H. apply star_cons_inv in H. destruct H as (u & v & -> & Hu & Hv).
      constructor; [apply IHr|]; assumption.
Qed.

(* [lm r s k best]: r is what remains to be matched after k consumed characters; best is the
   longest accepted length seen so far. *)
Fixpoint lm (r : re) (s : list N) (k : nat) (best : option nat) : option nat :=
  let best' := if nullable r then Some k else best in
  match s with
  | [] => best'
  | c :: s' => if is_emp r then best' else lm (deriv c r) s' (S k) best'
  end.

Definition longest_match (r : re) (s : list N) : option nat := lm r s 0%nat None.

Lemma lm_spec : forall s r k best,
  (lm r s k best = best /\ forall m, (m <= length s)%nat -> ~ matches r (firstn m s))
  \/ (exists n, lm r s k best = Some (k + n)%nat /\ (n <= length s)%nat /\ matches r (firstn n s)
        /\ forall m, (m <= length s)%nat -> matches r (firstn m s) -> (m <= n)%nat).
Proof.
  induction s as [|c s IH]; intros r k best; cbn [lm].
  - destruct (nullable r) eqn:E.
    + right. exists 0%nat. rewrite Nat.add_0_r. cbn [firstn length].
      split; [reflexivity|]. split; [lia|]. split; [apply nullable_spec; assumption|].
      intros m Hm _. lia.
    + left. split; [reflexivity|]. intros m _ H. rewrite firstn_nil in H.
      apply nullable_spec in H. congruence.
  - destruct (is_emp r) eqn:Ee.
    + destruct r; try discriminate. cbn [nullable]. left. split; [reflexivity|].
      intros m _ H. exact (matches_emp _ H).
    + destruct (IH (deriv c r) (S k) (if nullable r then Some k else best)) as [[Heq Hno] | (n & Heq & Hn & Hm & Hmax)].
      * rewrite Heq. destruct (nullable r) eqn:E.
        -- right. exists 0%nat. rewrite Nat.add_0_r. cbn [firstn].
           split; [reflexivity|]. split; [lia|]. split; [apply nullable_spec; assumption|].
           intros m Hle H. destruct m as [|m]; [lia|]. cbn [firstn] in H. apply deriv_spec in H.
           cbn [length] in Hle. exfalso. apply (Hno m); [lia | assumption].
        -- left. split; [reflexivity|]. intros m Hle H. destruct m as [|m].
           ++ cbn [firstn] in H. apply nullable_spec in H. congruence.
           ++ cbn [firstn] in H. apply deriv_spec in H. cbn [length] in Hle. apply (Hno m); [lia | assumption].
      * right. exists (S n). rewrite Heq. cbn [firstn length].
        split; [f_equal; lia|]. split; [lia|]. split; [apply deriv_spec; assumption|].
        intros m Hle H. destruct m as [|m]; [lia|]. cbn [firstn] in H. apply deriv_spec in H.
        cbn [length] in Hle. specialize (Hmax m ltac:(lia) H). lia.
Qed.

(* soundness: a reported match length is within the input, its prefix matches, and no longer prefix does *)
Lemma longest_match_sound : forall r s n, longest_match r s = Some n ->
  (n <= length s)%nat /\ matches r (firstn n s)
  /\ forall m, (m <= length s)%nat -> matches r (firstn m s) -> (m <= n)%nat.
Proof.
  intros r s n H. unfold longest_match in H.
  destruct (lm_spec s r 0%nat None) as [[Heq _] | (n' & Heq & Hn & Hm & Hmax)].
  - congruence.
  - rewrite Heq in H. cbn [Nat.add] in H. inversion H; subst. auto.
Qed.

(* completeness: if some prefix matches, a match (at least that long) is reported *)
Lemma longest_match_complete : forall r s m, (m <= length s)%nat -> matches r (firstn m s) ->
  exists n, longest_match r s = Some n /\ (m <= n)%nat.
Proof.
  intros r s m Hle Hm. unfold longest_match.
  destruct (lm_spec s r 0%nat None) as [[_ Hno] | (n' & Heq & Hn & Hm' & Hmax)].
  - exfalso. exact (Hno m Hle Hm).
  - exists n'. split; [rewrite Heq; reflexivity | apply Hmax; assumption].
Qed.

Lemma longest_match_le : forall r s n, longest_match r s = Some n -> (n <= length s)%nat.
Proof. intros r s n H. apply longest_match_sound in H. tauto. Qed.

Lemma longest_match_pos : forall r s n, nullable r = false -> longest_match r s = Some n -> (0 < n)%nat.
Proof.
  intros r s n Hnn H. apply longest_match_sound in H. destruct H as (_ & Hm & _).
  destruct n; [|lia]. cbn [firstn] in Hm. apply nullable_spec in Hm. congruence.
Qed.

(* syntactic: no character class of r contains c *)
Fixpoint avoids (c : N) (r : re) : bool :=
  match r with
  | Emp | Eps => true
  | Chr k => negb (cls_mem c k)
  | Cat a b | Alt a b => avoids c a && avoids c b
  | Star a => avoids c a
  end.

Lemma avoids_matches : forall c r w, avoids c r = true -> matches r w -> ~ In c w.
Proof.
  intros c r w Ha Hm. induction Hm; cbn [avoids] in Ha;
    try (apply andb_true_iff in Ha; destruct Ha as [Ha1 Ha2]).
  - intros [].
  - intros [E | []]. subst. rewrite H in Ha. discriminate.
  - intro H. apply in_app_or in H. destruct H; [apply IHHm1 | apply IHHm2]; assumption.
  - auto.
  - auto.
  - intros [].
  - intro H0. apply in_app_or in H0. destruct H0; [apply IHHm1 | apply IHHm2]; assumption.
Qed.

Lemma longest_match_avoids : forall c r s n, avoids c r = true -> longest_match r s = Some n ->
  ~ In c (firstn n s).
Proof.
  intros c r s n Ha H. apply longest_match_sound in H. destruct H as (_ & Hm & _).
  eapply avoids_matches; eassumption.
Qed.

Lemma matches_chr_inv : forall k w, matches (Chr k) w -> exists c, w = [c] /\ cls_mem c k = true.
Proof. intros k w H. inversion H; subst. eauto. Qed.

Lemma longest_match_chr : forall k s n, longest_match (Chr k) s = Some n ->
  n = 1%nat /\ exists c tl, s = c :: tl /\ cls_mem c k = true.
Proof.
  intros k s n H. apply longest_match_sound in H. destruct H as (Hle & Hm & _).
  apply matches_chr_inv in Hm. destruct Hm as (c & Hw & Hc).
  destruct s as [|c' tl]; [rewrite firstn_nil in Hw; discriminate|].
  destruct n as [|n]; [discriminate|]. cbn [firstn] in Hw. inversion Hw; subst.
  destruct n as [|n].
  - split; eauto.
  - destruct tl; [cbn [length] in Hle; lia | discriminate].
Qed.

Lemma longest_match_chr_some : forall k c tl, cls_mem c k = true ->
  exists n, longest_match (Chr k) (c :: tl) = Some n.
Proof.
  intros k c tl H.
  destruct (longest_match_complete (Chr k) (c :: tl) 1%nat) as (n & Hn & _).
  - cbn [length]. lia.
  - cbn [firstn]. constructor. assumption.
  - eauto.
Qed.

(* a rule of the shape  <one char> r'  with r' non-nullable matches at least 2 characters *)
Lemma longest_match_cat_chr : forall k r' s n, nullable r' = false ->
  longest_match (Cat (Chr k) r') s = Some n -> (2 <= n)%nat.
Proof.
  intros k r' s n Hnn H. apply longest_match_sound in H. destruct H as (_ & Hm & _).
  apply cat_inv in Hm. destruct Hm as (u & v & Heq & Hu & Hv).
  apply matches_chr_inv in Hu. destruct Hu as (c & -> & _).
  destruct v as [|c' v]; [apply nullable_spec in Hv; congruence|].
  assert (L : length (firstn n s) = length ([c] ++ c' :: v)) by (rewrite Heq; reflexivity).
  rewrite firstn_length in L. cbn [app length] in L. lia.
Qed.

Lemma cls_mem_chr : forall c d, cls_mem c (Cls false [(d, d)]) = true -> c = d.
Proof.
  intros c d H. unfold cls_mem in H. cbv [cneg crs in_ranges] in H.
  rewrite xorb_false_l, orb_false_r in H.
  apply andb_true_iff in H. destruct H as [H1 H2]. apply N.leb_le in H1. apply N.leb_le in H2. lia.
Qed.

Lemma cls_mem_dot : forall c, c <> 10 -> cls_mem c (Cls true [(10, 10)]) = true.
Proof.
  intros c H. unfold cls_mem. cbv [cneg crs in_ranges]. rewrite orb_false_r.
  destruct ((10 <=? c) && (c <=? 10)) eqn:E; [|reflexivity].
  apply andb_true_iff in E. destruct E as [E1 E2]. apply N.leb_le in E1. apply N.leb_le in E2. lia.
Qed.

Lemma cls_mem_self c : cls_mem c (Cls false [(c, c)]) = true.
Proof. unfold cls_mem. cbn [cneg crs in_ranges]. rewrite N.leb_refl. reflexivity. Qed.

Lemma matches_chr c : matches (chr c) [c].
Proof. constructor. apply cls_mem_self. Qed.

Lemma matches_str : forall l, matches (str l) l.
Proof.
  induction l as [|c tl IH]; [constructor|].
  destruct tl as [|d tl]; [apply matches_chr|].
  change (c :: d :: tl) with ([c] ++ d :: tl). change (str (c :: d :: tl)) with (Cat (chr c) (str (d :: tl))).
  constructor; [apply matches_chr | exact IH].
Qed.

Lemma matches_star_cls k : forall w, (forall c, In c w -> cls_mem c k = true) -> matches (Star (Chr k)) w.
Proof.
  induction w as [|c w IH]; intros H; [constructor|].
  change (c :: w) with ([c] ++ w). constructor; [discriminate | constructor; apply H; left; reflexivity |].
  apply IH. intros d Hd. apply H. right. exact Hd.
Qed.

Lemma matches_plus_cls k w : w <> [] -> (forall c, In c w -> cls_mem c k = true) -> matches (plus (Chr k)) w.
Proof.
  intros Hw H. destruct w as [|c w]; [contradiction|].
  change (c :: w) with ([c] ++ w). unfold plus. constructor.
  - constructor. apply H. left. reflexivity.
  - apply matches_star_cls. intros d Hd. apply H. right. exact Hd.
Qed.
