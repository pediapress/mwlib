(* C06 — link between the two models of TreeCleaner._filter_tree:
     C06/ModelNesting.v      filt flt mt      (labelled trees with marks; used by the termination / word proofs)
     C06/ModelNestingHeap.v  tfilter drop t   (what the heap-level replay hfilter provably leaves: C06_filter_tree_heap)
   With drop j := "the mark of node j is in the filter" they compute the same tree. *)
From Coq Require Import List NArith Bool Arith Lia.
From MW Require Import C05.Heap C05.TreeOps C05.ProofsApi C06.ModelNesting C06.ModelNestingHeap.
From MW Require C06.ProofsNesting.
Import ListNotations.

Fixpoint merase (t : mtree) : tree := let 'MT _ a ts := t in T (l_id a) (map merase ts).
Fixpoint mmarks (t : mtree) : list (N * mark) := let 'MT m a ts := t in (l_id a, m) :: flat_map mmarks ts.
Definition mark_at (l : list (N * mark)) (j : N) : mark :=
  match find (fun e => N.eqb (fst e) j) l with Some e => snd e | None => MNone end.

Lemma mtree_ind' (P : mtree -> Prop) :
  (forall m a ts, Forall P ts -> P (MT m a ts)) -> forall t, P t.
Proof.
  intros H. fix IH 1. intros [m a ts]. apply H.
  induction ts as [|x r IHr]; constructor; [apply IH | exact IHr].
Qed.

Lemma mmarks_root : forall t, In (tid (merase t), mmark t) (mmarks t).
Proof. intros [m a ts]. simpl. auto. Qed.

Lemma filt_tfilter_gen : forall flt l mt,
  (forall i m, In (i, m) (mmarks mt) -> mark_at l i = m) ->
  erase (filt flt mt) = tfilter (fun j => flt (mark_at l j)) (merase mt).
Proof.
  intros flt l. induction mt as [m a ts IH] using mtree_ind'. intros Hl.
  cbn [filt erase merase tfilter]. f_equal.
  assert (Hsub : forall c, In c ts -> forall i m', In (i, m') (mmarks c) -> mark_at l i = m').
  { intros c Hc i m' Hi. apply Hl. simpl. right. apply in_flat_map. eauto. }
  clear Hl. induction ts as [|c r IHr]; [reflexivity|].
  inversion IH as [|? ? Pc Pr]; subst.
  cbn [flat_map map]. rewrite map_app.
  assert (Ec : mark_at l (tid (merase c)) = mmark c).
  { apply (Hsub c); [simpl; auto | apply mmarks_root]. }
  rewrite Ec. rewrite IHr; auto.
  - destruct (flt (mmark c)); cbn [map app]; [reflexivity|]. rewrite Pc; auto.
    intros i m' Hi. apply (Hsub c); simpl; auto.
  - intros c' Hc'. apply Hsub. simpl. auto.
Qed.

Lemma ids_merase : forall t, ids (merase t) = map fst (mmarks t).
Proof.
  induction t as [m a ts IH] using mtree_ind'. cbn [merase ids mmarks map fst]. f_equal.
  induction ts as [|c r IHr]; [reflexivity|]. inversion IH as [|? ? Pc Pr]; subst.
  cbn [map flat_map]. rewrite map_app, Pc, IHr; auto.
Qed.

Lemma mark_at_nodup : forall l i m, NoDup (map fst l) -> In (i, m) l -> mark_at l i = m.
Proof.
  unfold mark_at. induction l as [|[k v] l IH]; intros i m Hnd Hin; [destruct Hin|].
  cbn [map fst] in Hnd. inversion Hnd as [|? ? Hk Hnd']; subst. cbn [find fst].
  destruct Hin as [E|Hin].
  - inversion E; subst. rewrite N.eqb_refl. reflexivity.
  - destruct (N.eqb_spec k i) as [->|Hne].
    + exfalso. apply Hk. apply in_map_iff. exists (i, m). auto.
    + apply IH; auto.
Qed.

Theorem filt_tfilter : forall flt mt, NoDup (ids (merase mt)) ->
  erase (filt flt mt) = tfilter (fun j => flt (mark_at (mmarks mt) j)) (merase mt).
Proof.
  intros flt mt Hnd. apply filt_tfilter_gen. intros i m Hi. apply mark_at_nodup; auto.
  rewrite <- ids_merase. exact Hnd.
Qed.

(* the marked tree _mark_nodes builds has the identities and the shape of the bad parent *)
Lemma merase_mark_t : forall eqn divide prob m t, merase (mark_t eqn divide prob m t) = erase t.
Proof.
  intros eqn divide prob m t. revert m.
  induction t as [a ts IH] using C06.ProofsNesting.ltree_ind'. intros m.
  cbn [mark_t merase erase]. f_equal.
  assert (Hmap : forall m', map merase (map (mark_t eqn divide prob m') ts) = map erase ts).
  { intro m'. rewrite map_map. apply map_ext_in. intros c Hc. rewrite Forall_forall in IH. apply IH; auto. }
  destruct m; [|apply Hmap..].
  (* MNone: the divide logic *)
  clear Hmap. generalize false as got.
  induction ts as [|c r IHr]; intros got; [reflexivity|].
  inversion IH as [|? ? Pc Pr]; subst.
  cbn [mark_kids map]. destruct (existsb (eqn c) divide); cbn [map]; rewrite Pc, (IHr Pr); reflexivity.
Qed.

(* ... so the three pieces the labelled model takes (ModelNesting.pieces: filt ftop / fmid / fbot of the marked bad
   parent) are tfilter of the bad parent's tree under "mark in the filter" *)
Corollary pieces_tfilter : forall eqn divide prob B flt, NoDup (lids B) ->
  erase (filt flt (mark_t eqn divide prob MNone B)) =
  tfilter (fun j => flt (mark_at (mmarks (mark_t eqn divide prob MNone B)) j)) (erase B).
Proof.
  intros eqn divide prob B flt Hnd.
  rewrite <- (merase_mark_t eqn divide prob MNone B). apply filt_tfilter.
  rewrite merase_mark_t, C06.ProofsNesting.lids_erase. exact Hnd.
Qed.
