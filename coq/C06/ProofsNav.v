(* C06 — the candidates of remove_breaking_returns computed by the REAL navigation functions
   (C06/ModelNav.v) satisfy the hypothesis of Proofs.C06_breaking_returns_terminates on a proper tree
   whose root is no BreakingReturn; the loop with these candidates terminates when no node on the parent
   chain of the start node is a BreakingReturn; without that it can spin forever (refuted by a run). *)
From Coq Require Import List NArith Bool Arith Lia.
From MW Require Import C05.Heap C05.TreeOps C05.ProofsApi C06.Model C06.ModelNav C07.Proofs C06.Proofs.
Import ListNotations.

Lemma siblings_in : forall h t n x, repr h None t -> In n (ids t) -> In x (siblings h n) ->
  In x (ids t).
Proof.
  intros h t n x Hr Hn Hx. unfold siblings in Hx. destruct (par h n) as [p|] eqn:Hp; [|contradiction].
  destruct (par_in_tree _ _ _ _ Hr Hn Hp) as [Hpt _]. eapply child_in_ids; eassumption.
Qed.

Lemma get_next_sib : forall h n x, get_next h n = Some x -> In x (siblings h n).
Proof.
  intros h n x H. unfold get_next in H. destruct (index_of n (siblings h n)); [|discriminate].
  eapply nth_error_In; eassumption.
Qed.

Lemma get_previous_sib : forall h n x, get_previous h n = Some x -> In x (siblings h n).
Proof.
  intros h n x H. unfold get_previous in H. destruct (index_of n (siblings h n)) as [[|k]|]; try discriminate.
  eapply nth_error_In; eassumption.
Qed.

Lemma get_next_in : forall h t n x, repr h None t -> In n (ids t) -> get_next h n = Some x -> In x (ids t).
Proof. intros h t n x Hr Hn H. eapply siblings_in; eauto using get_next_sib. Qed.

Lemma get_previous_in : forall h t n x, repr h None t -> In n (ids t) -> get_previous h n = Some x ->
  In x (ids t).
Proof. intros h t n x Hr Hn H. eapply siblings_in; eauto using get_previous_sib. Qed.

Lemma first_leaf_in : forall h t, repr h None t -> forall f self n c,
  In n (ids t) -> first_leaf f h self n = NRes (Some c) -> In c (ids t).
Proof.
  intros h t Hr. induction f as [|f IH]; intros self n c Hn H; [discriminate|].
  simpl in H. destruct (kids h n) as [|c0 rest] eqn:Hk.
  - destruct self; inversion H; subst. exact Hn.
  - assert (K : forall x, In x (c0 :: rest) -> In x (ids t)).
    { intros x Hx. rewrite <- Hk in Hx. eapply child_in_ids; eassumption. }
    destruct (N.eqb (clsof h n) c_Section).
    + destruct rest as [|c1 rest']; [discriminate|].
      eapply IH; [|exact H]. apply K. right. left. reflexivity.
    + eapply IH; [|exact H]. apply K. left. reflexivity.
Qed.

Lemma last_opt_in {A} : forall (l : list A) x, last_opt l = Some x -> In x l.
Proof.
  intros l x H. destruct (last_opt_spec _ _ H) as [ks ->]. apply in_or_app. right. left. reflexivity.
Qed.

Lemma last_leaf_in : forall h t f n c, repr h None t ->
  In n (ids t) -> last_leaf f h n = NRes (Some c) -> In c (ids t).
Proof.
  intros h t f n c Hr Hn H. unfold last_leaf in H.
  destruct (last_opt (kids h n)) as [l|] eqn:L; [|discriminate].
  eapply first_leaf_in; [exact Hr| |exact H].
  eapply child_in_ids; [exact Hr|exact Hn|]. apply last_opt_in. exact L.
Qed.

(* node.next or node.parent.next *)
Definition next_node (h : heap) (n : N) : option N :=
  match get_next h n with
  | Some x => Some x
  | None => match par h n with Some p => get_next h p | None => None end
  end.
(* node.previous or node.parent *)
Definition prev_node (h : heap) (n : N) : option N :=
  match get_previous h n with Some x => Some x | None => par h n end.

Lemma next_node_in : forall h t n x, repr h None t -> In n (ids t) -> next_node h n = Some x -> In x (ids t).
Proof.
  intros h t n x Hr Hn H. unfold next_node in H. destruct (get_next h n) as [y|] eqn:G.
  - inversion H; subst y. eapply get_next_in; eassumption.
  - destruct (par h n) as [p|] eqn:Hp; [|discriminate].
    destruct (par_in_tree _ _ _ _ Hr Hn Hp) as [Hpt _]. eapply get_next_in; eassumption.
Qed.

Lemma prev_node_in : forall h t n x, repr h None t -> In n (ids t) -> prev_node h n = Some x -> In x (ids t).
Proof.
  intros h t n x Hr Hn H. unfold prev_node in H. destruct (get_previous h n) as [y|] eqn:G.
  - inversion H; subst y. eapply get_previous_in; eassumption.
  - apply (par_in_tree _ _ _ _ Hr Hn H).
Qed.

Section NavIn.
  Variable is_block blank : heap -> N -> bool.

  (* _get_next and _get_prev are the same loop, over next_node resp. prev_node *)
  Lemma get_next_skip_unfold : forall f h n,
    get_next_skip is_block blank (S f) h n =
    match next_node h n with
    | None => NRes None
    | Some x => if skip is_block blank h x then get_next_skip is_block blank f h x else NRes (Some x)
    end.
  Proof.
    intros f h n. cbn [get_next_skip]. unfold next_node.
    destruct (get_next h n) as [y|]; [reflexivity|].
    destruct (par h n) as [p|]; reflexivity.
  Qed.

  Lemma get_prev_skip_unfold : forall f h n,
    get_prev_skip is_block blank (S f) h n =
    match prev_node h n with
    | None => NRes None
    | Some x => if skip is_block blank h x then get_prev_skip is_block blank f h x else NRes (Some x)
    end.
  Proof. reflexivity. Qed.

  Lemma skip_loop_in : forall (step : heap -> N -> option N) (loop : nat -> heap -> N -> nav) h t,
    (forall n, loop O h n = NFuel) ->
    (forall f n, loop (S f) h n =
       match step h n with
       | None => NRes None
       | Some x => if skip is_block blank h x then loop f h x else NRes (Some x)
       end) ->
    (forall n x, In n (ids t) -> step h n = Some x -> In x (ids t)) ->
    forall f n c, In n (ids t) -> loop f h n = NRes (Some c) -> In c (ids t).
  Proof.
    intros step loop h t H0 HS Hstep. induction f as [|f IH]; intros n c Hn H.
    { rewrite H0 in H. discriminate. }
    rewrite HS in H. destruct (step h n) as [x|] eqn:Hx; [|discriminate].
    pose proof (Hstep n x Hn Hx) as K.
    destruct (skip is_block blank h x); [eapply IH; eassumption | inversion H; subst; exact K].
  Qed.

  Lemma get_next_skip_in : forall h t, repr h None t -> forall f n c,
    In n (ids t) -> get_next_skip is_block blank f h n = NRes (Some c) -> In c (ids t).
  Proof.
    intros h t Hr. apply (skip_loop_in next_node); [reflexivity | intros; apply get_next_skip_unfold|].
    intros n x. apply next_node_in. exact Hr.
  Qed.

  Lemma get_prev_skip_in : forall h t, repr h None t -> forall f n c,
    In n (ids t) -> get_prev_skip is_block blank f h n = NRes (Some c) -> In c (ids t).
  Proof.
    intros h t Hr. apply (skip_loop_in prev_node); [reflexivity | intros; apply get_prev_skip_unfold|].
    intros n x. apply prev_node_in. exact Hr.
  Qed.

  Lemma cand_real_in_tree : forall h t n c, repr h None t -> In n (ids t) ->
    In c (cand_real is_block blank h n) -> In c (ids t).
  Proof.
    intros h t n c Hr Hn Hc. unfold cand_real, nav_nodes, nav_list in Hc.
    apply in_flat_map in Hc. destruct Hc as (res & Hres & Hc).
    destruct res as [|[c'|]]; try contradiction. destruct Hc as [->|[]].
    destruct Hres as [E|[E|[E|[E|[]]]]].
    - eapply first_leaf_in; [exact Hr | exact Hn | exact E].
    - eapply last_leaf_in; [exact Hr | exact Hn | exact E].
    - eapply get_next_skip_in; [exact Hr | exact Hn | exact E].
    - eapply get_prev_skip_in; [exact Hr | exact Hn | exact E].
  Qed.
End NavIn.

Lemma upchain_remove : forall h p c h1 n, remove_child h p c = Ok h1 -> clsof h c = c_BR ->
  chain_no_br h n -> forall a, upchain h1 n a -> upchain h n a.
Proof.
  intros h p c h1 n Hrm Hc Hch a Hu. induction Hu as [|a b Hu IH Hp]; [apply up_refl|].
  apply up_step with (a := a); [exact IH|].
  rewrite <- Hp. symmetry. eapply par_remove_child; [exact Hrm|].
  intro E. subst a. apply (Hch c IH). exact Hc.
Qed.

Lemma chain_no_br_remove : forall h p c h1 n, remove_child h p c = Ok h1 -> clsof h c = c_BR ->
  chain_no_br h n -> chain_no_br h1 n.
Proof.
  intros h p c h1 n Hrm Hc Hch a Hu.
  destruct (same_tc_remove_child _ _ _ _ Hrm a) as [_ E]. rewrite E.
  apply Hch. eapply upchain_remove; eassumption.
Qed.

Lemma words_leaf : forall h n, kids h n = [] -> textof h n = [] -> words h n = [].
Proof.
  intros h n Hk Ht. unfold words. rewrite build_S. unfold kids in Hk.
  destruct (get h n) as [nd|] eqn:E; [|reflexivity].
  rewrite Hk. cbn [map_opt words_t flat_map]. rewrite Ht. reflexivity.
Qed.

Section RealLoop.
  Variable is_block blank : heap -> N -> bool.
  Let cand := cand_real is_block blank.

  (* remove_breaking_returns' `while changed` loop with the candidates computed by the real
     get_first_leaf / get_last_leaf / _get_next / _get_prev: terminates within (#BreakingReturn)+1
     iterations and keeps the tree proper, from every start node n of a proper tree such that no node
     on the parent chain of n (n and the root included) is a BreakingReturn. *)
  Theorem breaking_returns_terminates_real : forall h r n, WF h r ->
    (forall t, tid t = r -> repr h None t -> In n (ids t)) -> chain_no_br h n ->
    br_loop cand (S (count_br h r)) h n <> OutOfFuel /\
    (forall h', br_loop cand (S (count_br h r)) h n = Done h' -> WF h' r).
  Proof.
    intros h r n (t & <- & Hr & Hnd) Hn Hch.
    apply (br_loop_terminates cand n (fun h' t' => In n (ids t') /\ chain_no_br h' n)) with (t := t); auto.
    - intros h0 t0 p c h1 t1 [Hn0 Hch0] E Hrm _ Hkeep _. split.
      + apply Hkeep; [exact Hn0|]. intro K. exact (Hch0 c K E).
      + eapply chain_no_br_remove; eassumption.
    - intros h0 t0 Hr0 Hnd0 [Hn0 Hch0] c Hc Hcls. split.
      + eapply cand_real_in_tree; eassumption.
      + intro K. subst c. apply (Hch0 (tid t0)); [|exact Hcls]. eapply upchain_of_subtree; eassumption.
    - rewrite (count_br_eq h t Hr Hnd). lia.
  Qed.

  (* when BreakingReturns are childless (what the parser produces: <br/> is a leaf), the chain condition
     reduces to "the start node is no BreakingReturn" - which the real code guarantees by entering the loop
     only for block nodes *)
  Lemma chain_no_br_of_leaf : forall h t n, repr h None t -> In n (ids t) ->
    (forall c, clsof h c = c_BR -> kids h c = []) -> clsof h n <> c_BR -> chain_no_br h n.
  Proof.
    intros h t n Hr Hn Hleaf Hcn a Hu.
    assert (G : In a (ids t) /\ (a = n \/ kids h a <> [])).
    { induction Hu as [|a b Hu IH Hp]; [auto|]. destruct IH as [Ha _].
      destruct (par_in_tree _ _ _ _ Hr Ha Hp) as [Hb Hk]. split; [exact Hb|].
      right. intro K. rewrite K in Hk. contradiction. }
    destruct G as [_ [->|G]]; [exact Hcn|]. intro K. apply G. apply Hleaf. exact K.
  Qed.

  Theorem breaking_returns_terminates_real_leaf : forall h r n, WF h r ->
    (forall t, tid t = r -> repr h None t -> In n (ids t)) ->
    (forall c, clsof h c = c_BR -> kids h c = []) -> clsof h n <> c_BR ->
    br_loop cand (S (count_br h r)) h n <> OutOfFuel /\
    (forall h', br_loop cand (S (count_br h r)) h n = Done h' -> WF h' r).
  Proof.
    intros h r n Hwf Hn Hleaf Hcn. apply breaking_returns_terminates_real; auto.
    destruct Hwf as (t & Ht & Hr & Hnd). eapply chain_no_br_of_leaf; eauto.
  Qed.
End RealLoop.

Lemma br_spin : forall cand h n, br_pass cand h n = POk h true ->
  forall k, br_loop cand k h n = OutOfFuel.
Proof. intros cand h n H. induction k as [|k IH]; [reflexivity|]. simpl. rewrite H. exact IH. Qed.

Definition nb : heap -> N -> bool := fun _ _ => false.

(* BreakingReturn[ Div ] : _get_prev(Div) = Div.parent = the root, a BreakingReturn without parent:
   try_remove_node does nothing, `changed` is set, the real loop never ends. *)
Definition h_rootbr : heap :=
  [(1, mkNode 11 None [2] []); (2, mkNode 24 (Some 1) [] [])]%N.

(* Article[ BreakingReturn[ Div ] ] : the root is fine, but _get_prev(Div) is the BreakingReturn ABOVE the
   start node; it is removed together with the start node, and from then on it is a BreakingReturn
   candidate without parent: the loop spins.  Hence chain_no_br in breaking_returns_terminates_real. *)
Definition h_above : heap :=
  [(1, mkNode 20 None [2] []); (2, mkNode 11 (Some 1) [3] []); (3, mkNode 24 (Some 2) [] [])]%N.

(* non-vacuity of the positive theorem: Article[ Paragraph[BR, Text, BR], BR ] from the Paragraph *)
Definition h_ok : heap :=
  [(1, mkNode 20 None [2; 6] []); (2, mkNode 10 (Some 1) [3; 4; 5] []); (3, mkNode 11 (Some 2) [] []);
   (4, mkNode 1 (Some 2) [] [7]); (5, mkNode 11 (Some 2) [] []); (6, mkNode 11 (Some 1) [] [])]%N.

(* a sufficient check, cell by cell, that the BreakingReturns of a heap are childless *)
Lemma br_childless_check : forall h,
  forallb (fun e => negb (N.eqb (cls (snd e)) c_BR) || is_nil (children (snd e))) h = true ->
  forall c, clsof h c = c_BR -> kids h c = [].
Proof.
  induction h as [|[j nd] h IH]; intros H c Hc; [reflexivity|].
  cbn [forallb snd] in H. apply andb_true_iff in H. destruct H as [H1 H2].
  unfold clsof, kids in *. cbn [get] in *. destruct (N.eqb c j); [|exact (IH H2 c Hc)].
  rewrite Hc in H1. destruct (children nd); [reflexivity | discriminate].
Qed.
