(* C06/C07 — fix_nesting: concrete runs of the model (C06/ModelNesting.v) with the REAL tables
   forbidden_parents / outside_parents_invisible (treecleaner.py:236-261), closed by vm_compute:
   non-vacuity of the theorems of C06/ProofsNesting.v and the witness against structural `==`. *)
From Coq Require Import List NArith Bool Arith.
From MW Require Import C05.Heap C05.TreeOps C06.ModelNesting.
From MW Require C05.ProofsApi C06.ProofsNesting.
Import ListNotations.
Open Scope N_scope.

Definition nd (i k : N) (w : list N) (ts : list ltree) : ltree := L (mkLab i k false w) ts.
Definition ndx (i k : N) (w : list N) (ts : list ltree) : ltree := L (mkLab i k true w) ts.

(* <code>x <pre>a</pre> z <pre>a</pre> y</code> : Code[Text x, Pre[Text a], Text z, Pre[Text a], Text y];
   words: x=101 a=102 z=103 y=104 *)
Definition t_code : ltree :=
  nd 1 c_Article []
     [nd 2 c_Code [] [nd 3 c_Text [101] []; nd 4 c_PreFormatted [] [nd 5 c_Text [102] []];
                      nd 6 c_Text [103] []; nd 7 c_PreFormatted [] [nd 8 c_Text [102] []];
                      nd 9 c_Text [104] []]].

(* Node.__eq__ in _mark_nodes: ONE iteration of the loop loses the second <pre>a</pre> (marked "problem"
   like the first one, filtered from the bottom copy too); with identity nothing is lost *)
Theorem fix_nesting_structural_eq_refuted :
  exists t, NoDup (lids t) /\ leafwords t = true /\
    (exists t', nest_step forb_real invis_real eq_struct t = NMoved t' /\
                lwords t = [101; 102; 103; 102; 104] /\ lwords t' = [101; 102; 103; 104]) /\
    (exists t', nest_step forb_real invis_real eq_id t = NMoved t' /\ lwords t' = lwords t).
Proof.
  exists t_code. split; [apply ProofsApi.nodupb_NoDup; vm_compute; reflexivity|].
  split; [vm_compute; reflexivity|]. split.
  - eexists. split; [vm_compute; reflexivity|]. split; vm_compute; reflexivity.
  - eexists. split; [vm_compute; reflexivity|]. vm_compute. reflexivity.
Qed.

(* ... and the whole loop with the structural test ends with the word gone *)
Example fix_nesting_structural_eq_loop :
  exists t', fix_nesting forb_real invis_real eq_struct 10 t_code = NDone t' /\
             lwords t' = [101; 102; 103; 104].
Proof. eexists. split; vm_compute; reflexivity. Qed.

(* Article[Pre[Text, Strong[Text, Paragraph[ImageLink[Text], Text], Text], Text]]: the Paragraph is two
   levels below the bad parent (the spliced middle tree is the copy of Strong holding only the
   Paragraph); the ImageLink leaves the Pre with it: 2 pairs -> 0 in one iteration *)
Definition t_deep : ltree :=
  nd 1 c_Article []
     [nd 2 c_PreFormatted []
         [nd 3 c_Text [1] [];
          nd 4 c_Strong [] [nd 5 c_Text [2] [];
                            nd 6 c_Paragraph [] [nd 7 c_ImageLink [] [nd 8 c_Text [3] []]; nd 9 c_Text [4] []];
                            nd 10 c_Text [5] []];
          nd 11 c_Text [6] []]].

Example fix_nesting_example :
  NoDup (lids t_deep) /\ leafwords t_deep = true /\ nest_fuel forb_real invis_real t_deep = 3%nat /\
  exists t', fix_nesting forb_real invis_real eq_id (nest_fuel forb_real invis_real t_deep) t_deep = NDone t' /\
             lwords t' = [1; 2; 3; 4; 5; 6] /\ nest_ok forb_real invis_real [] t' = true /\
             map lcls (lkids t') = [c_PreFormatted; c_Strong; c_PreFormatted] /\
             npairs forb_real invis_real [] t' = 0%nat.
Proof.
  split; [apply ProofsApi.nodupb_NoDup; vm_compute; reflexivity|].
  split; [vm_compute; reflexivity|]. split; [vm_compute; reflexivity|].
  eexists. split; [vm_compute; reflexivity|]. repeat split; vm_compute; reflexivity.
Qed.

(* several iterations: a definition list holding a table and a gallery, inside a paragraph *)
Definition t_multi : ltree :=
  nd 1 c_Article []
     [nd 2 c_Paragraph []
         [nd 3 c_Text [1] [];
          nd 4 c_DefinitionList []
             [nd 5 c_DefinitionDescription []
                 [nd 6 c_Text [2] []; nd 7 c_Gallery [] [nd 8 c_ImageLink [] []]; nd 9 c_Text [3] []];
              nd 10 c_DefinitionDescription [] [nd 11 c_Table [] [nd 12 c_Row [] [nd 13 c_Cell [] [nd 14 c_Text [4] []]]]]];
          nd 15 c_Text [5] []]].

Example fix_nesting_example_multi :
  NoDup (lids t_multi) /\ npairs forb_real invis_real [] t_multi = 5%nat /\
  exists t', fix_nesting forb_real invis_real eq_id (nest_fuel forb_real invis_real t_multi) t_multi = NDone t' /\
             fix_nesting forb_real invis_real eq_id 3 t_multi = NOutOfFuel /\
             lwords t' = [1; 2; 3; 4; 5] /\ nest_ok forb_real invis_real [] t' = true /\
             ProofsApi.cnt 0 (lids t') = 0%nat /\ nodupb (lids t') = true.
Proof.
  split; [apply ProofsApi.nodupb_NoDup; vm_compute; reflexivity|]. split; [vm_compute; reflexivity|].
  eexists. split; [vm_compute; reflexivity|]. repeat split; vm_compute; reflexivity.
Qed.

(* an exception node (style="direction:..") shields its subtree: the broken Paragraph stays, the loop stops
   at once; nest_ok holds because it only speaks about nodes outside exception sub-trees *)
Definition t_exc : ltree :=
  nd 1 c_Article [] [ndx 2 c_PreFormatted [] [nd 3 c_Paragraph [] [nd 4 c_Text [1] []]]].
Example fix_nesting_exception_example :
  nest_step forb_real invis_real eq_id t_exc = NStop /\ npairs forb_real invis_real [] t_exc = 1%nat /\
  nest_ok forb_real invis_real [] t_exc = true.
Proof. repeat split; vm_compute; reflexivity. Qed.

(* a Table hides the outer PreFormatted from the Paragraph in its cell: not broken *)
Definition t_invis : ltree :=
  nd 1 c_Article [] [nd 2 c_PreFormatted [] [nd 3 c_Table [] [nd 4 c_Row [] [nd 5 c_Cell [] [nd 6 c_Paragraph [] []]]]]].
Example fix_nesting_invisible_example :
  nest_step forb_real invis_real eq_id t_invis = NStop /\ npairs forb_real invis_real [] t_invis = 0%nat.
Proof. repeat split; vm_compute; reflexivity. Qed.

(* the bad parent is the root: bad_parent.parent is None, `parent.replace_child` raises AttributeError *)
Definition t_root : ltree := nd 1 c_PreFormatted [] [nd 2 c_Paragraph [] [nd 3 c_Text [1] []]].
Example fix_nesting_root_raises_example :
  fix_nesting forb_real invis_real eq_id (nest_fuel forb_real invis_real t_root) t_root = NRaised.
Proof. vm_compute. reflexivity. Qed.

Example lt_of_example :
  let h := [(1, mkNode c_Paragraph None [2] []); (2, mkNode c_Text (Some 1) [] [7; 8])] in
  lt_of h (fun _ => false) (T 1 [T 2 []]) = nd 1 c_Paragraph [] [nd 2 c_Text [7; 8] []].
Proof. vm_compute. reflexivity. Qed.
