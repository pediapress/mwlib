(* C06/C07 — fix_nesting (treecleaner.py:852-906, "loose"): termination with the explicit bound
   "number of (node, forbidden visible ancestor) pairs", preservation of the in-order words and of
   distinct identities by every iteration, and the postcondition.  Model: C06/ModelNesting.v (labelled
   trees; identity-based marks, `child is path_node`, treecleaner.py:819-821).
   All statements hold for ANY forbidden_parents table `forb` and ANY outside_parents_invisible set
   `invis`.

   Why the pair count decreases although the path is copied three times: _fix_nesting visits in
   preorder and repairs the FIRST broken node n; every ancestor of n (the bad parent B and the path
   B > p1 > .. > n in particular) was visited before and found NOT broken, i.e. has no forbidden visible
   ancestor.  The copies of B / p_j hang under the same classes (top, bottom) or under the same classes
   minus B (middle; B is not an "invisible" class because n saw it), so they still contribute 0 pairs.
   Nodes left / right of the path exist once, under ancestors of the same classes.  The nodes below n
   lose the ancestor B: none gains a pair and n loses the pair (n, B). *)
From Coq Require Import List NArith Bool Arith Lia.
From MW Require Import C05.Heap C05.TreeOps C06.ModelNesting C05.ProofsApi.
Import ListNotations.

Lemma ltree_ind' (P : ltree -> Prop) :
  (forall a ts, Forall P ts -> P (L a ts)) -> forall t, P t.
Proof.
  intros H. fix IH 1. intros [a ts]. apply H.
  induction ts as [|x r IHr]; constructor; [apply IH | exact IHr].
Qed.

Lemma list_sum_map_le : forall {A} (f g : A -> nat) l,
  Forall (fun x => f x <= g x) l -> list_sum (map f l) <= list_sum (map g l).
Proof.
  intros A f g l H. induction H as [|x l Hx Hl IH]; simpl; [apply Nat.le_refl|]. lia.
Qed.

Lemma list_sum_map_eq : forall {A} (f g : A -> nat) l,
  Forall (fun x => f x = g x) l -> list_sum (map f l) = list_sum (map g l).
Proof.
  intros A f g l H. induction H as [|x l Hx Hl IH]; simpl; [reflexivity|]. lia.
Qed.

Definition nsum (f : ltree -> nat) (l : list ltree) : nat := list_sum (map f l).
Lemma nsum_app : forall f l1 l2, nsum f (l1 ++ l2) = nsum f l1 + nsum f l2.
Proof. intros. unfold nsum. rewrite map_app. apply list_sum_app. Qed.
Lemma nsum_cons : forall f x l, nsum f (x :: l) = f x + nsum f l.
Proof. reflexivity. Qed.
Lemma nsum_nil : forall f, nsum f [] = 0.
Proof. reflexivity. Qed.

Lemma lids_eq : forall a ts, lids (L a ts) = l_id a :: flat_map lids ts.
Proof. reflexivity. Qed.
Lemma lwords_eq : forall a ts, lwords (L a ts) = l_words a ++ flat_map lwords ts.
Proof. reflexivity. Qed.
Lemma lid_in_lids : forall t, In (lid t) (lids t).
Proof. intros [a ts]. left. reflexivity. Qed.

Lemma cnt_lids : forall i a ts,
  cnt i (lids (L a ts)) = (if N.eqb (l_id a) i then 1 else 0) + cnt i (flat_map lids ts).
Proof. intros. rewrite lids_eq. apply cnt_cons. Qed.

Lemma cnt_in_pos : forall i l, In i l -> 1 <= cnt i l.
Proof. intros i l H. apply In_cnt in H. lia. Qed.
Lemma cnt_pos_in : forall i l, 1 <= cnt i l -> In i l.
Proof. intros i l H. apply In_cnt. lia. Qed.

Lemma lids_lmap : forall f t, lids (lmap f t) = map f (lids t).
Proof.
  intros f. induction t as [a ts IH] using ltree_ind'. simpl. f_equal.
  induction IH as [|x r Hx Hr IHr]; simpl; [reflexivity|]. rewrite map_app, Hx, IHr. reflexivity.
Qed.

Lemma lwords_lmap : forall f t, lwords (lmap f t) = lwords t.
Proof.
  intros f. induction t as [a ts IH] using ltree_ind'. simpl. f_equal.
  induction IH as [|x r Hx Hr IHr]; simpl; [reflexivity|]. rewrite Hx, IHr. reflexivity.
Qed.

Lemma leafwords_lmap : forall f t, leafwords (lmap f t) = leafwords t.
Proof.
  intros f. induction t as [a ts IH] using ltree_ind'. simpl. f_equal.
  - destruct ts; reflexivity.
  - induction IH as [|x r Hx Hr IHr]; simpl; [reflexivity|]. rewrite Hx, IHr. reflexivity.
Qed.

(* the labelled tree read off a heap along a represented tree has the heap's words and identities *)
Lemma lwords_lt_of : forall h exc t, lwords (lt_of h exc t) = words_t h t.
Proof.
  intros h exc. fix IH 1. intros [i ts]. simpl. f_equal.
  induction ts as [|x r IHr]; simpl; [reflexivity|]. rewrite IH, IHr. reflexivity.
Qed.

Lemma erase_lt_of : forall h exc t, erase (lt_of h exc t) = t.
Proof.
  intros h exc. fix IH 1. intros [i ts]. simpl. f_equal.
  induction ts as [|x r IHr]; simpl; [reflexivity|]. rewrite IH, IHr. reflexivity.
Qed.

Lemma lids_erase : forall t, ids (erase t) = lids t.
Proof.
  induction t as [a ts IH] using ltree_ind'. simpl. f_equal.
  induction IH as [|x r Hx Hr IHr]; simpl; [reflexivity|]. rewrite Hx, IHr. reflexivity.
Qed.

Lemma lids_lt_of : forall h exc t, lids (lt_of h exc t) = ids t.
Proof. intros. rewrite <- lids_erase, erase_lt_of. reflexivity. Qed.

(* remove the ancestor number d *)
Fixpoint rm (d : nat) (l : list N) : list N :=
  match l, d with
  | [], _ => []
  | _ :: r, O => r
  | a :: r, S d' => a :: rm d' r
  end.

Section Nest.
  Variable forb : N -> N -> bool.
  Variable invis : N -> bool.

  Notation visible := (visible invis).
  Notation bad_idx := (bad_idx forb invis).
  Notation nbad := (nbad forb invis).
  Notation npairs := (npairs forb invis).
  Notation nest_ok := (nest_ok forb invis).

  (* the ancestor number d, if any, is not of an "invisible" class *)
  Definition vis_at (d : nat) (anc : list N) : Prop := forall b, nth_error anc d = Some b -> invis b = false.

  Lemma nbad_nil : forall k, nbad [] k = 0.
  Proof. reflexivity. Qed.
  Lemma nbad_cons : forall a r k,
    nbad (a :: r) k = if invis a then 0 else (if forb k a then 1 else 0) + nbad r k.
  Proof.
    intros. unfold ModelNesting.nbad. simpl. destruct (invis a); [reflexivity|]. simpl.
    destruct (forb k a); reflexivity.
  Qed.

  Lemma bad_idx_nil : forall k, bad_idx [] k = None.
  Proof. reflexivity. Qed.
  Lemma bad_idx_cons : forall a r k,
    bad_idx (a :: r) k = if invis a then None
                         else if forb k a then Some O
                              else match bad_idx r k with Some d => Some (S d) | None => None end.
  Proof. intros. unfold ModelNesting.bad_idx. simpl. destruct (invis a); reflexivity. Qed.

  Lemma bad_idx_none : forall anc k, bad_idx anc k = None <-> nbad anc k = 0.
  Proof.
    induction anc as [|a r IH]; intros k.
    - rewrite bad_idx_nil, nbad_nil. tauto.
    - rewrite bad_idx_cons, nbad_cons. destruct (invis a); [tauto|].
      destruct (forb k a).
      + split; [discriminate | lia].
      + specialize (IH k). destruct (bad_idx r k).
        * split; [discriminate|]. intro H. simpl in H. apply IH in H. discriminate.
        * simpl. tauto.
  Qed.

  Lemma bad_idx_some : forall anc k d, bad_idx anc k = Some d ->
    vis_at d anc /\ nbad (rm d anc) k + 1 <= nbad anc k.
  Proof.
    induction anc as [|a r IH]; intros k d H.
    - rewrite bad_idx_nil in H. discriminate.
    - rewrite bad_idx_cons in H. destruct (invis a) eqn:Ei; [discriminate|].
      destruct (forb k a) eqn:Ef.
      + inversion H; subst d. split.
        * intros b Hb. simpl in Hb. inversion Hb; subst. exact Ei.
        * simpl rm. rewrite nbad_cons, Ei, Ef. lia.
      + destruct (bad_idx r k) as [d'|] eqn:Eb; [|discriminate]. inversion H; subst d.
        destruct (IH k d' Eb) as [Hv Hn]. split.
        * intros b Hb. simpl in Hb. apply Hv. exact Hb.
        * simpl rm. rewrite !nbad_cons, Ei, Ef. lia.
  Qed.

  Lemma nbad_rm_le : forall anc d k, vis_at d anc -> nbad (rm d anc) k <= nbad anc k.
  Proof.
    induction anc as [|a r IH]; intros d k Hv.
    - destruct d; apply Nat.le_refl.
    - destruct d as [|d'].
      + simpl rm. rewrite nbad_cons. rewrite (Hv a eq_refl). lia.
      + simpl rm. rewrite !nbad_cons. destruct (invis a); [lia|].
        assert (Hv' : vis_at d' r) by (intros b Hb; apply Hv; exact Hb).
        specialize (IH d' k Hv'). lia.
  Qed.

  Lemma npairs_eq : forall anc a ts,
    npairs anc (L a ts) = nbad anc (l_cls a) + nsum (npairs (l_cls a :: anc)) ts.
  Proof. reflexivity. Qed.

  Lemma npairs_rm_le : forall t d anc, vis_at d anc -> npairs (rm d anc) t <= npairs anc t.
  Proof.
    induction t as [a ts IH] using ltree_ind'. intros d anc Hv. rewrite !npairs_eq.
    pose proof (nbad_rm_le anc d (l_cls a) Hv) as H1.
    assert (H2 : nsum (npairs (l_cls a :: rm d anc)) ts <= nsum (npairs (l_cls a :: anc)) ts).
    { unfold nsum. apply list_sum_map_le. rewrite Forall_forall in *. intros x Hx.
      change (l_cls a :: rm d anc) with (rm (S d) (l_cls a :: anc)). apply IH; [exact Hx|].
      intros b Hb. apply Hv. exact Hb. }
    lia.
  Qed.

  Lemma npairs_lmap : forall f t anc, npairs anc (lmap f t) = npairs anc t.
  Proof.
    intros f. induction t as [a ts IH] using ltree_ind'. intros anc. simpl lmap. rewrite !npairs_eq.
    simpl l_cls. f_equal. unfold nsum. rewrite map_map. apply list_sum_map_eq.
    rewrite Forall_forall in *. intros x Hx. apply IH. exact Hx.
  Qed.
End Nest.

Definition keepl (flt : mark -> bool) (ms : list mtree) : list ltree :=
  flat_map (fun c => if flt (mmark c) then [] else [filt flt c]) ms.

Lemma filt_eq : forall flt m a ms, filt flt (MT m a ms) = L a (keepl flt ms).
Proof. reflexivity. Qed.
Lemma keepl_app : forall flt l1 l2, keepl flt (l1 ++ l2) = keepl flt l1 ++ keepl flt l2.
Proof. intros. unfold keepl. apply flat_map_app. Qed.
Lemma keepl_cons : forall flt c l,
  keepl flt (c :: l) = (if flt (mmark c) then [] else [filt flt c]) ++ keepl flt l.
Proof. reflexivity. Qed.

Lemma mark_kids_none : forall indiv isprob mk r,
  Forall (fun y => indiv y = false) r ->
  forall got, mark_kids indiv isprob mk got r = map (mk (if got then MBot else MTop)) r.
Proof.
  intros indiv isprob mk r H. induction H as [|y r Hy Hr IH]; intros got; [reflexivity|].
  simpl. rewrite Hy, IH. reflexivity.
Qed.

(* _mark_nodes on the children of an unmarked node exactly one of which is `in divide` *)
Lemma mark_kids_split : forall indiv isprob mk l c r,
  Forall (fun y => indiv y = false) l -> indiv c = true -> Forall (fun y => indiv y = false) r ->
  mark_kids indiv isprob mk false (l ++ c :: r)
  = map (mk MTop) l ++ mk (if isprob c then MProb else MNone) c :: map (mk MBot) r.
Proof.
  intros indiv isprob mk l c r Hl Hc Hr. induction Hl as [|y l Hy Hl IH].
  - simpl. rewrite Hc. f_equal. apply (mark_kids_none indiv isprob mk r Hr true).
  - simpl. rewrite Hy. f_equal. exact IH.
Qed.

Section MarkFacts.
  Variable eqn : ltree -> ltree -> bool.
  Variable divide : list ltree.
  Variable prob : ltree.
  Notation mark_t := (mark_t eqn divide prob).

  Lemma mark_t_eq : forall m a ts,
    mark_t m (L a ts)
    = MT m a (match m with
              | MNone => mark_kids (fun c => existsb (eqn c) divide) (fun c => eqn c prob) mark_t false ts
              | _ => map (mark_t m) ts
              end).
  Proof. intros. destruct m; reflexivity. Qed.

  Lemma mmark_mark_t : forall m t, mmark (mark_t m t) = m.
  Proof. intros m [a ts]. rewrite mark_t_eq. reflexivity. Qed.

  (* a marked subtree whose mark is not filtered is kept entirely ... *)
  Lemma filt_keep : forall flt m, m <> MNone -> flt m = false ->
    forall t, filt flt (mark_t m t) = t.
  Proof.
    intros flt m Hm Hf. induction t as [a ts IH] using ltree_ind'.
    rewrite mark_t_eq, filt_eq. f_equal.
    assert (E : keepl flt (map (mark_t m) ts) = ts).
    { induction IH as [|x r Hx Hr IHr]; [reflexivity|].
      simpl map. rewrite keepl_cons, mmark_mark_t, Hf, Hx, IHr. reflexivity. }
    destruct m; [congruence | exact E | exact E | exact E].
  Qed.

  Lemma keepl_keep : forall flt m, m <> MNone -> flt m = false ->
    forall l, keepl flt (map (mark_t m) l) = l.
  Proof.
    intros flt m Hm Hf. induction l as [|x r IH]; [reflexivity|].
    simpl map. rewrite keepl_cons, mmark_mark_t, Hf, (filt_keep flt m Hm Hf), IH. reflexivity.
  Qed.

  (* ... and one whose mark is filtered disappears *)
  Lemma keepl_drop : forall flt m, flt m = true -> forall l, keepl flt (map (mark_t m) l) = [].
  Proof.
    intros flt m Hf. induction l as [|x r IH]; [reflexivity|].
    simpl map. rewrite keepl_cons, mmark_mark_t, Hf, IH. reflexivity.
  Qed.

  (* what one filtered copy keeps of a child that got mark m *)
  Definition keep (flt : mark -> bool) (m : mark) (c : ltree) : list ltree :=
    if flt m then [] else [filt flt (mark_t m c)].

  (* the three filtered copies of a path node: everything left of the path child goes to the top copy,
     everything right of it to the bottom copy, the middle copy keeps the path child only *)
  Lemma filt_path_node : forall a l c r,
    Forall (fun y => existsb (eqn y) divide = false) l -> existsb (eqn c) divide = true ->
    Forall (fun y => existsb (eqn y) divide = false) r ->
    let mc := if eqn c prob then MProb else MNone in
    filt ftop (mark_t MNone (L a (l ++ c :: r))) = L a (l ++ keep ftop mc c) /\
    filt fmid (mark_t MNone (L a (l ++ c :: r))) = L a (keep fmid mc c) /\
    filt fbot (mark_t MNone (L a (l ++ c :: r))) = L a (keep fbot mc c ++ r).
  Proof.
    intros a l c r Hl Hc Hr mc. rewrite mark_t_eq.
    rewrite (mark_kids_split _ _ mark_t l c r Hl Hc Hr). fold mc. rewrite !filt_eq.
    rewrite !keepl_app, !keepl_cons, !mmark_mark_t. unfold keep.
    rewrite (keepl_keep ftop MTop), (keepl_drop ftop MBot), (keepl_drop fmid MTop), (keepl_drop fmid MBot),
            (keepl_drop fbot MTop), (keepl_keep fbot MBot); try reflexivity; try discriminate.
    rewrite !app_nil_r. simpl. auto.
  Qed.
End MarkFacts.

Lemma nodup_kid_nodup : forall a l c r, NoDup (lids (L a (l ++ c :: r))) -> NoDup (lids c).
Proof.
  intros a l c r H. rewrite NoDup_cnt in *. intro i. specialize (H i).
  rewrite cnt_lids, cnt_flat_map_app, cnt_flat_map_cons in H. lia.
Qed.

Lemma nodup_root_fresh : forall a ts i, NoDup (lids (L a ts)) -> In i (flat_map lids ts) -> i <> l_id a.
Proof.
  intros a ts i H Hi E. subst i. rewrite NoDup_cnt in H. specialize (H (l_id a)).
  rewrite cnt_lids, N.eqb_refl in H. apply cnt_in_pos in Hi. lia.
Qed.

Lemma nodup_kid_disj : forall a l c r y i, NoDup (lids (L a (l ++ c :: r))) ->
  In y (l ++ r) -> In i (lids y) -> In i (lids c) -> False.
Proof.
  intros a l c r y i H Hy Hiy Hic. rewrite NoDup_cnt in H. specialize (H i).
  rewrite cnt_lids, cnt_flat_map_app, cnt_flat_map_cons in H.
  apply cnt_in_pos in Hiy. apply cnt_in_pos in Hic. apply in_app_or in Hy. destruct Hy as [Hy|Hy].
  - pose proof (cnt_flat_map_in lids i y l Hy). lia.
  - pose proof (cnt_flat_map_in lids i y r Hy). lia.
Qed.

Lemma in_kid_lids : forall a l c r i, In i (lids c) -> In i (lids (L a (l ++ c :: r))).
Proof.
  intros a l c r i H. rewrite lids_eq. right. apply in_flat_map. exists c. split; [|exact H].
  apply in_or_app. right. left. reflexivity.
Qed.

Lemma existsb_eq_id : forall y DIV, existsb (eq_id y) DIV = true <-> In (lid y) (map lid DIV).
Proof.
  intros y DIV. rewrite existsb_exists, in_map_iff. split.
  - intros (q & Hq & E). unfold eq_id in E. apply N.eqb_eq in E. exists q. auto.
  - intros (q & E & Hq). exists q. split; [exact Hq|]. unfold eq_id. apply N.eqb_eq. auto.
Qed.

Lemma existsb_eq_id_false : forall y DIV, ~ In (lid y) (map lid DIV) -> existsb (eq_id y) DIV = false.
Proof.
  intros y DIV H. destruct (existsb (eq_id y) DIV) eqn:E; [|reflexivity].
  apply existsb_eq_id in E. contradiction.
Qed.

Section Nest2.
  Variable forb : N -> N -> bool.
  Variable invis : N -> bool.

  Notation bad_idx := (bad_idx forb invis).
  Notation nbad := (nbad forb invis).
  Notation npairs := (npairs forb invis).
  Notation nest_ok := (nest_ok forb invis).
  Notation vis_at := (vis_at invis).

  (* pchain anc c div p d: below c (whose ancestors have classes anc) the preorder search stopped at the
     problem node p; div = the nodes from c down to p; no node of div but p is an exception or broken;
     p's bad parent is the ancestor number d of c *)
  Inductive pchain : list N -> ltree -> list ltree -> ltree -> nat -> Prop :=
  | pc_here : forall anc a ts d, l_exc a = false -> bad_idx anc (l_cls a) = Some d ->
      pchain anc (L a ts) [L a ts] (L a ts) d
  | pc_down : forall anc a l c r div p d, l_exc a = false -> bad_idx anc (l_cls a) = None ->
      pchain (l_cls a :: anc) c div p (S d) ->
      pchain anc (L a (l ++ c :: r)) (L a (l ++ c :: r) :: div) p d.

  (* psplit anc c d tl ml bl: what the top / middle / bottom copy keep of the path node c
     (tl, bl: nothing for the problem node itself, else one tree; ml: one tree) *)
  Inductive psplit : list N -> ltree -> nat -> list ltree -> list ltree -> list ltree -> Prop :=
  | ps_here : forall anc a ts d, bad_idx anc (l_cls a) = Some d ->
      psplit anc (L a ts) d [] [L a ts] []
  | ps_down : forall anc a l c r d tl ml bl, bad_idx anc (l_cls a) = None ->
      psplit (l_cls a :: anc) c (S d) tl ml bl ->
      psplit anc (L a (l ++ c :: r)) d [L a (l ++ tl)] [L a ml] [L a (bl ++ r)].

  Lemma pchain_facts : forall anc c div p d, pchain anc c div p d ->
    (exists rest, div = c :: rest) /\ (forall q, In q div -> In (lid q) (lids c)) /\ In (lid p) (lids c).
  Proof.
    intros anc c div p d H. induction H as [anc a ts d He Hb | anc a l c r div p d He Hb Hc IH].
    - split; [exists []; reflexivity|]. split.
      + intros q [<-|[]]. apply lid_in_lids.
      + apply lid_in_lids.
    - destruct IH as ((rest & ->) & Hq & Hp). split; [eexists; reflexivity|]. split.
      + intros q [<-|Hin]; [apply lid_in_lids|]. apply in_kid_lids. apply Hq. exact Hin.
      + apply in_kid_lids. exact Hp.
  Qed.

  (* one level of the path: under distinct identities exactly the path child is `in divide` *)
  Lemma path_level : forall DIV a l c r anc div p d, pchain anc c div p d ->
    NoDup (lids (L a (l ++ c :: r))) ->
    (forall q, In q div -> In (lid q) (map lid DIV)) ->
    (forall i, In i (map lid DIV) -> In i (lids (L a (l ++ c :: r))) ->
               In i (map lid (L a (l ++ c :: r) :: div))) ->
    Forall (fun y => existsb (eq_id y) DIV = false) l /\ existsb (eq_id c) DIV = true /\
    Forall (fun y => existsb (eq_id y) DIV = false) r /\ eq_id (L a (l ++ c :: r)) p = false /\
    (forall i, In i (map lid DIV) -> In i (lids c) -> In i (map lid div)).
  Proof.
    intros DIV a l c r anc div p d Hc Hnd H1 H2.
    destruct (pchain_facts _ _ _ _ _ Hc) as ((rest & Ediv) & Fq & Fp).
    assert (Hside : forall y, In y (l ++ r) -> existsb (eq_id y) DIV = false).
    { intros y Hy. apply existsb_eq_id_false. intro Hin.
      assert (Hyk : In (lid y) (flat_map lids (l ++ c :: r))).
      { apply in_flat_map. exists y. split; [|apply lid_in_lids].
        apply in_app_or in Hy. apply in_or_app. destruct Hy as [Hy|Hy]; [left; exact Hy|right; right; exact Hy]. }
      assert (Hyx : In (lid y) (lids (L a (l ++ c :: r)))) by (rewrite lids_eq; right; exact Hyk).
      specialize (H2 _ Hin Hyx). simpl in H2. destruct H2 as [E|Hd].
      - eapply (nodup_root_fresh a (l ++ c :: r) (lid y)); [exact Hnd|exact Hyk|symmetry; exact E].
      - apply in_map_iff in Hd. destruct Hd as (q & Eq & Hq).
        apply (nodup_kid_disj a l c r y (lid y) Hnd Hy (lid_in_lids y)). rewrite <- Eq. apply Fq. exact Hq. }
    split; [|split; [|split; [|split]]].
    - apply Forall_forall. intros y Hy. apply Hside. apply in_or_app. left. exact Hy.
    - apply existsb_eq_id. apply H1. rewrite Ediv. left. reflexivity.
    - apply Forall_forall. intros y Hy. apply Hside. apply in_or_app. right. exact Hy.
    - unfold eq_id. apply N.eqb_neq. intro E. unfold lid in E. simpl in E.
      eapply (nodup_root_fresh a (l ++ c :: r) (lid p)); [exact Hnd| |symmetry; exact E].
      apply in_flat_map. exists c. split; [apply in_or_app; right; left; reflexivity | exact Fp].
    - intros i Hi Hic. specialize (H2 i Hi (in_kid_lids a l c r i Hic)). simpl in H2.
      destruct H2 as [E|Hd]; [|exact Hd]. exfalso.
      eapply (nodup_root_fresh a (l ++ c :: r) i); [exact Hnd| |symmetry; exact E].
      apply in_flat_map. exists c. split; [apply in_or_app; right; left; reflexivity | exact Hic].
  Qed.

  (* with identity marks and distinct identities, _mark_nodes + _filter_tree compute the split *)
  Lemma pchain_psplit : forall DIV anc c div p d, pchain anc c div p d ->
    NoDup (lids c) ->
    (forall q, In q div -> In (lid q) (map lid DIV)) ->
    (forall i, In i (map lid DIV) -> In i (lids c) -> In i (map lid div)) ->
    let mc := if eq_id c p then MProb else MNone in
    psplit anc c d (keep eq_id DIV p ftop mc c) (keep eq_id DIV p fmid mc c) (keep eq_id DIV p fbot mc c).
  Proof.
    intros DIV anc c div p d H.
    induction H as [anc a ts d He Hb | anc a l c r div p d He Hb Hc IH]; intros Hnd H1 H2 mc.
    - unfold mc, eq_id. rewrite N.eqb_refl. unfold keep.
      change (ftop MProb) with true. change (fbot MProb) with true. change (fmid MProb) with false.
      cbv iota. rewrite filt_keep; [|discriminate|reflexivity]. apply ps_here. exact Hb.
    - assert (H1' : forall q, In q div -> In (lid q) (map lid DIV)) by (intros q Hq; apply H1; right; exact Hq).
      destruct (path_level DIV a l c r _ _ _ _ Hc Hnd H1' H2) as (Hl & Hc_in & Hr & Hxp & H2').
      unfold mc. rewrite Hxp. unfold keep.
      change (ftop MNone) with false. change (fbot MNone) with false. change (fmid MNone) with false.
      cbv iota.
      destruct (filt_path_node eq_id DIV p a l c r Hl Hc_in Hr) as (E1 & E2 & E3).
      rewrite E1, E2, E3.
      apply ps_down; [exact Hb|]. apply IH; [eapply nodup_kid_nodup; exact Hnd | exact H1' | exact H2'].
  Qed.

  Lemma psplit_vis : forall anc c d tl ml bl, psplit anc c d tl ml bl -> vis_at d anc.
  Proof.
    intros anc c d tl ml bl H. induction H as [anc a ts d Hb | anc a l c r d tl ml bl Hb Hs IH].
    - apply (bad_idx_some forb invis anc (l_cls a) d Hb).
    - intros b Hn. apply IH. exact Hn.
  Qed.

  Lemma psplit_mid_single : forall anc c d tl ml bl, psplit anc c d tl ml bl -> exists m, ml = [m].
  Proof. intros anc c d tl ml bl H. destruct H; eexists; reflexivity. Qed.

  (* the pair count of the three parts, the middle one read WITHOUT the bad parent among its ancestors,
     is smaller than the pair count of the path node *)
  Lemma psplit_measure : forall anc c d tl ml bl, psplit anc c d tl ml bl ->
    nsum (npairs anc) tl + nsum (npairs (rm d anc)) ml + nsum (npairs anc) bl + 1 <= npairs anc c.
  Proof.
    intros anc c d tl ml bl H. induction H as [anc a ts d Hb | anc a l c r d tl ml bl Hb Hs IH].
    - rewrite nsum_nil, nsum_cons, nsum_nil, !npairs_eq.
      destruct (bad_idx_some forb invis anc (l_cls a) d Hb) as [Hv Hn].
      assert (H2 : nsum (npairs (l_cls a :: rm d anc)) ts <= nsum (npairs (l_cls a :: anc)) ts).
      { unfold nsum. apply list_sum_map_le. apply Forall_forall. intros x Hx.
        change (l_cls a :: rm d anc) with (rm (S d) (l_cls a :: anc)). apply npairs_rm_le.
        intros b Hn'. apply Hv. exact Hn'. }
      lia.
    - pose proof (psplit_vis _ _ _ _ _ _ Hs) as Hv.
      assert (Hv' : vis_at d anc) by (intros b Hn; apply Hv; exact Hn).
      pose proof (nbad_rm_le forb invis anc d (l_cls a) Hv') as Hle.
      apply bad_idx_none in Hb.
      change (rm (S d) (l_cls a :: anc)) with (l_cls a :: rm d anc) in IH.
      rewrite !nsum_cons, !nsum_nil, !npairs_eq, !nsum_app, nsum_cons.
      clear Hv Hv' Hs. lia.
  Qed.

  (* words only on childless nodes, read at a node of the path *)
  Lemma leafwords_path : forall a l c r, leafwords (L a (l ++ c :: r)) = true ->
    l_words a = [] /\ forallb leafwords l = true /\ leafwords c = true /\ forallb leafwords r = true.
  Proof.
    intros a l c r H. simpl in H. apply andb_true_iff in H. destruct H as [H1 H2].
    rewrite forallb_app in H2. simpl in H2. apply andb_true_iff in H2. destruct H2 as [Hl H2].
    apply andb_true_iff in H2. split; [|tauto].
    destruct (l_words a); [reflexivity|]. destruct l; discriminate.
  Qed.

  Lemma leafwords_mk : forall a ts, l_words a = [] -> forallb leafwords ts = true -> leafwords (L a ts) = true.
  Proof. intros a ts H1 H2. simpl. rewrite H1, H2. reflexivity. Qed.

  (* the three parts carry the words of the path node exactly once, in order *)
  Lemma psplit_words : forall anc c d tl ml bl, psplit anc c d tl ml bl -> leafwords c = true ->
    flat_map lwords tl ++ flat_map lwords ml ++ flat_map lwords bl = lwords c /\
    forallb leafwords tl = true /\ forallb leafwords ml = true /\ forallb leafwords bl = true.
  Proof.
    intros anc c d tl ml bl H. induction H as [anc a ts d Hb | anc a l c r d tl ml bl Hb Hs IH]; intros Hlw.
    - simpl flat_map. rewrite !app_nil_r. simpl forallb. rewrite andb_true_r. auto.
    - destruct (leafwords_path _ _ _ _ Hlw) as (Hw & Hkl & Hkc & Hkr).
      destruct (IH Hkc) as (Ew & Lt & Lm & Lb). split; [|split; [|split]].
      + simpl flat_map. rewrite !app_nil_r, !lwords_eq, Hw, !flat_map_app. simpl.
        rewrite <- Ew, <- !app_assoc. reflexivity.
      + simpl. rewrite andb_true_r. rewrite Hw, forallb_app, Hkl, Lt. reflexivity.
      + simpl. rewrite andb_true_r. rewrite Hw, Lm. reflexivity.
      + simpl. rewrite andb_true_r. rewrite Hw, forallb_app, Hkr, Lb. reflexivity.
  Qed.

  (* no part contains an identity more often than the path node *)
  Lemma psplit_cnt : forall anc c d tl ml bl, psplit anc c d tl ml bl -> forall i,
    cnt i (flat_map lids tl) <= cnt i (lids c) /\ cnt i (flat_map lids ml) <= cnt i (lids c) /\
    cnt i (flat_map lids bl) <= cnt i (lids c).
  Proof.
    intros anc c d tl ml bl H. induction H as [anc a ts d Hb | anc a l c r d tl ml bl Hb Hs IH]; intros i.
    - rewrite !cnt_flat_map_cons. change (flat_map lids []) with (@nil N). rewrite !cnt_nil. lia.
    - destruct (IH i) as (I1 & I2 & I3). rewrite !cnt_flat_map_cons.
      change (flat_map lids []) with (@nil N). rewrite !cnt_nil, !cnt_lids.
      rewrite !cnt_flat_map_app, cnt_flat_map_cons. clear IH Hs. lia.
  Qed.

  Lemma vk_no : forall vis ts, visit_kids vis ts = LNo -> Forall (fun y => vis y = VNo) ts.
  Proof.
    intros vis. induction ts as [|c r IH]; intros H; [constructor|].
    simpl in H. destruct (vis c) eqn:Ec; try discriminate.
    destruct (visit_kids vis r) eqn:Er; try discriminate. constructor; [exact Ec | apply IH; reflexivity].
  Qed.

  Lemma vk_pending : forall vis ts d div p, visit_kids vis ts = LPending d div p ->
    exists l c r, ts = l ++ c :: r /\ vis c = VPending d div p.
  Proof.
    intros vis. induction ts as [|c r IH]; intros d div p H; [discriminate|].
    simpl in H. destruct (vis c) eqn:Ec; try discriminate.
    - destruct (visit_kids vis r) eqn:Er; try discriminate. inversion H; subst.
      destruct (IH _ _ _ eq_refl) as (l & c' & r' & -> & E). exists (c :: l), c', r'. auto.
    - inversion H; subst. exists [], c, r. auto.
  Qed.

  Lemma vk_changed : forall vis ts ts', visit_kids vis ts = LChanged ts' ->
    exists l c r news, ts = l ++ c :: r /\ ts' = l ++ news ++ r /\
                       (vis c = VChanged (hd c news) /\ news = [hd c news] \/ vis c = VSplice news).
  Proof.
    intros vis. induction ts as [|c r IH]; intros ts' H; [discriminate|].
    simpl in H. destruct (vis c) eqn:Ec; try discriminate.
    - destruct (visit_kids vis r) eqn:Er; try discriminate. inversion H; subst.
      destruct (IH _ eq_refl) as (l0 & c' & r' & news & -> & -> & E). exists (c :: l0), c', r', news. auto.
    - inversion H; subst. exists [], c, r, [t]. simpl. auto.
    - inversion H; subst. exists [], c, r, news. auto.
  Qed.

  Lemma vk_raise : forall vis ts, visit_kids vis ts = LRaise -> exists c, In c ts /\ vis c = VRaise.
  Proof.
    intros vis. induction ts as [|c r IH]; intros H; [discriminate|].
    simpl in H. destruct (vis c) eqn:Ec; try discriminate.
    - destruct (visit_kids vis r) eqn:Er; try discriminate.
      destruct (IH eq_refl) as (c' & Hin & E). exists c'. split; [right; exact Hin | exact E].
    - exists c. split; [left; reflexivity | exact Ec].
  Qed.

  Section Visit.
    Variable eqn : ltree -> ltree -> bool.
    Variable nx : N.
    Notation visit := (visit forb invis eqn nx).

    Lemma visit_eq : forall anc a ts,
      visit anc (L a ts) =
      if l_exc a then VNo
      else match bad_idx anc (l_cls a) with
           | Some d => VPending d [L a ts] (L a ts)
           | None =>
               match visit_kids (visit (l_cls a :: anc)) ts with
               | LNo => VNo
               | LChanged ts' => VChanged (L a ts')
               | LPending (S d) div p => VPending d (L a ts :: div) p
               | LPending O div p =>
                   match pieces eqn (L a ts :: div) p (L a ts) with
                   | Some (tp, md, bt) =>
                       VSplice [lmap (fresh_id nx 0) tp; lmap (fresh_id nx 1) md; lmap (fresh_id nx 2) bt]
                   | None => VRaise
                   end
               | LRaise => VRaise
               end
           end.
    Proof. reflexivity. Qed.

    (* a falsy return means: nothing is broken outside exception sub-trees (for either membership test) *)
    Lemma visit_no : forall t anc, visit anc t = VNo -> nest_ok anc t = true.
    Proof.
      induction t as [a ts IH] using ltree_ind'. intros anc H. rewrite visit_eq in H. simpl.
      destruct (l_exc a); [reflexivity|]. simpl.
      destruct (bad_idx anc (l_cls a)) as [d|]; [discriminate|].
      destruct (visit_kids (visit (l_cls a :: anc)) ts) as [|ts'|d div p|] eqn:Ek; try discriminate.
      - apply vk_no in Ek. simpl. apply forallb_forall. intros x Hx.
        rewrite Forall_forall in IH, Ek. apply IH; [exact Hx | apply Ek; exact Hx].
      - destruct d; [|discriminate].
        destruct (pieces eqn (L a ts :: div) p (L a ts)) as [[[tp md] bt]|]; discriminate.
    Qed.

    Lemma visit_pending : forall t anc d div p, visit anc t = VPending d div p -> pchain anc t div p d.
    Proof.
      induction t as [a ts IH] using ltree_ind'. intros anc d div p H. rewrite visit_eq in H.
      destruct (l_exc a) eqn:He; [discriminate|].
      destruct (bad_idx anc (l_cls a)) as [d0|] eqn:Hb.
      - inversion H; subst. apply pc_here; assumption.
      - destruct (visit_kids (visit (l_cls a :: anc)) ts) as [|ts'|d1 div1 p1|] eqn:Ek; try discriminate.
        destruct d1 as [|d1].
        + destruct (pieces eqn (L a ts :: div1) p1 (L a ts)) as [[[tp md] bt]|]; discriminate.
        + inversion H; subst. apply vk_pending in Ek. destruct Ek as (l & c & r & -> & Ec).
          apply pc_down; [exact He | exact Hb |]. rewrite Forall_forall in IH. apply IH; [|exact Ec].
          apply in_or_app. right. left. reflexivity.
    Qed.
  End Visit.

  Definition bounded (nx : N) (l : list N) : Prop := forall i, In i l -> (i < nx)%N.

  (* the trees `new` replace the trees `old` (same position, ancestors' classes anc) *)
  Definition repair_ok (nx : N) (anc : list N) (old new : list ltree) : Prop :=
    nsum (npairs anc) new + 1 <= nsum (npairs anc) old /\
    (forallb leafwords old = true ->
       flat_map lwords new = flat_map lwords old /\ forallb leafwords new = true) /\
    NoDup (flat_map lids new) /\
    (forall i, In i (flat_map lids new) -> In i (flat_map lids old) \/ (nx <= i)%N).

  Lemma fresh_id_inj : forall nx j i1 i2, fresh_id nx j i1 = fresh_id nx j i2 -> i1 = i2.
  Proof. intros nx j i1 i2. unfold fresh_id. lia. Qed.

  Lemma nodup_map_fresh : forall nx j l, NoDup l -> NoDup (map (fresh_id nx j) l).
  Proof.
    intros nx j l H. induction H as [|x l Hnin Hnd IH]; simpl; constructor; [|exact IH].
    intro Hin. apply in_map_iff in Hin. destruct Hin as (y & E & Hy). apply fresh_id_inj in E. subst y.
    contradiction.
  Qed.

  Lemma fresh_three_nodup : forall nx A B C, NoDup A -> NoDup B -> NoDup C ->
    NoDup (map (fresh_id nx 0) A ++ map (fresh_id nx 1) B ++ map (fresh_id nx 2) C).
  Proof.
    intros nx A B C HA HB HC. apply NoDup_app_iff. split; [apply nodup_map_fresh; exact HA | split].
    - apply NoDup_app_iff. split; [apply nodup_map_fresh; exact HB | split; [apply nodup_map_fresh; exact HC |]].
      intros x H1 H2. apply in_map_iff in H1. apply in_map_iff in H2.
      destruct H1 as (y1 & E1 & _). destruct H2 as (y2 & E2 & _). unfold fresh_id in *. lia.
    - intros x H1 H2. apply in_map_iff in H1. destruct H1 as (y1 & E1 & _).
      apply in_app_or in H2. destruct H2 as [H2|H2]; apply in_map_iff in H2;
        destruct H2 as (y2 & E2 & _); unfold fresh_id in *; lia.
  Qed.

  (* a change below the child c of a node, seen from that node *)
  Lemma good_up : forall nx anc a l c r news,
    NoDup (lids (L a (l ++ c :: r))) -> bounded nx (lids (L a (l ++ c :: r))) ->
    repair_ok nx (l_cls a :: anc) [c] news ->
    repair_ok nx anc [L a (l ++ c :: r)] [L a (l ++ news ++ r)].
  Proof.
    intros nx anc a l c r news Hnd Hbd (G1 & G2 & G3 & G4). unfold repair_ok.
    rewrite !nsum_cons, !nsum_nil in *. split; [|split; [|split]].
    - rewrite !npairs_eq, !nsum_app, nsum_cons. lia.
    - intro Hlw. simpl in Hlw. rewrite andb_true_r in Hlw.
      destruct (leafwords_path _ _ _ _ Hlw) as (Hw & Hkl & Hkc & Hkr).
      assert (Hc1 : forallb leafwords [c] = true) by (simpl; rewrite Hkc; reflexivity).
      destruct (G2 Hc1) as [Ew Lw]. simpl in Ew. rewrite app_nil_r in Ew. split.
      + simpl. rewrite !app_nil_r, Hw, !flat_map_app, Ew. simpl. reflexivity.
      + simpl. rewrite andb_true_r, Hw, !forallb_app, Hkl, Lw, Hkr. reflexivity.
    - simpl. rewrite app_nil_r. change (l_id a :: flat_map lids (l ++ news ++ r)) with (lids (L a (l ++ news ++ r))).
      apply NoDup_cnt. intro i. rewrite NoDup_cnt in Hnd. specialize (Hnd i).
      rewrite cnt_lids, !cnt_flat_map_app in *. rewrite cnt_flat_map_cons in Hnd.
      rewrite NoDup_cnt in G3. specialize (G3 i).
      destruct (in_dec N.eq_dec i (flat_map lids news)) as [Hin|Hnin].
      + destruct (G4 i Hin) as [Hold|Hnew].
        * simpl in Hold. rewrite app_nil_r in Hold. apply cnt_in_pos in Hold. lia.
        * assert (Z1 : cnt i (flat_map lids l) = 0).
          { apply notIn_cnt. intro Hi. assert (Hlt : (i < nx)%N); [|lia]. apply Hbd. rewrite lids_eq. right.
            rewrite flat_map_app. apply in_or_app. left. exact Hi. }
          assert (Z2 : cnt i (flat_map lids r) = 0).
          { apply notIn_cnt. intro Hi. assert (Hlt : (i < nx)%N); [|lia]. apply Hbd. rewrite lids_eq. right.
            rewrite flat_map_app. apply in_or_app. right. simpl. apply in_or_app. right. exact Hi. }
          assert (Z3 : N.eqb (l_id a) i = false).
          { apply N.eqb_neq. intro E. assert (Hlt : (i < nx)%N); [|lia]. apply Hbd. rewrite lids_eq. left. exact E. }
          rewrite Z3. lia.
      + apply notIn_cnt in Hnin. lia.
    - intros i Hi. simpl in Hi. rewrite app_nil_r in Hi. simpl. rewrite app_nil_r.
      destruct Hi as [E|Hi]; [left; left; exact E|].
      rewrite !flat_map_app in Hi. apply in_app_or in Hi. destruct Hi as [Hi|Hi].
      + left. right. rewrite flat_map_app. apply in_or_app. left. exact Hi.
      + apply in_app_or in Hi. destruct Hi as [Hi|Hi].
        * destruct (G4 i Hi) as [Hold|Hnew]; [|right; exact Hnew].
          simpl in Hold. rewrite app_nil_r in Hold. left. right. rewrite flat_map_app. apply in_or_app.
          right. simpl. apply in_or_app. left. exact Hold.
        * left. right. rewrite flat_map_app. apply in_or_app. right. simpl. apply in_or_app. right. exact Hi.
  Qed.

  (* the repair itself: the bad parent B = L a (l ++ c :: r) is replaced by
     [copy of top; copy of middle.children[0]; copy of bottom] *)
  Lemma good_splice : forall nx anc a l c r tl m bl,
    psplit (l_cls a :: anc) c 0 tl [m] bl -> bad_idx anc (l_cls a) = None ->
    NoDup (lids (L a (l ++ c :: r))) ->
    repair_ok nx anc [L a (l ++ c :: r)]
         [lmap (fresh_id nx 0) (L a (l ++ tl)); lmap (fresh_id nx 1) m; lmap (fresh_id nx 2) (L a (bl ++ r))].
  Proof.
    intros nx anc a l c r tl m bl Hs Hb Hnd. unfold repair_ok. split; [|split; [|split]].
    - pose proof (psplit_measure _ _ _ _ _ _ Hs) as Hm. change (rm 0 (l_cls a :: anc)) with anc in Hm.
      apply bad_idx_none in Hb.
      rewrite !nsum_cons, !nsum_nil, !npairs_lmap, !npairs_eq, !nsum_app, nsum_cons in *.
      clear Hs. lia.
    - intro Hlw. simpl in Hlw. rewrite andb_true_r in Hlw.
      destruct (leafwords_path _ _ _ _ Hlw) as (Hw & Hkl & Hkc & Hkr).
      destruct (psplit_words _ _ _ _ _ _ Hs Hkc) as (Ew & Lt & Lm & Lb).
      simpl in Ew. rewrite app_nil_r in Ew. simpl in Lm. rewrite andb_true_r in Lm. split.
      + cbn [flat_map]. rewrite !app_nil_r, !lwords_lmap, !lwords_eq, Hw, !flat_map_app. cbn [flat_map app].
        rewrite <- Ew, <- !app_assoc. reflexivity.
      + cbn [forallb]. rewrite !leafwords_lmap, Lm.
        rewrite (leafwords_mk a (l ++ tl) Hw), (leafwords_mk a (bl ++ r) Hw); [reflexivity| |].
        * rewrite forallb_app, Lb, Hkr. reflexivity.
        * rewrite forallb_app, Hkl, Lt. reflexivity.
    - cbn [flat_map]. rewrite !lids_lmap, app_nil_r.
      assert (Hc : forall i, cnt i (lids (L a (l ++ tl))) <= 1 /\ cnt i (lids m) <= 1 /\
                             cnt i (lids (L a (bl ++ r))) <= 1).
      { intro i. rewrite NoDup_cnt in Hnd. specialize (Hnd i).
        destruct (psplit_cnt _ _ _ _ _ _ Hs i) as (I1 & I2 & I3).
        rewrite cnt_flat_map_cons in I2. change (flat_map lids []) with (@nil N) in I2. rewrite cnt_nil in I2.
        rewrite !cnt_lids, !cnt_flat_map_app in *. rewrite cnt_flat_map_cons in Hnd. clear Hs. lia. }
      apply fresh_three_nodup; apply NoDup_cnt; intro i; apply (Hc i).
    - intros i Hi. right. cbn [flat_map] in Hi. rewrite !lids_lmap, app_nil_r in Hi.
      apply in_app_or in Hi. destruct Hi as [Hi|Hi]; [|apply in_app_or in Hi; destruct Hi as [Hi|Hi]];
        apply in_map_iff in Hi; destruct Hi as (y & E & _); unfold fresh_id in E; lia.
  Qed.

  Section VisitId.
    Variable nx : N.
    Notation visit := (visit forb invis eq_id nx).

    (* with identity marks, on a tree with distinct identities all below nx: a truthy return replaces the
       node by node(s) with fewer pairs, the same words, distinct identities; IndexError cannot happen *)
    Lemma visit_good : forall t anc, NoDup (lids t) -> bounded nx (lids t) ->
      match visit anc t with
      | VChanged t' => repair_ok nx anc [t] [t']
      | VSplice news => repair_ok nx anc [t] news
      | VRaise => False
      | _ => True
      end.
    Proof.
      induction t as [a ts IH] using ltree_ind'. intros anc Hnd Hbd. rewrite visit_eq.
      destruct (l_exc a) eqn:He; [exact I|].
      destruct (bad_idx anc (l_cls a)) as [d0|] eqn:Hb; [exact I|].
      destruct (visit_kids (visit (l_cls a :: anc)) ts) as [|ts'|d1 div1 p1|] eqn:Ek; [exact I| | |].
      - (* the change happened below *)
        apply vk_changed in Ek. destruct Ek as (l & c & r & news & -> & -> & Ec).
        apply good_up; [exact Hnd | exact Hbd |].
        assert (Hin : In c (l ++ c :: r)) by (apply in_or_app; right; left; reflexivity).
        rewrite Forall_forall in IH.
        assert (Hndc : NoDup (lids c)) by (eapply nodup_kid_nodup; exact Hnd).
        assert (Hbdc : bounded nx (lids c)) by (intros i Hi; apply Hbd; apply in_kid_lids; exact Hi).
        pose proof (IH c Hin (l_cls a :: anc) Hndc Hbdc) as IHc.
        destruct Ec as [[Ec En]|Ec]; rewrite Ec in IHc; [rewrite En; exact IHc | exact IHc].
      - destruct d1 as [|d1]; [|exact I].
        (* this node is the bad parent *)
        pose proof Ek as Ek'. apply vk_pending in Ek'. destruct Ek' as (l & c & r & -> & Ec).
        apply visit_pending in Ec.
        set (B := L a (l ++ c :: r)) in *.
        assert (H1 : forall q, In q div1 -> In (lid q) (map lid (B :: div1))).
        { intros q Hq. right. apply in_map. exact Hq. }
        assert (H2 : forall i, In i (map lid (B :: div1)) -> In i (lids B) -> In i (map lid (B :: div1))).
        { intros i Hi _. exact Hi. }
        destruct (path_level (B :: div1) a l c r _ _ _ _ Ec Hnd H1 H2) as (Hl & Hc_in & Hr & Hxp & H2').
        pose proof (pchain_psplit (B :: div1) _ _ _ _ _ Ec (nodup_kid_nodup a l c r Hnd) H1 H2') as Hs.
        cbv zeta in Hs.
        destruct (filt_path_node eq_id (B :: div1) p1 a l c r Hl Hc_in Hr) as (E1 & E2 & E3).
        destruct (psplit_mid_single _ _ _ _ _ _ Hs) as (m & Em).
        unfold pieces. fold B in E1, E2, E3. rewrite E1, E2, E3. rewrite Em in *. simpl lkids. cbv iota.
        apply good_splice; [exact Hs | exact Hb | exact Hnd].
      - apply vk_raise in Ek. destruct Ek as (c & Hin & Ec). rewrite Forall_forall in IH.
        apply in_split in Hin. destruct Hin as (l & r & ->).
        assert (Hin : In c (l ++ c :: r)) by (apply in_or_app; right; left; reflexivity).
        assert (Hndc : NoDup (lids c)) by (eapply nodup_kid_nodup; exact Hnd).
        assert (Hbdc : bounded nx (lids c)) by (intros i Hi; apply Hbd; apply in_kid_lids; exact Hi).
        pose proof (IH c Hin (l_cls a :: anc) Hndc Hbdc) as IHc. rewrite Ec in IHc. exact IHc.
    Qed.
  End VisitId.

  Lemma lfresh_bounded : forall t, bounded (lfresh t) (lids t).
  Proof.
    intros t i Hi. unfold lfresh. destruct (fold_max_ge (lids t) 0%N) as [_ H]. specialize (H i Hi). lia.
  Qed.

  Notation nest_step := (nest_step forb invis).
  Notation fix_nesting := (fix_nesting forb invis).

  Lemma nest_step_moved : forall t t', NoDup (lids t) -> nest_step eq_id t = NMoved t' ->
    npairs [] t' < npairs [] t /\ NoDup (lids t') /\
    (leafwords t = true -> lwords t' = lwords t /\ leafwords t' = true).
  Proof.
    intros t t' Hnd H. unfold ModelNesting.nest_step in H.
    pose proof (visit_good (lfresh t) t [] Hnd (lfresh_bounded t)) as G.
    destruct (visit forb invis eq_id (lfresh t) [] t) as [|t1|d div p|news|]; try discriminate.
    inversion H; subst t1. destruct G as (G1 & G2 & G3 & _).
    rewrite !nsum_cons, !nsum_nil in G1. cbn [flat_map] in G2, G3. rewrite !app_nil_r in *.
    split; [lia|]. split; [exact G3|]. intro Hlw. cbn [forallb] in G2. rewrite !andb_true_r in G2.
    apply G2. exact Hlw.
  Qed.

  Lemma nest_step_stop : forall eqn t, nest_step eqn t = NStop -> nest_ok [] t = true.
  Proof.
    intros eqn t H. unfold ModelNesting.nest_step in H.
    destruct (visit forb invis eqn (lfresh t) [] t) as [|t1|d div p|news|] eqn:E; try discriminate.
    eapply visit_no. exact E.
  Qed.

  Lemma bad_idx_lt : forall anc k d, bad_idx anc k = Some d -> d < length anc.
  Proof.
    induction anc as [|a r IH]; intros k d H.
    - rewrite bad_idx_nil in H. discriminate.
    - rewrite bad_idx_cons in H. destruct (invis a); [discriminate|]. destruct (forb k a).
      + inversion H. simpl. lia.
      + destruct (bad_idx r k) as [d'|] eqn:E; [|discriminate]. inversion H. specialize (IH _ _ E). simpl. lia.
  Qed.

  Lemma pchain_lt : forall anc c div p d, pchain anc c div p d -> d < length anc.
  Proof.
    intros anc c div p d H. induction H as [anc a ts d He Hb | anc a l c r div p d He Hb Hc IH].
    - eapply bad_idx_lt. exact Hb.
    - simpl in IH. lia.
  Qed.

  (* with identity marks the only exception is the AttributeError of `bad_parent.parent.replace_child`
     when the root itself is the bad parent: IndexError on middle_tree.children[0] cannot happen *)
  Lemma nest_step_raise : forall t, NoDup (lids t) -> nest_step eq_id t = NRaise ->
    exists news, visit forb invis eq_id (lfresh t) [] t = VSplice news.
  Proof.
    intros t Hnd H. unfold ModelNesting.nest_step in H.
    pose proof (visit_good (lfresh t) t [] Hnd (lfresh_bounded t)) as G.
    pose proof (visit_pending eq_id (lfresh t) t []) as P.
    destruct (visit forb invis eq_id (lfresh t) [] t) as [|t1|d div p|news|]; try discriminate.
    - specialize (P _ _ _ eq_refl). apply pchain_lt in P. simpl in P. lia.
    - eexists. reflexivity.
    - contradiction.
  Qed.

  (* the loop stops within (number of (node, forbidden visible ancestor) pairs) + 1 evaluations of its
     condition *)
  Lemma fix_nesting_fuel : forall fuel t, NoDup (lids t) -> npairs [] t < fuel ->
    fix_nesting eq_id fuel t <> NOutOfFuel.
  Proof.
    induction fuel as [|f IH]; intros t Hnd Hlt; [lia|].
    simpl. destruct (nest_step eq_id t) as [| |t'] eqn:E; try discriminate.
    destruct (nest_step_moved t t' Hnd E) as (H1 & H2 & _). apply IH; [exact H2 | lia].
  Qed.

  Theorem fix_nesting_done : forall fuel t t', NoDup (lids t) -> fix_nesting eq_id fuel t = NDone t' ->
    NoDup (lids t') /\ nest_ok [] t' = true /\ npairs [] t' <= npairs [] t /\
    (leafwords t = true -> lwords t' = lwords t /\ leafwords t' = true).
  Proof.
    induction fuel as [|f IH]; intros t t' Hnd H; [discriminate|].
    simpl in H. destruct (nest_step eq_id t) as [| |t1] eqn:E; try discriminate.
    - inversion H; subst t'. split; [exact Hnd|]. split; [eapply nest_step_stop; exact E|].
      split; [lia|]. auto.
    - destruct (nest_step_moved t t1 Hnd E) as (H1 & H2 & H3).
      destruct (IH t1 t' H2 H) as (I1 & I2 & I3 & I4). split; [exact I1|]. split; [exact I2|].
      split; [lia|]. intro Hlw. destruct (H3 Hlw) as [W1 W2]. destruct (I4 W2) as [W3 W4].
      split; [congruence | exact W4].
  Qed.

  (* the postcondition, spelled out: a node outside exception sub-trees has no forbidden visible ancestor *)
  Lemma nest_ok_spec : forall t anc, nest_ok anc t = true ->
    l_exc (llab t) = false ->
    nbad anc (lcls t) = 0 /\ forallb (nest_ok (lcls t :: anc)) (lkids t) = true.
  Proof.
    intros [a ts] anc H He. unfold lcls, llab, lkids in *.
    change (l_exc a || (match bad_idx anc (l_cls a) with None => true | Some _ => false end
                        && forallb (nest_ok (l_cls a :: anc)) ts) = true) in H.
    rewrite He in H. cbn [orb] in H. apply andb_true_iff in H.
    destruct H as [H1 H2]. split; [|exact H2]. apply bad_idx_none.
    destruct (bad_idx anc (l_cls a)); [discriminate|reflexivity].
  Qed.
End Nest2.
