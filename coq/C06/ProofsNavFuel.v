(* C06 — fuel sufficiency of the navigation recursions of C06/ModelNav.v.
   On a proper tree (WF h r) and for a start node n of the tree, none of
     first_leaf / last_leaf / get_next_skip / get_prev_skip  run with fuel nav_fuel h = S (length h)
   returns NFuel: cand_real drops nothing but genuine Nones, so the model of the four candidates is
   faithful to get_first_leaf / get_last_leaf / _get_next / _get_prev on every proper tree.
   - first_leaf descends into a child at every step: fuel > size of the subtree suffices;
   - _get_next moves to the next sibling or to the parent's next sibling: strictly LATER in the
     preorder list ids t;  _get_prev moves to the previous sibling or the parent: strictly EARLIER;
     ids t has no duplicates and at most length h elements. *)
From Coq Require Import List NArith Bool Arith Lia.
From MW Require Import C05.Heap C05.TreeOps C05.ProofsApi C06.Model C06.ModelNav C07.Proofs C06.Proofs C06.ProofsNav.
Import ListNotations.

Lemma first_leaf_fuel : forall f h s q self, repr h q s -> tsize s <= f ->
  first_leaf f h self (tid s) <> NFuel.
Proof.
  induction f as [|f IH]; intros h s q self Hr Hsz.
  { pose proof (tsize_pos s). lia. }
  destruct s as [n ts]. pose proof (repr_kids _ _ _ _ Hr) as Hk.
  apply repr_inv in Hr. destruct Hr as (nd & _ & _ & _ & _ & Hf).
  rewrite tsize_eq in Hsz. simpl tid. cbn [first_leaf]. rewrite Hk.
  destruct ts as [|x0 rest]; [simpl; discriminate|].
  cbn [map]. inversion Hf as [|? ? Hx0 Hrest]; subst. rewrite fsize_cons in Hsz.
  destruct (N.eqb (clsof h n) c_Section).
  - destruct rest as [|x1 rest']; [discriminate|]. cbn [map].
    inversion Hrest as [|? ? Hx1 _]; subst. rewrite fsize_cons in Hsz.
    eapply IH; [exact Hx1 | lia].
  - eapply IH; [exact Hx0 | lia].
Qed.

(* from ANY node of a proper tree, with either value of caller_is_self *)
Lemma first_leaf_nav_fuel : forall h t c self, repr h None t -> NoDup (ids t) -> In c (ids t) ->
  first_leaf (nav_fuel h) h self c <> NFuel.
Proof.
  intros h t c self Hr Hnd Hc.
  destruct (t_find_ex _ _ Hc) as [s Hs].
  destruct (t_find_repr _ _ _ _ _ Hr Hs) as [q Hq].
  destruct (t_find_some _ _ _ Hs) as [E _]. pose proof (t_find_incl _ _ _ Hs) as Hincl. rewrite <- E.
  eapply first_leaf_fuel; [exact Hq|].
  pose proof (t_find_NoDup _ _ _ Hnd Hs) as Hnds.
  rewrite tsize_ids. unfold nav_fuel.
  pose proof (NoDup_incl_length Hnds Hincl). pose proof (ids_le_heap _ _ _ Hr Hnd). lia.
Qed.

Lemma last_leaf_nav_fuel : forall h t n, repr h None t -> NoDup (ids t) -> In n (ids t) ->
  last_leaf (nav_fuel h) h n <> NFuel.
Proof.
  intros h t n Hr Hnd Hn. unfold last_leaf.
  destruct (last_opt (kids h n)) as [c|] eqn:L; [|discriminate].
  eapply first_leaf_nav_fuel; [exact Hr | exact Hnd |].
  eapply child_in_ids; [exact Hr | exact Hn | apply last_opt_in; exact L].
Qed.

Lemma index_zero : forall n l, index_of n l = Some O -> exists post, l = n :: post.
Proof.
  intros n [|a l] H; [discriminate|]. simpl in H. destruct (N.eqb n a) eqn:E.
  - apply N.eqb_eq in E. subst a. eauto.
  - destruct (index_of n l); discriminate.
Qed.

Lemma index_nth_next : forall n x l k, index_of n l = Some k -> nth_error l (S k) = Some x ->
  exists pre post, l = pre ++ n :: x :: post.
Proof.
  intros n x. induction l as [|a l IH]; intros k Hi Hn; [discriminate|].
  simpl in Hi. destruct (N.eqb n a) eqn:E.
  - apply N.eqb_eq in E. subst a. inversion Hi; subst k. simpl in Hn.
    destruct l as [|y l']; [discriminate|]. simpl in Hn. inversion Hn; subst y.
    exists [], l'. reflexivity.
  - destruct (index_of n l) as [k'|] eqn:Hi'; [|discriminate]. inversion Hi; subst k.
    simpl in Hn. destruct (IH k' eq_refl Hn) as (pre & post & ->).
    exists (a :: pre), post. reflexivity.
Qed.

Lemma index_nth_prev : forall n x l k, index_of n l = Some (S k) -> nth_error l k = Some x ->
  exists pre post, l = pre ++ x :: n :: post.
Proof.
  intros n x. induction l as [|a l IH]; intros k Hi Hn; [discriminate|].
  simpl in Hi. destruct (N.eqb n a) eqn:E; [discriminate|].
  destruct (index_of n l) as [k'|] eqn:Hi'; [|discriminate]. inversion Hi; subst k'.
  destruct k as [|k].
  - simpl in Hn. inversion Hn; subst a. destruct (index_zero _ _ Hi') as [post ->].
    exists [], post. reflexivity.
  - simpl in Hn. destruct (IH k eq_refl Hn) as (pre & post & ->).
    exists (a :: pre), post. reflexivity.
Qed.

Lemma find_block : forall t c s, NoDup (ids t) -> t_find c t = Some s ->
  exists X Y, ids t = X ++ ids s ++ Y.
Proof.
  intros t c s Hnd F. destruct (N.eq_dec c (tid t)) as [E|E].
  - subst c. rewrite t_find_root in F. inversion F; subst s.
    exists [], []. rewrite app_nil_r. reflexivity.
  - destruct (ids_remove_block t c s Hnd E F) as (A & B & E1 & _). eauto.
Qed.

(* consecutive children a, b of a node p: the whole subtree of a, then b *)
Lemma sib_order : forall h t p pre a b post, repr h None t -> NoDup (ids t) -> In p (ids t) ->
  kids h p = pre ++ a :: b :: post ->
  exists l1 A l3, ids t = l1 ++ ids A ++ b :: l3 /\ tid A = a /\ repr h (Some p) A.
Proof.
  intros h t p pre a b post Hr Hnd Hp Hk.
  destruct (find_node _ _ _ _ Hr Hp) as (q' & ts & F & Hq).
  destruct (find_block _ _ _ Hnd F) as (X & Y & EX).
  rewrite (repr_kids _ _ _ _ Hq) in Hk.
  apply map_eq_app in Hk. destruct Hk as (l1' & l2' & -> & _ & Hk).
  apply map_eq_cons in Hk. destruct Hk as (A & tl & -> & HA & Hk).
  apply map_eq_cons in Hk. destruct Hk as (B & tl' & -> & HB & _).
  exists (X ++ p :: idsl l1'), A, (idsl (tkids B) ++ idsl tl' ++ Y).
  split; [|split; [exact HA|]].
  - rewrite EX, ids_eq, idsl_app, !idsl_cons, (ids_hd B), HB.
    simpl. rewrite <- !app_assoc. simpl. rewrite <- !app_assoc. reflexivity.
  - eapply repr_child; [exact Hq|]. apply in_or_app. right. left. reflexivity.
Qed.

(* a node comes before its children *)
Lemma parent_before : forall h t p n, repr h None t -> NoDup (ids t) -> In p (ids t) ->
  In n (kids h p) -> exists l1 l2 l3, ids t = l1 ++ p :: l2 ++ n :: l3.
Proof.
  intros h t p n Hr Hnd Hp Hn.
  destruct (find_node _ _ _ _ Hr Hp) as (q' & ts & F & Hq).
  destruct (find_block _ _ _ Hnd F) as (X & Y & EX).
  rewrite (repr_kids _ _ _ _ Hq) in Hn. apply in_map_iff in Hn. destruct Hn as (x & <- & Hx).
  assert (Hin : In (tid x) (idsl ts)).
  { unfold idsl. apply in_flat_map. exists x. split; [exact Hx | apply tid_in_ids]. }
  apply in_split in Hin. destruct Hin as (u & v & Euv).
  exists X, u, (v ++ Y). rewrite EX, ids_eq, Euv. simpl. rewrite <- !app_assoc. reflexivity.
Qed.

Lemma get_next_pos : forall h t n x, repr h None t -> NoDup (ids t) -> In n (ids t) ->
  get_next h n = Some x ->
  exists l1 A l3, ids t = l1 ++ ids A ++ x :: l3 /\ tid A = n /\ (exists q, repr h q A).
Proof.
  intros h t n x Hr Hnd Hn H. unfold get_next, siblings in H.
  destruct (par h n) as [p|] eqn:Hp; [|discriminate].
  destruct (index_of n (kids h p)) as [k|] eqn:Hi; [|discriminate].
  destruct (index_nth_next _ _ _ _ Hi H) as (pre & post & Hk).
  destruct (par_in_tree _ _ _ _ Hr Hn Hp) as [Hpt _].
  destruct (sib_order h t p pre n x post Hr Hnd Hpt Hk) as (l1 & A & l3 & E & HA & HrA).
  exists l1, A, l3. eauto.
Qed.

Lemma next_later : forall h t n x, repr h None t -> NoDup (ids t) -> In n (ids t) ->
  next_node h n = Some x -> exists l1 l2 l3, ids t = l1 ++ n :: l2 ++ x :: l3.
Proof.
  intros h t n x Hr Hnd Hn H. unfold next_node in H.
  destruct (get_next h n) as [y|] eqn:G.
  - inversion H; subst y.
    destruct (get_next_pos _ _ _ _ Hr Hnd Hn G) as (l1 & A & l3 & E & HA & _).
    exists l1, (idsl (tkids A)), l3. rewrite E, (ids_hd A), HA. simpl. reflexivity.
  - destruct (par h n) as [p|] eqn:Hp; [|discriminate].
    destruct (par_in_tree _ _ _ _ Hr Hn Hp) as [Hpt Hnk].
    destruct (get_next_pos _ _ _ _ Hr Hnd Hpt H) as (l1 & A & l3 & E & HA & q & HrA).
    assert (HnA : In n (ids A)).
    { rewrite <- HA in Hnk. eapply child_in_ids; [exact HrA | apply tid_in_ids | exact Hnk]. }
    apply in_split in HnA. destruct HnA as (u & v & Euv).
    exists (l1 ++ u), v, l3. rewrite E, Euv, <- !app_assoc. simpl. reflexivity.
Qed.

Lemma prev_earlier : forall h t n x, repr h None t -> NoDup (ids t) -> In n (ids t) ->
  prev_node h n = Some x -> exists l1 l2 l3, ids t = l1 ++ x :: l2 ++ n :: l3.
Proof.
  intros h t n x Hr Hnd Hn H. unfold prev_node in H.
  destruct (get_previous h n) as [y|] eqn:G.
  - inversion H; subst y. unfold get_previous, siblings in G.
    destruct (par h n) as [p|] eqn:Hp; [|discriminate].
    destruct (index_of n (kids h p)) as [[|k]|] eqn:Hi; try discriminate.
    destruct (index_nth_prev _ _ _ _ Hi G) as (pre & post & Hk).
    destruct (par_in_tree _ _ _ _ Hr Hn Hp) as [Hpt _].
    destruct (sib_order h t p pre x n post Hr Hnd Hpt Hk) as (l1 & A & l3 & E & HA & _).
    exists l1, (idsl (tkids A)), l3. rewrite E, (ids_hd A), HA. simpl. reflexivity.
  - destruct (par_in_tree _ _ _ _ Hr Hn H) as [Hpt Hnk].
    eapply parent_before; eassumption.
Qed.

Section SkipFuel.
  Variable is_block blank : heap -> N -> bool.

  Lemma get_next_skip_fuel : forall h t, repr h None t -> NoDup (ids t) ->
    forall f n l1 l3, ids t = l1 ++ n :: l3 -> length l3 < f ->
    get_next_skip is_block blank f h n <> NFuel.
  Proof.
    intros h t Hr Hnd. induction f as [|f IH]; intros n l1 l3 E Hlen; [lia|].
    rewrite get_next_skip_unfold.
    destruct (next_node h n) as [x|] eqn:Hx; [|discriminate].
    destruct (skip is_block blank h x); [|discriminate].
    assert (Hn : In n (ids t)) by (rewrite E; apply in_elt).
    destruct (next_later _ _ _ _ Hr Hnd Hn Hx) as (a & b & c & E2).
    assert (U : l1 = a /\ l3 = b ++ x :: c).
    { eapply nodup_split_unique; [rewrite <- E; exact Hnd | rewrite <- E; exact E2]. }
    destruct U as [-> ->].
    apply (IH x (a ++ n :: b) c).
    - rewrite E2, <- app_assoc. reflexivity.
    - rewrite app_length in Hlen. simpl in Hlen. lia.
  Qed.

  Lemma get_prev_skip_fuel : forall h t, repr h None t -> NoDup (ids t) ->
    forall f n l1 l3, ids t = l1 ++ n :: l3 -> length l1 < f ->
    get_prev_skip is_block blank f h n <> NFuel.
  Proof.
    intros h t Hr Hnd. induction f as [|f IH]; intros n l1 l3 E Hlen; [lia|].
    rewrite get_prev_skip_unfold.
    destruct (prev_node h n) as [x|] eqn:Hx; [|discriminate].
    destruct (skip is_block blank h x); [|discriminate].
    assert (Hn : In n (ids t)) by (rewrite E; apply in_elt).
    destruct (prev_earlier _ _ _ _ Hr Hnd Hn Hx) as (a & b & c & E2).
    assert (U : l1 = a ++ x :: b /\ l3 = c).
    { eapply nodup_split_unique; [rewrite <- E; exact Hnd |].
      rewrite <- E, E2, <- app_assoc. reflexivity. }
    destruct U as [-> ->].
    apply (IH x a (b ++ n :: c)).
    - exact E2.
    - rewrite app_length in Hlen. simpl in Hlen. lia.
  Qed.

  (* with fuel nav_fuel h = S (length h) none of the four navigation results is NFuel *)
  Theorem nav_fuel_ok : forall h r n, WF h r ->
    (forall t, tid t = r -> repr h None t -> In n (ids t)) ->
    forall x, In x (nav_list is_block blank h n) -> x <> NFuel.
  Proof.
    intros h r n (t & Ht & Hr & Hnd) Hn x Hx. specialize (Hn t Ht Hr).
    pose proof (ids_le_heap _ _ _ Hr Hnd) as Hle.
    destruct (in_split _ _ Hn) as (l1 & l3 & E).
    assert (Hlen : length l1 + S (length l3) <= length h).
    { rewrite E, app_length in Hle. simpl in Hle. exact Hle. }
    unfold nav_list in Hx. destruct Hx as [<-|[<-|[<-|[<-|[]]]]].
    - eapply first_leaf_nav_fuel; eassumption.
    - eapply last_leaf_nav_fuel; eassumption.
    - eapply get_next_skip_fuel; [exact Hr | exact Hnd | exact E | unfold nav_fuel; lia].
    - eapply get_prev_skip_fuel; [exact Hr | exact Hnd | exact E | unfold nav_fuel; lia].
  Qed.

  (* hence: every navigation result is a genuine Python value (a node or None), and cand_real is exactly the
     list of the non-None results: nothing is dropped because of fuel *)
  Theorem cand_real_faithful : forall h r n, WF h r ->
    (forall t, tid t = r -> repr h None t -> In n (ids t)) ->
    (forall x, In x (nav_list is_block blank h n) -> exists o, x = NRes o) /\
    (forall c, In c (cand_real is_block blank h n) <->
               In (NRes (Some c)) (nav_list is_block blank h n)).
  Proof.
    intros h r n Hwf Hn. split.
    - intros x Hx. pose proof (nav_fuel_ok h r n Hwf Hn x Hx) as K.
      destruct x as [|o]; [congruence | eauto].
    - intros c. unfold cand_real, nav_nodes. rewrite in_flat_map. split.
      + intros (x & Hx & Hc). destruct x as [|[c'|]]; try contradiction.
        destruct Hc as [->|[]]. exact Hx.
      + intros Hx. exists (NRes (Some c)). split; [exact Hx | left; reflexivity].
  Qed.
End SkipFuel.
