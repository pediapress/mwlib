(* C06 — the loops of fix_paragraphs and remove_breaking_returns terminate (fix_nesting: ProofsNesting.v).
   Model: C06/Model.v (over C05/Heap.v, C05/TreeOps.v); the heap API is used through its tree-level
   characterisations in C05/ProofsApi.v (move_to_repr, remove_child_repr); tree lemmas from C07/Proofs.v. *)
From Coq Require Import List NArith Bool Arith Lia.
From MW Require Import C05.Heap C05.TreeOps C05.ProofsApi C06.Model C06.ModelNav C07.Proofs.
Import ListNotations.

Definition fsize (ts : list tree) : nat := list_sum (map tsize ts).
Definition fdepth (d : nat) (ts : list tree) : nat := list_sum (map (sdepth d) ts).

Lemma tsize_eq : forall i ts, tsize (T i ts) = S (fsize ts).
Proof. reflexivity. Qed.
Lemma fsize_nil : fsize [] = 0.
Proof. reflexivity. Qed.
Lemma fsize_cons : forall x r, fsize (x :: r) = tsize x + fsize r.
Proof. reflexivity. Qed.
Lemma fsize_app : forall a b, fsize (a ++ b) = fsize a + fsize b.
Proof. intros. unfold fsize. rewrite map_app, list_sum_app. reflexivity. Qed.
Lemma sdepth_eq : forall d i ts, sdepth d (T i ts) = d + fdepth (S d) ts.
Proof. reflexivity. Qed.
Lemma fdepth_nil : forall d, fdepth d [] = 0.
Proof. reflexivity. Qed.
Lemma fdepth_cons : forall d x r, fdepth d (x :: r) = sdepth d x + fdepth d r.
Proof. reflexivity. Qed.
Lemma fdepth_app : forall d a b, fdepth d (a ++ b) = fdepth d a + fdepth d b.
Proof. intros. unfold fdepth. rewrite map_app, list_sum_app. reflexivity. Qed.
#[local] Hint Rewrite tsize_eq fsize_nil fsize_cons fsize_app
                      sdepth_eq fdepth_nil fdepth_cons fdepth_app : sz.

Lemma tsize_pos : forall t, 1 <= tsize t.
Proof. intros [i ts]. rewrite tsize_eq. lia. Qed.

Lemma sdepth_S : forall s d, sdepth (S d) s = sdepth d s + tsize s.
Proof.
  intros s. induction s as [i ts IH] using tree_ind'. intros d.
  rewrite !sdepth_eq, tsize_eq.
  assert (E : fdepth (S (S d)) ts = fdepth (S d) ts + fsize ts).
  { induction ts as [|x r IHr]; [reflexivity|].
    inversion IH as [|? ? Hx Hr]; subst.
    rewrite !fdepth_cons, fsize_cons, (Hx (S d)), (IHr Hr). lia. }
  lia.
Qed.

Lemma fdepth_bound : forall d ts,
  Forall (fun t => forall d, sdepth d t + tsize t <= tsize t * (d + tsize t)) ts ->
  fdepth d ts + fsize ts <= fsize ts * (d + fsize ts).
Proof.
  intros d ts H. induction ts as [|x r IHr]; [rewrite fdepth_nil, fsize_nil; lia|].
  inversion H as [|? ? Hx Hr]; subst. specialize (IHr Hr). specialize (Hx d).
  rewrite fdepth_cons, fsize_cons.
  set (a := tsize x) in *. set (b := fsize r) in *.
  set (u := sdepth d x) in *. set (v := fdepth d r) in *.
  nia.
Qed.

Lemma sdepth_bound : forall t d, sdepth d t + tsize t <= tsize t * (d + tsize t).
Proof.
  intros t. induction t as [i ts IH] using tree_ind'. intros d.
  pose proof (fdepth_bound (S d) ts IH) as B.
  rewrite sdepth_eq, tsize_eq.
  set (m := fsize ts) in *. set (v := fdepth (S d) ts) in *.
  nia.
Qed.

Lemma sdepth0_le : forall t, sdepth 0 t <= tsize t * tsize t.
Proof. intros t. pose proof (sdepth_bound t 0). simpl in H. lia. Qed.

(* the adjacent move, structurally
   adjm n tgt P t t' : somewhere in t there are consecutive siblings S, P (tid P = n) and the last
   child of S is L (tid L = tgt); t' is t with P moved behind L (new last child of S). *)
Inductive adjm (n tgt : N) (P : tree) : tree -> tree -> Prop :=
| adjm_here : forall i pre sid ks L post, tid P = n -> tid L = tgt ->
    adjm n tgt P (T i (pre ++ T sid (ks ++ [L]) :: P :: post))
                 (T i (pre ++ T sid (ks ++ [L; P]) :: post))
| adjm_in : forall i pre x x' post, adjm n tgt P x x' ->
    adjm n tgt P (T i (pre ++ x :: post)) (T i (pre ++ x' :: post)).

Lemma adjm_tid : forall n tgt P t t', adjm n tgt P t t' -> tid t' = tid t.
Proof. intros n tgt P t t' H. destruct H; reflexivity. Qed.

Lemma adjm_tsize : forall n tgt P t t', adjm n tgt P t t' -> tsize t' = tsize t.
Proof.
  intros n tgt P t t' H. induction H.
  - autorewrite with sz. lia.
  - autorewrite with sz. lia.
Qed.

Lemma adjm_sdepth : forall n tgt P t t', adjm n tgt P t t' ->
  forall d, sdepth d t' = sdepth d t + tsize P.
Proof.
  intros n tgt P t t' H. induction H; intros d.
  - autorewrite with sz. rewrite (sdepth_S P (S d)). lia.
  - autorewrite with sz. rewrite IHadjm. lia.
Qed.

Lemma adjm_ids : forall n tgt P t t', adjm n tgt P t t' -> ids t' = ids t.
Proof.
  intros n tgt P t t' H. induction H.
  - rewrite !ids_eq, !idsl_app, !idsl_cons, !ids_eq, !idsl_app, !idsl_cons.
    change (idsl []) with (@nil N). rewrite !app_nil_r.
    simpl. rewrite <- !app_assoc. reflexivity.
  - rewrite !ids_eq, !idsl_app, !idsl_cons, IHadjm. reflexivity.
Qed.

Lemma f_find_cons : forall c x r,
  f_find c (x :: r) = match t_find c x with Some s => Some s | None => f_find c r end.
Proof. reflexivity. Qed.

Lemma f_find_app_none : forall c a b, ~ In c (idsl a) -> f_find c (a ++ b) = f_find c b.
Proof.
  induction a as [|x a IH]; intros b H; [reflexivity|].
  rewrite idsl_cons in H. simpl.
  rewrite t_find_none by (intro; apply H; apply in_or_app; left; assumption).
  apply IH. intro; apply H; apply in_or_app; right; assumption.
Qed.

Lemma nodup_child : forall i pre x post, NoDup (ids (T i (pre ++ x :: post))) ->
  NoDup (ids x) /\ forall c, In c (ids x) -> c <> i /\ ~ In c (idsl pre) /\ ~ In c (idsl post).
Proof.
  intros i pre x post H. rewrite ids_eq, idsl_app, idsl_cons in H.
  apply NoDup_cons_iff in H. destruct H as [Hi H].
  apply NoDup_app_iff in H. destruct H as (_ & H & D1).
  apply NoDup_app_iff in H. destruct H as (Hx & _ & D2).
  split; [exact Hx|]. intros c Hc. split; [|split].
  - intro K. subst c. apply Hi. apply in_or_app. right. apply in_or_app. left. exact Hc.
  - intro K. apply (D1 c K). apply in_or_app. left. exact Hc.
  - exact (D2 c Hc).
Qed.

Lemma in_child : forall c i pre x post, In c (ids x) -> In c (ids (T i (pre ++ x :: post))).
Proof.
  intros c i pre x post H. rewrite ids_eq, idsl_app, idsl_cons.
  right. apply in_or_app. right. apply in_or_app. left. exact H.
Qed.

Lemma t_find_at : forall c i pre x post, c <> i -> ~ In c (idsl pre) -> In c (ids x) ->
  t_find c (T i (pre ++ x :: post)) = t_find c x.
Proof.
  intros c i pre x post Hi Hpre Hx. rewrite t_find_eq.
  destruct (N.eqb_spec i c) as [E|_]; [congruence|].
  rewrite (f_find_app_none _ _ _ Hpre), f_find_cons.
  destruct (t_find c x) eqn:E; [reflexivity|]. apply t_find_none_inv in E. contradiction.
Qed.

Lemma t_replace_at : forall c ns i pre x post, ~ In c (idsl pre) -> ~ In c (idsl post) ->
  t_replace c ns (T i (pre ++ x :: post)) =
  T i (pre ++ (if N.eqb (tid x) c then ns else [t_replace c ns x]) ++ post).
Proof.
  intros c ns i pre x post Hpre Hpost.
  rewrite t_replace_eq, rep_app, rep_cons, (rep_notin _ _ _ Hpre), (rep_notin _ _ _ Hpost). reflexivity.
Qed.

Lemma t_insert_at : forall c s i pre x post, ~ In c (idsl pre) -> ~ In c (idsl post) ->
  t_insert c false s (T i (pre ++ x :: post)) =
  T i (pre ++ (if N.eqb (tid x) c then [x; s] else [t_insert c false s x]) ++ post).
Proof.
  intros c s i pre x post Hpre Hpost.
  rewrite t_insert_eq, ins_app, ins_cons, (ins_notin _ _ _ _ Hpre), (ins_notin _ _ _ _ Hpost). reflexivity.
Qed.

Lemma adjm_spec : forall n tgt P t t', adjm n tgt P t t' -> NoDup (ids t) ->
  In tgt (ids t) /\ n <> tid t /\ tgt <> tid t /\ t_find n t = Some P /\ ~ In tgt (ids P) /\
  t_insert tgt false P (t_replace n [] t) = t'.
Proof.
  intros n tgt P t t' H. induction H as [i pre sid ks L post HP HL | i pre x x' post H IH];
    intros Hnd.
  - subst n tgt. set (S := T sid (ks ++ [L])) in *.
    assert (E : pre ++ S :: P :: post = (pre ++ [S]) ++ P :: post) by (rewrite <- app_assoc; reflexivity).
    destruct (nodup_child i pre S (P :: post) Hnd) as [NS CS].
    rewrite E in Hnd. destruct (nodup_child i (pre ++ [S]) P post Hnd) as [_ CP].
    destruct (CP _ (tid_in_ids P)) as (P1 & P2 & P3).
    destruct (nodup_child sid ks L [] NS) as [_ CL].
    destruct (CL _ (tid_in_ids L)) as (L1 & L2 & L3).
    pose proof (in_child _ sid ks L [] (tid_in_ids L)) as InS. fold S in InS.
    destruct (CS _ InS) as (S1 & S2 & S3). rewrite idsl_cons in S3.
    split; [apply in_child; exact InS|]. split; [exact P1|]. split; [exact S1|].
    split; [rewrite E; rewrite t_find_at; [apply t_find_root | exact P1 | exact P2 | apply tid_in_ids]|].
    split; [intro K; apply S3; apply in_or_app; left; exact K|].
    rewrite E, (t_replace_at _ _ _ _ _ _ P2 P3), N.eqb_refl, <- app_assoc. cbn [app].
    rewrite t_insert_at; [|exact S2 | intro K; apply S3; apply in_or_app; right; exact K].
    change (tid S) with sid. rewrite (proj2 (N.eqb_neq _ _) (not_eq_sym L1)).
    unfold S. rewrite (t_insert_at _ _ _ _ _ _ L2 L3), N.eqb_refl, app_nil_r. reflexivity.
  - destruct (nodup_child i pre x post Hnd) as [Nx Cx].
    destruct (IH Nx) as (I2 & I3 & I4 & I5 & I6 & I7).
    pose proof (t_find_in _ _ _ I5) as I1.
    destruct (Cx n I1) as (A1 & A2 & A3). destruct (Cx tgt I2) as (B1 & B2 & B3).
    split; [apply in_child; exact I2|]. split; [exact A1|]. split; [exact B1|].
    split; [rewrite (t_find_at _ _ _ _ _ A1 A2 I1); exact I5|]. split; [exact I6|].
    rewrite (t_replace_at _ _ _ _ _ _ A2 A3), (proj2 (N.eqb_neq _ _) (not_eq_sym I3)). cbn [app].
    rewrite (t_insert_at _ _ _ _ _ _ B2 B3), tid_t_replace, (proj2 (N.eqb_neq _ _) (not_eq_sym I4)), I7.
    reflexivity.
Qed.

Fixpoint f_trig (h : heap) (pv : option N) (l : list tree) : option (N * N) :=
  match l with
  | [] => None
  | x :: r => match find_trig h pv x with
              | Some q => Some q
              | None => f_trig h (Some (tid x)) r
              end
  end.

Lemma find_trig_eq : forall h pv i ts,
  find_trig h pv (T i ts) =
  match is_trig h pv i with Some q => Some q | None => f_trig h None ts end.
Proof.
  intros. simpl. destruct (is_trig h pv i); [reflexivity|].
  generalize (@None N). induction ts as [|x r IH]; intros o; [reflexivity|].
  simpl. destruct (find_trig h o x); [reflexivity | apply IH].
Qed.

Lemma is_trig_spec : forall h pv i p s, is_trig h pv i = Some (p, s) ->
  pv = Some s /\ p = i /\ clsof h i = c_Paragraph /\ clsof h s = c_Section.
Proof.
  intros h pv i p s H. unfold is_trig in H. destruct pv as [s0|]; [|discriminate].
  destruct (N.eqb (clsof h i) c_Paragraph) eqn:E1; [|discriminate].
  destruct (N.eqb (clsof h s0) c_Section) eqn:E2; [|discriminate].
  simpl in H. inversion H; subst. apply N.eqb_eq in E1, E2. auto.
Qed.

(* S and P are consecutive siblings somewhere in the tree *)
Inductive sib (S P : tree) : tree -> Prop :=
| sib_here : forall i pre post, sib S P (T i (pre ++ S :: P :: post))
| sib_in : forall i pre x post, sib S P x -> sib S P (T i (pre ++ x :: post)).

Definition trig_spec (h : heap) (p s : N) (pv : option N) (t : tree) : Prop :=
  clsof h p = c_Paragraph /\ clsof h s = c_Section /\
  ((pv = Some s /\ p = tid t) \/ (exists S P, tid S = s /\ tid P = p /\ sib S P t)).

Lemma f_trig_sib : forall h p s ts,
  Forall (fun t => forall pv, find_trig h pv t = Some (p, s) -> trig_spec h p s pv t) ts ->
  forall pv, f_trig h pv ts = Some (p, s) ->
  clsof h p = c_Paragraph /\ clsof h s = c_Section /\
  ((exists P post, pv = Some s /\ ts = P :: post /\ tid P = p) \/
   (exists pre S P post, ts = pre ++ S :: P :: post /\ tid S = s /\ tid P = p) \/
   (exists pre x post S P, ts = pre ++ x :: post /\ sib S P x /\ tid S = s /\ tid P = p)).
Proof.
  intros h p s ts. induction ts as [|x r IHr]; intros IH pv H; [discriminate|].
  inversion IH as [|? ? Hx Hr]; subst. simpl in H.
  destruct (find_trig h pv x) as [q|] eqn:F.
  - inversion H; subst q. destruct (Hx pv F) as (C1 & C2 & [[A B]|(S & P & A & B & C)]).
    + split; [exact C1|]. split; [exact C2|]. left. exists x, r. auto.
    + split; [exact C1|]. split; [exact C2|]. right. right. exists [], x, r, S, P. auto.
  - destruct (IHr Hr _ H) as (C1 & C2 & [(P & post & A & B & C)|[(pre & S & P & post & A & B & C)|
                                (pre & y & post & S & P & A & B & C & D)]]);
      (split; [exact C1|]); (split; [exact C2|]).
    + right. left. inversion A; subst. exists [], x, P, post. auto.
    + right. left. subst r. exists (x :: pre), S, P, post. auto.
    + right. right. subst r. exists (x :: pre), y, post, S, P. auto.
Qed.

Lemma find_trig_spec : forall h p s t pv,
  find_trig h pv t = Some (p, s) -> trig_spec h p s pv t.
Proof.
  intros h p s t. induction t as [i ts IH] using tree_ind'. intros pv H.
  rewrite find_trig_eq in H. destruct (is_trig h pv i) as [q|] eqn:E.
  - inversion H; subst q. apply is_trig_spec in E. destruct E as (E1 & -> & E3 & E4).
    split; [exact E3|]. split; [exact E4|]. left. auto.
  - destruct (f_trig_sib h p s ts IH None H)
      as (C1 & C2 & [(P & post & A & B & C)|[(pre & S & P & post & A & B & C)|
                                  (pre & y & post & S & P & A & B & C & D)]]);
      [discriminate| |]; (split; [exact C1|]); (split; [exact C2|]); right; subst ts; exists S, P.
    + split; [auto|]. split; [auto|]. apply sib_here.
    + split; [auto|]. split; [auto|]. apply sib_in. exact B.
Qed.

Lemma find_trig_root : forall h p s t, find_trig h None t = Some (p, s) ->
  clsof h s = c_Section /\ exists S P, tid S = s /\ tid P = p /\ sib S P t.
Proof.
  intros h p s t H. destruct (find_trig_spec _ _ _ _ _ H) as (_ & C & [[A _]|E]); [discriminate | auto].
Qed.

Lemma sib_adjm : forall S P t, sib S P t -> forall ks L, tkids S = ks ++ [L] ->
  exists t', adjm (tid P) (tid L) P t t'.
Proof.
  intros S P t H. induction H as [i pre post | i pre x post H IH]; intros ks L E.
  - destruct S as [sid kk]. simpl in E. subst kk.
    eexists. apply adjm_here; reflexivity.
  - destruct (IH _ _ E) as [x' Hx]. eexists. apply adjm_in. exact Hx.
Qed.

Lemma sib_repr : forall S P t, sib S P t -> forall h q, repr h q t -> exists q', repr h q' S.
Proof.
  intros S P t H. induction H as [i pre post | i pre x post H IH]; intros h q Hr.
  - apply repr_inv in Hr. destruct Hr as (nd & _ & _ & _ & _ & Hf).
    rewrite Forall_forall in Hf. exists (Some i). apply Hf. apply in_elt.
  - apply repr_inv in Hr. destruct Hr as (nd & _ & _ & _ & _ & Hf).
    rewrite Forall_forall in Hf. apply (IH h (Some i)). apply Hf. apply in_elt.
Qed.

Lemma sib_in_ids : forall S P t, sib S P t -> In (tid S) (ids t).
Proof.
  intros S P t H. induction H as [i pre post | i pre x post H IH].
  - apply in_child. apply tid_in_ids.
  - apply in_child. exact IH.
Qed.

Lemma last_opt_spec {A} : forall (l : list A) x, last_opt l = Some x -> exists ks, l = ks ++ [x].
Proof.
  intros l x H. unfold last_opt in H. destruct (rev l) as [|y r] eqn:E; [discriminate|].
  inversion H; subst y. exists (rev r). rewrite <- (rev_involutive l), E. reflexivity.
Qed.

Lemma last_opt_none {A} : forall (l : list A), last_opt l = None -> l = [].
Proof.
  intros l H. unfold last_opt in H. destruct (rev l) as [|y r] eqn:E; [|discriminate].
  rewrite <- (rev_involutive l), E. reflexivity.
Qed.

Lemma map_tid_snoc : forall ts ks l, map tid ts = ks ++ [l] ->
  exists ks' L, ts = ks' ++ [L] /\ tid L = l.
Proof.
  intros ts. induction ts as [|x ts' _] using rev_ind; intros ks l H.
  - simpl in H. destruct ks; discriminate.
  - rewrite map_app in H. simpl in H. apply app_inj_tail in H. destruct H as [_ H].
    exists ts', x. auto.
Qed.

(* sections with children
   (for the no-raise refinement: get_last_child() of a Section with children is not None) *)
Inductive sec_ok (h : heap) : tree -> Prop :=
| sec_ok_T : forall i ts, (clsof h i = c_Section -> ts <> []) -> Forall (sec_ok h) ts ->
    sec_ok h (T i ts).

Lemma sec_ok_inv : forall h i ts, sec_ok h (T i ts) ->
  (clsof h i = c_Section -> ts <> []) /\ Forall (sec_ok h) ts.
Proof. intros h i ts H. inversion H; subst. auto. Qed.

Lemma sec_ok_same_tc : forall h h' t, same_tc h h' -> sec_ok h t -> sec_ok h' t.
Proof.
  intros h h' t Hs. induction t as [i ts IH] using tree_ind'. intros H.
  apply sec_ok_inv in H. destruct H as [H1 H2]. constructor.
  - destruct (Hs i) as [_ E]. rewrite E. exact H1.
  - rewrite Forall_forall in *. intros x Hx. apply IH; auto.
Qed.

Lemma sec_ok_of_heap : forall h t q, repr h q t ->
  (forall i, In i (ids t) -> clsof h i = c_Section -> kids h i <> []) -> sec_ok h t.
Proof.
  intros h t. induction t as [i ts IH] using tree_ind'. intros q Hr H.
  pose proof (repr_kids _ _ _ _ Hr) as Hk.
  apply repr_inv in Hr. destruct Hr as (nd & _ & _ & _ & _ & Hf).
  constructor.
  - intros Hc E. subst ts. apply (H i); [left; reflexivity | exact Hc | exact Hk].
  - rewrite Forall_forall in *. intros x Hx. apply (IH x Hx (Some i)); [apply Hf; exact Hx|].
    intros j Hj. apply H. rewrite ids_eq. right. unfold idsl. apply in_flat_map.
    exists x. auto.
Qed.

Lemma adjm_sec_ok : forall h n tgt P t t', adjm n tgt P t t' -> sec_ok h t -> sec_ok h t'.
Proof.
  intros h n tgt P t t' H. induction H as [i pre sid ks L post HP HL | i pre x x' post H IH];
    intros Hok.
  - apply sec_ok_inv in Hok. destruct Hok as [_ F].
    apply Forall_app in F. destruct F as [F1 F2].
    inversion F2 as [|? ? FS F3]; subst. inversion F3 as [|? ? FP F4]; subst.
    apply sec_ok_inv in FS. destruct FS as [_ FS].
    apply Forall_app in FS. destruct FS as [G1 G2]. inversion G2 as [|? ? GL _]; subst.
    constructor.
    + intros _ K. destruct pre; discriminate.
    + apply Forall_app. split; [exact F1|]. constructor; [|exact F4].
      constructor.
      * intros _ K. destruct ks; discriminate.
      * apply Forall_app. split; [exact G1|]. repeat constructor; assumption.
  - apply sec_ok_inv in Hok. destruct Hok as [_ F].
    apply Forall_app in F. destruct F as [F1 F2]. inversion F2 as [|? ? Fx F3]; subst.
    constructor.
    + intros _ K. destruct pre; discriminate.
    + apply Forall_app. split; [exact F1|]. constructor; [apply IH; exact Fx | exact F3].
Qed.

Lemma sib_sec_ok : forall h S P t, sib S P t -> sec_ok h t -> sec_ok h S.
Proof.
  intros h S P t H. induction H as [i pre post | i pre x post H IH]; intros Hok.
  - apply sec_ok_inv in Hok. destruct Hok as [_ F]. rewrite Forall_forall in F.
    apply F. apply in_elt.
  - apply sec_ok_inv in Hok. destruct Hok as [_ F]. rewrite Forall_forall in F.
    apply IH. apply F. apply in_elt.
Qed.

(* with all Sections non-empty, get_last_child() of the found Section is a node *)
Lemma trig_has_last : forall h t p s, repr h None t -> sec_ok h t ->
  find_trig h None t = Some (p, s) -> last_opt (kids h s) <> None.
Proof.
  intros h t p s Hr Hok Hf K.
  destruct (find_trig_root _ _ _ _ Hf) as (Hc & S & P & HS & HP & Hsib).
  destruct (sib_repr _ _ _ Hsib _ _ Hr) as [q' HrS].
  pose proof (sib_sec_ok _ _ _ _ Hsib Hok) as HokS.
  destruct S as [sid kk]. simpl in HS. subst sid.
  apply repr_kids in HrS. rewrite HrS in K. apply last_opt_none in K.
  apply sec_ok_inv in HokS. destruct HokS as [H1 _].
  apply (H1 Hc). destruct kk; [reflexivity | discriminate].
Qed.

Definition no_trigger (h : heap) (r : N) : Prop :=
  exists t, build (S (length h)) h r = Some t /\ find_trig h None t = None.

(* one successful test of _fix_paragraphs: the move succeeds, the heap still represents a tree with the
   same root and the same nodes in the same preorder, and the measure has dropped: the tree has the same
   size and its depth sum has grown by the size of the moved Paragraph *)
Lemma fix_step_moves : forall h t p s l,
  repr h None t -> NoDup (ids t) ->
  find_trig h None t = Some (p, s) -> last_opt (kids h s) = Some l ->
  exists h' t', move_to h p l false = Ok h' /\ repr h' None t' /\ NoDup (ids t') /\
                tid t' = tid t /\ fp_measure t' < fp_measure t /\
                ids t' = ids t /\ (sec_ok h t -> sec_ok h' t').
Proof.
  intros h t p s l Hr Hnd Hf Hl.
  destruct (find_trig_root _ _ _ _ Hf) as (_ & S & P & HS & HP & Hsib).
  destruct (sib_repr _ _ _ Hsib _ _ Hr) as [q' HrS].
  destruct S as [sid kk]. simpl in HS. subst sid.
  apply repr_kids in HrS. rewrite HrS in Hl.
  destruct (last_opt_spec _ _ Hl) as [ks Hks].
  destruct (map_tid_snoc _ _ _ Hks) as (ks' & L & Ekk & HL).
  destruct (sib_adjm _ _ _ Hsib ks' L Ekk) as [t' Hadj].
  rewrite HP, HL in Hadj.
  destruct (adjm_spec _ _ _ _ _ Hadj Hnd) as (I2 & I3 & I4 & I5 & I6 & I7).
  destruct (move_to_repr h t p l false P Hr Hnd (t_find_in _ _ _ I5) I3 I2 I4 I5 I6) as (h' & M1 & M2 & M3).
  rewrite I7 in M2, M3.
  exists h', t'. split; [exact M1|]. split; [exact M2|]. split; [exact M3|].
  split; [eapply adjm_tid; eassumption|]. split; [|split; [eapply adjm_ids; eassumption|]].
  - unfold fp_measure. rewrite (adjm_tsize _ _ _ _ _ Hadj), (adjm_sdepth _ _ _ _ _ Hadj 0).
    pose proof (sdepth0_le t') as B. rewrite (adjm_tsize _ _ _ _ _ Hadj), (adjm_sdepth _ _ _ _ _ Hadj 0) in B.
    pose proof (tsize_pos P). lia.
  - intros Hok. apply (sec_ok_same_tc h h'); [eapply same_tc_move_to; eassumption|].
    eapply adjm_sec_ok; eassumption.
Qed.

(* the whole loop, for any fuel: it runs out of fuel only below the measure, raises only at a childless
   Section, and otherwise ends in a tree with the same nodes in the same preorder and nothing left to move *)
Lemma fix_paragraphs_spec : forall k h t, repr h None t -> NoDup (ids t) ->
  match fix_paragraphs k h (tid t) with
  | OutOfFuel => k <= fp_measure t
  | Raised => ~ sec_ok h t
  | Done h' => exists t', repr h' None t' /\ NoDup (ids t') /\ tid t' = tid t /\
                          find_trig h' None t' = None /\ words_t h' t' = words_t h t
  end.
Proof.
  induction k as [|k IH]; intros h t Hr Hnd; [apply Nat.le_0_l|].
  simpl. unfold fix_step. rewrite (build_complete h None t Hr Hnd).
  destruct (find_trig h None t) as [[p s]|] eqn:F.
  - destruct (last_opt (kids h s)) as [l|] eqn:L.
    + destruct (fix_step_moves h t p s l Hr Hnd F L) as (h1 & t1 & M & R1 & N1 & E1 & E2 & E3 & E4).
      rewrite M, <- E1. specialize (IH h1 t1 R1 N1).
      destruct (fix_paragraphs k h1 (tid t1)) as [h'| |].
      * destruct IH as (t' & Q1 & Q2 & Q3 & Q4 & Q5). exists t'. repeat (split; [assumption|]).
        rewrite Q5, (words_t_same_tc h h1 t1) by (eapply same_tc_move_to; eassumption).
        apply words_t_ids_eq. exact E3.
      * intro Hok. apply IH. apply E4. exact Hok.
      * lia.
    + intro Hok. eapply trig_has_last; eassumption.
  - exists t. auto.
Qed.

Lemma fp_fuel_eq : forall h t, repr h None t -> NoDup (ids t) ->
  fp_fuel h (tid t) = S (tsize t * tsize t).
Proof. intros h t Hr Hnd. unfold fp_fuel. rewrite (build_complete h None t Hr Hnd). reflexivity. Qed.

Lemma fix_paragraphs_enough_fuel : forall h t, repr h None t -> NoDup (ids t) ->
  fix_paragraphs (fp_fuel h (tid t)) h (tid t) <> OutOfFuel.
Proof.
  intros h t Hr Hnd E. pose proof (fix_paragraphs_spec (fp_fuel h (tid t)) h t Hr Hnd) as Sp.
  rewrite E, (fp_fuel_eq h t Hr Hnd) in Sp. unfold fp_measure in Sp. lia.
Qed.

Theorem C06_fix_paragraphs_terminates : forall h r, WF h r ->
  fix_paragraphs (fp_fuel h r) h r <> OutOfFuel /\
  (forall h', fix_paragraphs (fp_fuel h r) h r = Done h' -> WF h' r /\ no_trigger h' r).
Proof.
  intros h r (t & <- & Hr & Hnd). split; [apply fix_paragraphs_enough_fuel; assumption|].
  intros h' E. pose proof (fix_paragraphs_spec (fp_fuel h (tid t)) h t Hr Hnd) as Sp. rewrite E in Sp.
  destruct Sp as (t' & Q1 & Q2 & Q3 & Q4 & _).
  split; exists t'; [auto|]. rewrite <- Q3. split; [eapply build_complete; eassumption | exact Q4].
Qed.

Lemma fix_paragraphs_no_raise : forall h t, repr h None t -> NoDup (ids t) -> sec_ok h t ->
  exists h', fix_paragraphs (fp_fuel h (tid t)) h (tid t) = Done h'.
Proof.
  intros h t Hr Hnd Hok. pose proof (fix_paragraphs_spec (fp_fuel h (tid t)) h t Hr Hnd) as Sp.
  pose proof (fix_paragraphs_enough_fuel h t Hr Hnd) as Hf.
  destruct (fix_paragraphs (fp_fuel h (tid t)) h (tid t)) as [h'| |]; [eauto | contradiction | congruence].
Qed.

Lemma words_of_repr : forall h t, repr h None t -> NoDup (ids t) -> words h (tid t) = words_t h t.
Proof. intros h t Hr Hnd. unfold words. rewrite (build_complete h None t Hr Hnd). reflexivity. Qed.

Theorem fix_paragraphs_keeps_words : forall k h r h', WF h r ->
  fix_paragraphs k h r = Done h' -> words h' r = words h r.
Proof.
  intros k h r h' (t & <- & Hr & Hnd) K.
  pose proof (fix_paragraphs_spec k h t Hr Hnd) as Sp. rewrite K in Sp.
  destruct Sp as (t' & Q1 & Q2 & Q3 & _ & Q5).
  rewrite <- Q3 at 1. rewrite (words_of_repr h' t' Q1 Q2), (words_of_repr h t Hr Hnd). exact Q5.
Qed.

Lemma count_le : forall h k t1 t, incl (ids t1) (ids t) -> NoDup (ids t1) ->
  count_cls h k t1 <= count_cls h k t.
Proof.
  intros h k t1 t Hi Hnd. unfold count_cls.
  apply NoDup_incl_length; [apply NoDup_filter; exact Hnd|].
  intros x Hx. apply filter_In in Hx. apply filter_In. destruct Hx. split; auto.
Qed.

Lemma count_lt : forall h k t1 t c, incl (ids t1) (ids t) -> NoDup (ids t1) ->
  In c (ids t) -> ~ In c (ids t1) -> clsof h c = k ->
  count_cls h k t1 < count_cls h k t.
Proof.
  intros h k t1 t c Hi Hnd Hc Hn Hk. unfold count_cls.
  apply (NoDup_incl_length (l := c :: filter (fun i => N.eqb (clsof h i) k) (ids t1))).
  - constructor; [|apply NoDup_filter; exact Hnd].
    intro K. apply filter_In in K. tauto.
  - intros x [<-|Hx].
    + apply filter_In. split; [exact Hc|]. apply N.eqb_eq. exact Hk.
    + apply filter_In in Hx. apply filter_In. destruct Hx. split; auto.
Qed.

Lemma count_cls_same_tc : forall h h' k t, same_tc h h' -> count_cls h' k t = count_cls h k t.
Proof.
  intros h h' k t H. unfold count_cls. f_equal. apply filter_ext.
  intros a. destruct (H a) as [_ ->]. reflexivity.
Qed.

Lemma count_br_eq : forall h t, repr h None t -> NoDup (ids t) ->
  count_br h (tid t) = count_cls h c_BR t.
Proof. intros h t Hr Hnd. unfold count_br. rewrite (build_complete h None t Hr Hnd). reflexivity. Qed.

Lemma upchain_of_subtree : forall h s q n, repr h q s -> In n (ids s) -> upchain h n (tid s).
Proof.
  intros h s. induction s as [i ts IH] using tree_ind'. intros q n Hr Hn.
  apply repr_inv in Hr. destruct Hr as (nd & Hg & Hp & Hch & _ & Hf).
  rewrite ids_eq in Hn. destruct Hn as [->|Hn]; [apply up_refl|].
  unfold idsl in Hn. apply in_flat_map in Hn. destruct Hn as (x & Hx & Hnx).
  rewrite Forall_forall in IH, Hf.
  apply up_step with (a := tid x).
  - eapply IH; eauto.
  - apply (repr_root_par h (Some i) x). apply Hf. exact Hx.
Qed.

(* one successful try_remove_node(c) with c.parent = p: what it does to the represented tree.  The nodes
   that survive are those not below c; when c is not a node of the tree the tree is untouched. *)
Lemma remove_node_tree : forall h t p c h1,
  repr h None t -> NoDup (ids t) -> par h c = Some p -> remove_child h p c = Ok h1 ->
  exists t1, repr h1 None t1 /\ NoDup (ids t1) /\ tid t1 = tid t /\
             incl (ids t1) (ids t) /\ (In c (ids t) -> ~ In c (ids t1)) /\
             (forall x, In x (ids t) -> ~ upchain h x c -> In x (ids t1)) /\
             (words h c = [] -> words_t h t1 = words_t h t).
Proof.
  intros h t p c h1 Hr Hnd Hp Hrm.
  destruct (in_dec N.eq_dec c (ids t)) as [Hc|Hc].
  - assert (Hne : c <> tid t).
    { intro K. subst c. rewrite (repr_root_par _ _ _ Hr) in Hp. discriminate. }
    destruct (par_in_tree _ _ _ _ Hr Hc Hp) as [P2 P3].
    destruct (remove_child_repr h t p c Hr Hnd P2 P3) as (h' & R1 & R2 & R3 & R4).
    rewrite Hrm in R1. inversion R1; subst h'.
    destruct (t_find c t) as [s|] eqn:F; [|exfalso; apply (t_find_none_inv _ _ F Hc)].
    destruct (t_find_some _ _ _ F) as [Hs _].
    destruct (t_find_repr h c t None s Hr F) as [q' Hrs].
    pose proof (t_find_NoDup c t s Hnd F) as Hnds.
    destruct (ids_remove_block t c s Hnd Hne F) as (A & B & E1 & E2).
    exists (t_replace c [] t). split; [exact R2|]. split; [exact R3|].
    split; [apply tid_t_replace|]. split; [apply ids_replace_nil_incl|].
    split; [|split].
    + intros _. destruct (R4 s eq_refl) as [_ D]. intro K. apply (D _ K).
      rewrite <- Hs. apply tid_in_ids.
    + intros x Hx Hup. rewrite E2. rewrite E1 in Hx.
      apply in_app_or in Hx. destruct Hx as [Hx|Hx]; [apply in_or_app; left; exact Hx|].
      apply in_app_or in Hx. destruct Hx as [Hx|Hx]; [|apply in_or_app; right; exact Hx].
      exfalso. apply Hup. rewrite <- Hs. eapply upchain_of_subtree; eassumption.
    + intros Hw. unfold words in Hw. rewrite <- Hs in Hw.
      rewrite (build_complete h q' s Hrs Hnds) in Hw.
      rewrite !words_t_ids, E1, E2, !flat_map_app. rewrite words_t_ids in Hw. rewrite Hw.
      reflexivity.
  - destruct (remove_child_frame_get _ _ _ _ Hrm) as [Hck Hfr].
    assert (Hpn : ~ In p (ids t)).
    { intro K. apply Hc. eapply child_in_ids; eassumption. }
    exists t. split.
    + eapply repr_frame; [|exact Hr]. intros i Hi. apply Hfr; intro K; subst i; contradiction.
    + split; [exact Hnd|]. split; [reflexivity|]. split; [apply incl_refl|].
      split; [intros K; contradiction|]. split; [intros x Hx _; exact Hx | reflexivity].
Qed.

(* The loop from a start node, for any way `cand` of computing the candidates and any invariant Inv of
   (heap, represented tree) that removals of BreakingReturns keep. *)
Section BRLoop.
  Variable cand : heap -> N -> list N.
  Variable node : N.
  Variable Inv : heap -> tree -> Prop.

  Hypothesis Inv_remove : forall h t p c h1 t1, Inv h t -> clsof h c = c_BR ->
    remove_child h p c = Ok h1 -> tid t1 = tid t ->
    (forall x, In x (ids t) -> ~ upchain h x c -> In x (ids t1)) ->
    (words h c = [] -> words_t h t1 = words_t h t) -> Inv h1 t1.

  (* every BreakingReturn among the candidates is a node of the tree other than its root *)
  Definition attached (h : heap) (t : tree) (cs : list N) : Prop :=
    forall c, In c cs -> clsof h c = c_BR -> In c (ids t) /\ c <> tid t.

  (* the for-loop over the candidates; a pass over attached candidates that sets `changed` has removed a
     BreakingReturn of the tree *)
  Lemma br_cands_inv : forall cs h t changed,
    repr h None t -> NoDup (ids t) -> Inv h t ->
    match br_cands h changed cs with
    | PRaised => True
    | POk h' ch' =>
        exists t', repr h' None t' /\ NoDup (ids t') /\ tid t' = tid t /\ same_tc h h' /\ Inv h' t' /\
                   count_cls h c_BR t' <= count_cls h c_BR t /\
                   (changed = false -> ch' = true -> attached h t cs ->
                    count_cls h c_BR t' < count_cls h c_BR t)
    end.
  Proof.
    induction cs as [|c cs IH]; intros h t changed Hr Hnd Hi.
    - simpl. exists t. split; [exact Hr|]. split; [exact Hnd|]. split; [reflexivity|].
      split; [apply same_tc_refl|]. split; [exact Hi|]. split; [lia|]. intros -> K. discriminate.
    - simpl. destruct (N.eqb (clsof h c) c_BR) eqn:E.
      + apply N.eqb_eq in E.
        destruct (par h c) as [p|] eqn:Hp.
        * destruct (remove_child h p c) as [h1|] eqn:Hrm; [|exact I].
          destruct (remove_node_tree h t p c h1 Hr Hnd Hp Hrm) as (t1 & R1 & R2 & R3 & R4 & R5 & R6 & R7).
          pose proof (same_tc_remove_child _ _ _ _ Hrm) as S1.
          specialize (IH h1 t1 true R1 R2 (Inv_remove _ _ _ _ _ _ Hi E Hrm R3 R6 R7)).
          destruct (br_cands h1 true cs) as [|h' ch']; [exact I|].
          destruct IH as (t' & Q1 & Q2 & Q3 & Q4 & Q5 & Q6 & _).
          rewrite !(count_cls_same_tc h h1) in Q6 by exact S1.
          pose proof (count_le h c_BR t1 t R4 R2) as Le.
          exists t'. split; [exact Q1|]. split; [exact Q2|]. split; [congruence|].
          split; [eapply same_tc_trans; eassumption|]. split; [exact Q5|]. split; [lia|].
          intros _ _ Hat. destruct (Hat c (or_introl eq_refl) E) as [Hc _].
          pose proof (count_lt h c_BR t1 t c R4 R2 Hc (R5 Hc) E). lia.
        * specialize (IH h t true Hr Hnd Hi).
          destruct (br_cands h true cs) as [|h' ch']; [exact I|].
          destruct IH as (t' & Q1 & Q2 & Q3 & Q4 & Q5 & Q6 & _).
          exists t'. repeat (split; [assumption|]). intros _ _ Hat.
          (* a BreakingReturn of the tree below the root has a parent *)
          exfalso. destruct (Hat c (or_introl eq_refl) E) as [Hc Hne].
          destruct (repr_par_in _ _ _ _ Hr Hc Hne) as (p' & P1 & _). congruence.
      + specialize (IH h t changed Hr Hnd Hi).
        destruct (br_cands h changed cs) as [|h' ch']; [exact I|].
        destruct IH as (t' & Q1 & Q2 & Q3 & Q4 & Q5 & Q6 & Q7).
        exists t'. repeat (split; [assumption|]). intros Hch Hch' Hat.
        apply Q7; [exact Hch | exact Hch' |]. intros c' Hc'. apply Hat. right. exact Hc'.
  Qed.

  Lemma br_loop_done : forall k h t h', repr h None t -> NoDup (ids t) -> Inv h t ->
    br_loop cand k h node = Done h' ->
    exists t', repr h' None t' /\ NoDup (ids t') /\ tid t' = tid t /\ Inv h' t'.
  Proof.
    induction k as [|k IH]; intros h t h' Hr Hnd Hi K; [discriminate|].
    simpl in K. unfold br_pass in K.
    pose proof (br_cands_inv (cand h node) h t false Hr Hnd Hi) as Inv1.
    destruct (br_cands h false (cand h node)) as [|h1 ch]; [discriminate|].
    destruct Inv1 as (t1 & Q1 & Q2 & Q3 & _ & Q5 & _). destruct ch.
    - destruct (IH h1 t1 h' Q1 Q2 Q5 K) as (t' & A & B & C & D). exists t'.
      split; [exact A|]. split; [exact B|]. split; [congruence | exact D].
    - inversion K; subst h'. exists t1. auto.
  Qed.

  Hypothesis cand_attached : forall h t, repr h None t -> NoDup (ids t) -> Inv h t ->
    attached h t (cand h node).

  Lemma br_loop_fuel : forall k h t, repr h None t -> NoDup (ids t) -> Inv h t ->
    count_cls h c_BR t < k -> br_loop cand k h node <> OutOfFuel.
  Proof.
    induction k as [|k IH]; intros h t Hr Hnd Hi Hk; [lia|].
    simpl. unfold br_pass.
    pose proof (br_cands_inv (cand h node) h t false Hr Hnd Hi) as Inv1.
    destruct (br_cands h false (cand h node)) as [|h1 ch]; [discriminate|].
    destruct Inv1 as (t1 & Q1 & Q2 & _ & Q4 & Q5 & _ & Q7). destruct ch; [|discriminate].
    apply (IH h1 t1 Q1 Q2 Q5). rewrite (count_cls_same_tc h h1 c_BR t1 Q4).
    specialize (Q7 eq_refl eq_refl (cand_attached h t Hr Hnd Hi)). lia.
  Qed.

  Lemma br_loop_terminates : forall k h t, repr h None t -> NoDup (ids t) -> Inv h t ->
    count_cls h c_BR t < k ->
    br_loop cand k h node <> OutOfFuel /\
    (forall h', br_loop cand k h node = Done h' -> WF h' (tid t)).
  Proof.
    intros k h t Hr Hnd Hi Hk. split; [eapply br_loop_fuel; eassumption|]. intros h' K.
    destruct (br_loop_done k h t h' Hr Hnd Hi K) as (t' & A & B & C & _). exists t'. auto.
  Qed.
End BRLoop.

Theorem C06_breaking_returns_terminates : forall (cand : heap -> N -> list N) (r : N),
  (forall h node c, WF h r -> In c (cand h node) -> clsof h c = c_BR ->
     (forall t, tid t = r -> repr h None t -> In c (ids t)) /\ c <> r) ->
  forall h node, WF h r ->
  br_loop cand (S (count_br h r)) h node <> OutOfFuel /\
  (forall h', br_loop cand (S (count_br h r)) h node = Done h' -> WF h' r).
Proof.
  intros cand r Hc h node (t & <- & Hr & Hnd).
  apply (br_loop_terminates cand node (fun _ t' => tid t' = tid t)) with (t := t); auto.
  - intros h0 t0 p c h1 t1 E _ _ Ht1 _ _. congruence.
  - intros h0 t0 Hr0 Hnd0 E0 c Hin Hcls.
    destruct (Hc h0 node c (ex_intro _ t0 (conj E0 (conj Hr0 Hnd0))) Hin Hcls) as [A B].
    split; [apply A; assumption | congruence].
  - rewrite (count_br_eq h t Hr Hnd). lia.
Qed.
