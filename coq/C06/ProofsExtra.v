(* C06 — the heaps of the concrete runs of fix_paragraphs and br_loop (Properties.v: non-vacuity) *)
From Coq Require Import List NArith Bool.
From MW Require Import C05.Heap C05.TreeOps C06.Model.
Import ListNotations.

(* Article[ Section[Node[Text]], Paragraph[Text "7"] ]  (the shape "<table>\n== h ==\n</table>\npara" parses to) *)
Definition hp : heap :=
  [(1, mkNode 20 None [2; 5] []); (2, mkNode 8 (Some 1) [3] []); (3, mkNode 21 (Some 2) [4] []);
   (4, mkNode 1 (Some 3) [] [9]); (5, mkNode 10 (Some 1) [6] []); (6, mkNode 1 (Some 5) [] [7])]%N.

(* a childless Section before the paragraph: get_last_child() is None and move_to raises *)
Definition hq : heap :=
  [(1, mkNode 20 None [2; 5] []); (2, mkNode 8 (Some 1) [] []); (5, mkNode 10 (Some 1) [] [])]%N.

(* breaking returns: candidates = the children of the node; Paragraph[BR, Text, BR] *)
Definition hb : heap :=
  [(1, mkNode 10 None [2; 3; 4] []); (2, mkNode 11 (Some 1) [] []); (3, mkNode 1 (Some 1) [] [5]);
   (4, mkNode 11 (Some 1) [] [])]%N.

