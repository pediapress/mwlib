(* C05/C06 — the heap-level replay of _filter_tree and of one _fix_nesting repair: the tree the heap represents
   afterwards, and that the document stays a proper tree, also along iterations (repair_step, repair_steps);
   model: C06/ModelNestingHeap.v; API lemmas: C05/ProofsApi.v. *)
From Coq Require Import List NArith Bool Arith Lia.
From MW Require Import C05.Heap C05.TreeOps C05.ProofsApi C06.ModelNestingHeap.
From MW Require C05.ProofsWf.
Import ListNotations.

Lemma tid_tfilter : forall d t, tid (tfilter d t) = tid t.
Proof. intros d [i ts]. reflexivity. Qed.

Lemma cnt_tfilter : forall d x t, cnt x (ids (tfilter d t)) <= cnt x (ids t).
Proof.
  intros d x. induction t as [i ts IH] using tree_ind'.
  cbn [tfilter ids]. rewrite !cnt_cons.
  enough (cnt x (flat_map ids (flat_map (fun c => if d (tid c) then [] else [tfilter d c]) ts))
          <= cnt x (flat_map ids ts)) by lia.
  induction ts as [|y r IHr]; [simpl; lia|].
  inversion IH as [|? ? Py Pr]; subst. specialize (IHr Pr).
  cbn [flat_map]. rewrite flat_map_app, !cnt_app.
  destruct (d (tid y)); cbn [flat_map]; [rewrite cnt_nil | rewrite app_nil_r]; lia.
Qed.

Lemma tfilter_incl : forall d t, incl (ids (tfilter d t)) (ids t).
Proof.
  intros d t x Hx. apply In_cnt. apply In_cnt in Hx. pose proof (cnt_tfilter d x t). lia.
Qed.

Lemma tfilter_NoDup : forall d t, NoDup (ids t) -> NoDup (ids (tfilter d t)).
Proof.
  intros d t H. rewrite NoDup_cnt in *. intro x. pose proof (cnt_tfilter d x t). specialize (H x). lia.
Qed.

Lemma index_of_app_notin : forall c A B, ~ In c A -> index_of c (A ++ c :: B) = Some (length A).
Proof.
  induction A as [|a A IH]; intros B H; simpl.
  - rewrite N.eqb_refl. reflexivity.
  - destruct (N.eqb_spec c a) as [E|E]; [exfalso; apply H; simpl; auto|].
    rewrite IH; auto. intro F. apply H. simpl. auto.
Qed.

Lemma skipn_S_app : forall (A : list N) c B, skipn (S (length A)) (A ++ c :: B) = B.
Proof. induction A as [|a A IH]; intros c B; [reflexivity|]. cbn [length app]. rewrite skipn_cons. apply IH. Qed.

Lemma firstn_len_app : forall (A B : list N), firstn (length A) (A ++ B) = A.
Proof. induction A as [|a A IH]; intros; simpl; [reflexivity | rewrite IH; reflexivity]. Qed.

Lemma splice_app : forall (A : list N) c B news, splice (A ++ c :: B) (length A) news = A ++ news ++ B.
Proof. intros. unfold splice. rewrite firstn_len_app, skipn_S_app. reflexivity. Qed.

Lemma nodup_split3 : forall i (A B : list N), NoDup (i :: A ++ B) ->
  ~ In i A /\ ~ In i B /\ NoDup A /\ NoDup B /\ (forall x, In x A -> ~ In x B) /\ NoDup (i :: B).
Proof.
  intros i A B H. rewrite NoDup_cnt in H.
  assert (H' : forall x, (if N.eqb i x then 1 else 0) + cnt x A + cnt x B <= 1).
  { intro x. specialize (H x). rewrite cnt_cons, cnt_app in H. lia. }
  split. { apply notIn_cnt. specialize (H' i). rewrite N.eqb_refl in H'. lia. }
  split. { apply notIn_cnt. specialize (H' i). rewrite N.eqb_refl in H'. lia. }
  split. { apply NoDup_cnt. intro x. specialize (H' x). destruct (N.eqb i x); lia. }
  split. { apply NoDup_cnt. intro x. specialize (H' x). destruct (N.eqb i x); lia. }
  split. { intros x Hx. apply notIn_cnt. apply In_cnt in Hx. specialize (H' x). destruct (N.eqb i x); lia. }
  apply NoDup_cnt. intro x. rewrite cnt_cons. specialize (H' x). destruct (N.eqb i x); lia.
Qed.

Lemma floop_cons : forall v h c r,
  floop v h (c :: r) = match v h c with Ok h1 => floop v h1 r | Err => Err end.
Proof. reflexivity. Qed.

Lemma hfilter_S : forall f d h n,
  hfilter (S f) d h n = if d n then match par h n with Some p => remove_child h p n | None => Err end
                        else floop (hfilter f d) h (kids h n).
Proof. reflexivity. Qed.

Section Filter.
  Variable drop : N -> bool.

  Definition F (l : list tree) : list tree :=
    flat_map (fun c => if drop (tid c) then [] else [tfilter drop c]) l.

  Definition filter_ok (f : nat) : Prop := forall h q s,
    repr h q s -> NoDup (ids s) -> drop (tid s) = false -> tsize s <= f ->
    exists h', hfilter f drop h (tid s) = Ok h' /\ repr h' q (tfilter drop s) /\
               (forall j, ~ In j (ids s) -> get h' j = get h j).

  (* the loop over the snapshot of node i's children: `done` = what the already visited children have become *)
  Lemma floop_inv : forall f i q, filter_ok f ->
    forall rest done h nd,
    get h i = Some nd -> parent nd = q -> children nd = map tid done ++ map tid rest ->
    (cls nd = c_Text -> rest = [] /\ done = []) ->
    Forall (repr h (Some i)) done -> Forall (repr h (Some i)) rest ->
    NoDup (i :: flat_map ids rest) ->
    (forall x, In x (flat_map ids done) -> x <> i /\ ~ In x (flat_map ids rest)) ->
    list_sum (map tsize rest) <= f ->
    exists h', floop (hfilter f drop) h (map tid rest) = Ok h' /\
               repr h' q (T i (done ++ F rest)) /\
               (forall j, j <> i -> ~ In j (flat_map ids rest) -> get h' j = get h j).
  Proof.
    intros f i q Hok. induction rest as [|c rest' IH]; intros done h nd Hg Hp Hc Ht Hfd Hfr Hnd Hdone Hsum.
    - exists h. split; [reflexivity|]. split; [|auto].
      unfold F. cbn [flat_map map] in *. rewrite app_nil_r in *.
      eapply repr_T with (nd := nd); auto. intro Hcls. destruct (Ht Hcls); auto.
    - destruct c as [k ks].
      change (flat_map ids (T k ks :: rest')) with (ids (T k ks) ++ flat_map ids rest') in *.
      destruct (nodup_split3 _ _ _ Hnd) as (Hi_c & Hi_r & Hnd_c & Hnd_r & Hdisj & Hnd').
      pose proof (Forall_inv Hfr) as Hrc. pose proof (Forall_inv_tail Hfr) as Hrr.
      assert (Hkc : In k (ids (T k ks))) by (simpl; auto).
      assert (Hki : k <> i) by (intro E; subst; contradiction).
      assert (Hsz : tsize (T k ks) <= f /\ list_sum (map tsize rest') <= f).
      { change (list_sum (map tsize (T k ks :: rest'))) with (tsize (T k ks) + list_sum (map tsize rest')) in Hsum.
        split; lia. }
      destruct Hsz as [Hsz Hsum'].
      cbn [map tid]. rewrite floop_cons.
      destruct (drop k) eqn:Hdk.
      + (* the child is dropped: node.parent.remove_child(node) *)
        destruct f as [|f']; [simpl in Hsz; lia|].
        rewrite hfilter_S, Hdk.
        pose proof (repr_root_par _ _ _ Hrc) as Hpk. cbn [tid] in Hpk. rewrite Hpk.
        assert (Hk : kids h i = map tid done ++ k :: map tid rest').
        { unfold kids. rewrite Hg. exact Hc. }
        assert (Hknot : ~ In k (map tid done)).
        { intro Fk. apply tids_incl in Fk. destruct (Hdone k Fk) as [_ N']. apply N'. apply in_or_app. auto. }
        destruct (replace_child_spec h i k [] (length (map tid done))) as (h1 & Hrc1 & Gp & Gc & Gn & Go).
        { rewrite Hk. apply index_of_app_notin. exact Hknot. }
        { auto. } { simpl. auto. } { simpl. auto. }
        unfold remove_child. rewrite Hrc1.
        destruct (IH done h1 (wk (map tid done ++ map tid rest') nd)) as (h' & E & R & Fr).
        * rewrite Gp, Hg. cbn [option_map]. rewrite Hk, splice_app. reflexivity.
        * exact Hp.
        * reflexivity.
        * intro Hcls. cbn in Hcls. destruct (Ht Hcls) as [E _]. discriminate.
        * apply (repr_frame_all h); [|exact Hfd]. intros j Hjd.
          destruct (Hdone j Hjd) as [A1 A2]. apply Go; auto.
          intro E. subst j. apply A2. apply in_or_app. auto.
        * apply (repr_frame_all h); [|exact Hrr]. intros j Hjr. apply Go; auto.
          -- intro E. subst j. contradiction.
          -- intro E. subst j. exact (Hdisj k Hkc Hjr).
        * exact Hnd'.
        * intros x Hx. destruct (Hdone x Hx) as [A1 A2]. split; auto.
          intro Fx. apply A2. apply in_or_app. auto.
        * exact Hsum'.
        * exists h'. split; [exact E|]. split.
          -- assert (EF : F (T k ks :: rest') = F rest').
             { unfold F. cbn [flat_map tid]. rewrite Hdk. reflexivity. }
             rewrite EF. exact R.
          -- intros j Hji Hjr. rewrite Fr; auto.
             ++ apply Go; auto. intro E'. subst j. apply Hjr. apply in_or_app. auto.
             ++ intro Fj. apply Hjr. apply in_or_app. auto.
      + (* the child is kept and filtered recursively *)
        destruct (Hok h (Some i) (T k ks) Hrc Hnd_c Hdk Hsz) as (h1 & E1 & R1 & Fr1).
        cbn [tid] in E1. rewrite E1.
        destruct (IH (done ++ [tfilter drop (T k ks)]) h1 nd) as (h' & E & R & Fr).
        * rewrite Fr1; auto.
        * exact Hp.
        * rewrite Hc, map_app, <- app_assoc. reflexivity.
        * intro Hcls. destruct (Ht Hcls) as [E _]. discriminate.
        * apply Forall_app. split.
          -- apply (repr_frame_all h); [|exact Hfd]. intros j Hjd.
             destruct (Hdone j Hjd) as [A1 A2]. apply Fr1.
             intro Fj. apply A2. apply in_or_app. auto.
          -- constructor; [exact R1 | constructor].
        * apply (repr_frame_all h); [|exact Hrr]. intros j Hjr.
          apply Fr1. intro Fj. exact (Hdisj j Fj Hjr).
        * exact Hnd'.
        * intros x Hx. rewrite flat_map_app in Hx. apply in_app_or in Hx. destruct Hx as [Hx|Hx].
          -- destruct (Hdone x Hx) as [A1 A2]. split; auto. intro Fx. apply A2. apply in_or_app. auto.
          -- cbn [flat_map] in Hx. rewrite app_nil_r in Hx. apply tfilter_incl in Hx. split.
             ++ intro E'. subst x. contradiction.
             ++ exact (Hdisj x Hx).
        * exact Hsum'.
        * exists h'. split; [exact E|]. split.
          -- assert (EF : F (T k ks :: rest') = tfilter drop (T k ks) :: F rest').
             { unfold F. cbn [flat_map tid]. rewrite Hdk. reflexivity. }
             rewrite EF. rewrite <- app_assoc in R. exact R.
          -- intros j Hji Hjr. rewrite Fr; auto.
             ++ apply Fr1. intro Fj. apply Hjr. apply in_or_app. auto.
             ++ intro Fj. apply Hjr. apply in_or_app. auto.
  Qed.

  Lemma hfilter_repr : forall f, filter_ok f.
  Proof.
    induction f as [|f IHf]; intros h q s Hr Hnd Hd Hsz.
    - destruct s; simpl in Hsz; lia.
    - destruct s as [i ts]. cbn [tid] in *. rewrite hfilter_S, Hd.
      pose proof (repr_kids _ _ _ _ Hr) as Hk.
      apply repr_inv in Hr. destruct Hr as (nd & Hg & Hp & Hc & Ht & Hf).
      destruct (floop_inv f i q IHf ts [] h nd) as (h' & E & R & Fr).
      + exact Hg.
      + exact Hp.
      + exact Hc.
      + intro Hcls. split; auto.
      + constructor.
      + exact Hf.
      + exact Hnd.
      + intros x Hx. destruct Hx.
      + change (tsize (T i ts)) with (S (list_sum (map tsize ts))) in Hsz. lia.
      + exists h'. rewrite Hk. split; [exact E|]. split; [exact R|].
        intros j Hj. apply Fr.
        * intro E'. subst j. apply Hj. simpl. auto.
        * intro Fj. apply Hj. simpl. auto.
  Qed.
End Filter.

Lemma hfilter_tree : forall drop h q s,
  repr h q s -> NoDup (ids s) -> drop (tid s) = false ->
  exists h', hfilter (S (length h)) drop h (tid s) = Ok h' /\ repr h' q (tfilter drop s) /\
             NoDup (ids (tfilter drop s)) /\ incl (ids (tfilter drop s)) (ids s) /\
             (forall j, ~ In j (ids s) -> get h' j = get h j).
Proof.
  intros drop h q s Hr Hnd Hd.
  destruct (hfilter_repr drop (S (length h)) h q s Hr Hnd Hd) as (h' & E & R & Fr).
  - rewrite tsize_ids. pose proof (ids_le_heap _ _ _ Hr Hnd). lia.
  - exists h'. split; auto. split; auto. split; [apply tfilter_NoDup; auto|]. split; [apply tfilter_incl|auto].
Qed.

Lemma unroot_root : forall k d, unroot k d k = false.
Proof. intros. unfold unroot. rewrite N.eqb_refl. reflexivity. Qed.

(* copy + _filter_tree of the copy: the document and every other tree of the heap stay what they are, the
   filtered copy is a new detached proper tree disjoint from all of them *)
Lemma copy_filter_step : forall d h t B sB,
  repr h None t -> NoDup (ids t) -> t_find B t = Some sB ->
  exists h1 k h1' u,
    copy h B = Some (h1, k) /\ hfilter (S (length h1)) (unroot k d) h1 k = Ok h1' /\
    u = tfilter (unroot k d) (t_map (ren (ids sB) k) sB) /\
    tid u = k /\ repr h1' None u /\ NoDup (ids u) /\
    (forall j, In j (ids u) -> get h j = None) /\
    (forall p x, repr h p x -> repr h1' p x).
Proof.
  intros d h t B sB Hr Hnd Hfs.
  destruct (copy_spec h t B sB Hr Hnd Hfs) as (h1 & Hc & Hst & Eu & Ru & Nu & Newu & _).
  set (k := fresh h) in *. set (u0 := t_map (ren (ids sB) k) sB) in *.
  assert (Hd0 : unroot k d (tid u0) = false) by (rewrite Eu; apply unroot_root).
  destruct (hfilter_tree (unroot k d) h1 None u0 Ru Nu Hd0) as (h1' & Hf & Rf & Nf & If & Fr).
  rewrite Eu in Hf.
  exists h1, k, h1', (tfilter (unroot k d) u0).
  split; [exact Hc|]. split; [exact Hf|]. split; [reflexivity|]. split; [rewrite tid_tfilter; exact Eu|].
  split; [exact Rf|]. split; [exact Nf|]. split.
  - intros j Hj. apply Newu. apply If. exact Hj.
  - intros p x Hx. apply repr_frame with (h := h1).
    + intros j Hj. apply Fr. intro Fj. destruct (repr_get _ _ _ _ Hx Hj) as [nd Hg].
      rewrite (Newu j Fj) in Hg. discriminate.
    + eapply repr_stable; eauto.
Qed.

Lemma repr_par_eq : forall h h' t q, repr h q t -> repr h' q t -> forall n, In n (ids t) -> par h n = par h' n.
Proof.
  intros h h'. induction t as [i ts IH] using tree_ind'. intros q H1 H2 n Hn.
  simpl in Hn. destruct Hn as [<-|Hn].
  - pose proof (repr_root_par _ _ _ H1) as A1. pose proof (repr_root_par _ _ _ H2) as A2.
    cbn [tid] in A1, A2. rewrite A1, A2. reflexivity.
  - apply in_flat_map in Hn. destruct Hn as (x & Hx & Hn). rewrite Forall_forall in IH.
    apply (IH x Hx (Some i)); auto; eapply repr_child; eauto.
Qed.

Lemma nodup_app3 : forall (a b c : list N), NoDup a -> NoDup b -> NoDup c ->
  disj a b -> disj a c -> disj b c -> NoDup (a ++ b ++ c).
Proof.
  intros a b c Na Nb Nc Dab Dac Dbc. apply NoDup_cnt. intro x. rewrite !cnt_app.
  pose proof (disj_cnt _ _ Na Nb Dab x). pose proof (disj_cnt _ _ Na Nc Dac x). pose proof (disj_cnt _ _ Nb Nc Dbc x).
  lia.
Qed.

(* replace_child when ONE of the new children, sm, still carries a parent link q (the others are detached):
   replace_child overwrites that link.  Detour through the heap hB in which the link is None (the API lemma
   wants detached new children); replace_child yields cell-wise the same heap from both. *)
Lemma replace_child_repr_stale : forall h t p c l1 sm l3 q,
  repr h None t -> NoDup (ids t) -> In p (ids t) -> In c (kids h p) ->
  Forall (repr h None) l1 -> repr h q sm -> Forall (repr h None) l3 ->
  NoDup (flat_map ids (l1 ++ sm :: l3)) -> disj (ids t) (flat_map ids (l1 ++ sm :: l3)) ->
  exists h', replace_child h p c (map tid (l1 ++ sm :: l3)) = Ok h' /\
             repr h' None (t_replace c (l1 ++ sm :: l3) t) /\ NoDup (ids (t_replace c (l1 ++ sm :: l3) t)).
Proof.
  intros h t p c l1 sm l3 q Hr Hnd Hp Hc R1 Rs R3 Nns Dtn.
  set (ns := l1 ++ sm :: l3) in *. set (m := tid sm).
  assert (Hsm : In sm ns) by (apply in_elt).
  assert (Hm_ns : In m (map tid ns)) by (apply in_map; exact Hsm).
  assert (Hm_t : ~ In m (ids t)) by (intro F; exact (Dtn m F (tids_incl _ _ Hm_ns))).
  assert (Hm_x : forall x, In x (l1 ++ l3) -> ~ In m (ids x)).
  { intros x Hx Fx. rewrite NoDup_cnt in Nns. specialize (Nns m). unfold ns in Nns.
    rewrite cnt_flat_map_app, cnt_flat_map_cons in Nns.
    apply In_cnt in Fx. pose proof (proj1 (In_cnt m (ids sm)) (tid_in_ids sm)).
    apply in_app_or in Hx. destruct Hx as [Hx|Hx]; [pose proof (cnt_flat_map_in ids m x l1 Hx) |
                                                     pose proof (cnt_flat_map_in ids m x l3 Hx)]; lia. }
  set (hB := set_parent h m None).
  assert (GB : forall j, j <> m -> get hB j = get h j).
  { intros j Hj. unfold hB. rewrite get_set_parent. destruct (N.eqb_spec j m); [contradiction|reflexivity]. }
  assert (GBm : get hB m = option_map (wp None) (get h m)).
  { unfold hB. rewrite get_set_parent, N.eqb_refl. reflexivity. }
  assert (FB : forall o x, ~ In m (ids x) -> repr h o x -> repr hB o x).
  { intros o x Hx Hrx. apply repr_frame with (h := h); auto.
    intros j Hj. apply GB. intro E. subst j. contradiction. }
  assert (RsB : repr hB None sm).
  { pose proof (NoDup_flat_map_in _ _ Nns Hsm) as Nsm. destruct sm as [m' ks]. cbn [tid] in m. subst m.
    eapply repr_reroot with (h := h) (q := q); [exact Rs | exact GBm |].
    intros j Hj. apply GB. intro E. subst j. simpl in Nsm. inversion Nsm; contradiction. }
  assert (RnB : Forall (repr hB None) ns).
  { unfold ns. apply Forall_app. rewrite Forall_forall in R1, R3.
    split; [|constructor; [exact RsB|]]; apply Forall_forall; intros x Hx;
      (apply FB; [apply Hm_x; apply in_or_app; auto | auto]). }
  assert (HkB : kids hB p = kids h p).
  { unfold kids. rewrite GB; [reflexivity|]. intro E. rewrite E in Hp. contradiction. }
  destruct (replace_child_repr hB t p c ns (FB _ _ Hm_t Hr) Hnd Hp) as (hB' & HrcB & RtB' & NtB' & _); auto.
  { rewrite HkB. exact Hc. }
  destruct (index_of_In _ _ Hc) as [idx Hidx].
  pose proof (child_neq _ _ _ _ _ Hr Hnd Hp Hc) as Hpc. pose proof (child_in_ids _ _ _ _ _ Hr Hp Hc) as Hct.
  assert (Hpn : ~ In p (map tid ns)) by (intro F; exact (Dtn p Hp (tids_incl _ _ F))).
  assert (Hcn : ~ In c (map tid ns)) by (intro F; exact (Dtn c Hct (tids_incl _ _ F))).
  destruct (replace_child_spec h p c (map tid ns) idx Hidx Hpc Hpn Hcn) as (hA' & HrcA & GpA & GcA & GnA & GoA).
  assert (HidxB : index_of c (kids hB p) = Some idx) by (rewrite HkB; exact Hidx).
  destruct (replace_child_spec hB p c (map tid ns) idx HidxB Hpc Hpn Hcn) as (hB'' & HrcB2 & GpB & GcB & GnB & GoB).
  assert (EhB : hB'' = hB') by congruence. subst hB''.
  exists hA'. split; [exact HrcA|]. split; [|exact NtB'].
  apply repr_frame with (h := hB'); [|exact RtB'].
  intros j _. destruct (N.eq_dec j p) as [->|Hjp].
  - rewrite GpA, GpB, HkB, GB; [reflexivity|]. intro E. rewrite E in Hp. contradiction.
  - destruct (N.eq_dec j c) as [->|Hjc].
    + rewrite GcA, GcB, GB; [reflexivity|]. intro E. rewrite E in Hct. contradiction.
    + destruct (in_dec N.eq_dec j (map tid ns)) as [Hin|Hnin].
      * rewrite (GnA j Hin), (GnB j Hin). destruct (N.eq_dec j m) as [->|Hjm].
        -- rewrite GBm, wp_wp. reflexivity.
        -- rewrite (GB j Hjm). reflexivity.
      * rewrite (GoA j Hjp Hjc Hnin), (GoB j Hjp Hjc Hnin). symmetry. apply GB.
        intro E. subst j. contradiction.
Qed.

Theorem repair_spec : forall d1 d2 d3 h r t B sB,
  tid t = r -> repr h None t -> NoDup (ids t) -> t_find B t = Some sB ->
  match repair d1 d2 d3 h B with
  | ROk h' => exists k1 k2 k3 sm rest,
      tkids (fcopy sB k2 d2) = sm :: rest /\
      repr h' None (t_replace B [fcopy sB k1 d1; sm; fcopy sB k3 d3] t) /\
      NoDup (ids (t_replace B [fcopy sB k1 d1; sm; fcopy sB k3 d3] t))
  | RIndexError h' => repr h' None t /\ exists k2, tkids (fcopy sB k2 d2) = []
  | RNoParent h' => repr h' None t /\ par h B = None
  | RErr => False
  end.
Proof.
  intros d1 d2 d3 h r t B sB Er Hr Hnd Hfs.
  assert (HB : In B (ids t)).
  { destruct (t_find_some _ _ _ Hfs) as [Ets _]. apply (t_find_incl _ _ _ Hfs). rewrite <- Ets. apply tid_in_ids. }
  (* top copy *)
  destruct (copy_filter_step d1 h t B sB Hr Hnd Hfs) as (h1 & k1 & h1' & u1 & Hc1 & Hf1 & Du1 & Eu1 & Ru1 & Nu1 & New1 & T1).
  unfold repair. rewrite Hc1, Hf1.
  pose proof (T1 _ _ Hr) as Hr1.
  (* middle copy *)
  destruct (copy_filter_step d2 h1' t B sB Hr1 Hnd Hfs) as (h2 & k2 & h2' & u2 & Hc2 & Hf2 & Du2 & Eu2 & Ru2 & Nu2 & New2 & T2).
  rewrite Hc2, Hf2.
  pose proof (T2 _ _ Hr1) as Hr2. pose proof (T2 _ _ Ru1) as Ru1_2.
  destruct u2 as [k2' ts2]. cbn [tid] in Eu2. subst k2'.
  rewrite (repr_kids _ _ _ _ Ru2).
  destruct ts2 as [|sm ts2'].
  { split; [exact Hr2|]. exists k2. unfold fcopy. rewrite <- Du2. reflexivity. }
  cbn [map].
  assert (Rsm2 : repr h2' (Some k2) sm) by (eapply repr_child; [exact Ru2 | simpl; auto]).
  (* bottom copy *)
  destruct (copy_filter_step d3 h2' t B sB Hr2 Hnd Hfs) as (h3 & k3 & h3' & u3 & Hc3 & Hf3 & Du3 & Eu3 & Ru3 & Nu3 & New3 & T3).
  rewrite Hc3, Hf3.
  pose proof (T3 _ _ Hr2) as Hr3. pose proof (T3 _ _ Ru1_2) as Ru1_3. pose proof (T3 _ _ Rsm2) as Rsm3.
  pose proof (repr_par_eq _ _ _ _ Hr Hr3 B HB) as Epar.
  destruct (par h3' B) as [P|] eqn:HP3; [|split; [exact Hr3 | exact Epar]].
  (* each copy is made of cells that did not exist before it: the document, the top copy, the middle child
     and the bottom copy are pairwise disjoint *)
  assert (Hsm_u2 : incl (ids sm) (ids (T k2 (sm :: ts2')))).
  { intros j Hj. change (ids (T k2 (sm :: ts2'))) with (k2 :: ids sm ++ flat_map ids ts2').
    right. apply in_or_app. left. exact Hj. }
  assert (Dt1 : disj (ids t) (ids u1)) by exact (repr_new_disj _ _ _ _ Hr New1).
  assert (Dt2 : disj (ids t) (ids sm)).
  { intros j Hj Fj. exact (repr_new_disj _ _ _ _ Hr1 New2 j Hj (Hsm_u2 j Fj)). }
  assert (Dt3 : disj (ids t) (ids u3)) by exact (repr_new_disj _ _ _ _ Hr2 New3).
  assert (D12 : disj (ids u1) (ids sm)).
  { intros j Hj Fj. exact (repr_new_disj _ _ _ _ Ru1 New2 j Hj (Hsm_u2 j Fj)). }
  assert (D13 : disj (ids u1) (ids u3)) by exact (repr_new_disj _ _ _ _ Ru1_2 New3).
  assert (D23 : disj (ids sm) (ids u3)).
  { intros j Hj Fj. exact (repr_new_disj _ _ _ _ Ru2 New3 j (Hsm_u2 j Hj) Fj). }
  assert (Nsm : NoDup (ids sm)).
  { change (ids (T k2 (sm :: ts2'))) with (k2 :: ids sm ++ flat_map ids ts2') in Nu2.
    destruct (nodup_split3 _ _ _ Nu2) as (_ & _ & A & _). exact A. }
  assert (Nns : NoDup (flat_map ids [u1; sm; u3])).
  { cbn [flat_map]. rewrite app_nil_r. apply nodup_app3; auto. }
  assert (Dtn : disj (ids t) (flat_map ids [u1; sm; u3])).
  { intros j Hj Fj. cbn [flat_map] in Fj. rewrite app_nil_r in Fj.
    apply in_app_or in Fj. destruct Fj as [Fj|Fj]; [exact (Dt1 j Hj Fj)|].
    apply in_app_or in Fj. destruct Fj as [Fj|Fj]; [exact (Dt2 j Hj Fj) | exact (Dt3 j Hj Fj)]. }
  (* parent.replace_child(bad_parent, [top, middle child, bottom]): the middle child still has its parent link
     to the (garbage) middle copy *)
  assert (HBr : B <> tid t).
  { intro E. pose proof (repr_root_par _ _ _ Hr3) as A. rewrite <- E in A. congruence. }
  destruct (repr_par_in _ _ _ B Hr3 HB HBr) as (pn & Hpn & HPt & HBk).
  assert (Epn : pn = P) by congruence. subst pn.
  destruct (replace_child_repr_stale h3' t P B [u1] sm [u3] (Some k2) Hr3 Hnd HPt HBk) as (h' & Hrc & Rt' & Nt'); auto.
  cbn [map app] in Hrc. rewrite Eu1, Eu3 in Hrc. rewrite Hrc.
  exists k1, k2, k3, sm, ts2'. unfold fcopy. rewrite <- Du1, <- Du2, <- Du3. auto.
Qed.

Theorem repair_preserves_WF : forall d1 d2 d3 h r t B,
  tid t = r -> repr h None t -> NoDup (ids t) -> In B (ids t) ->
  match repair d1 d2 d3 h B with
  | ROk h' => WF h' r
  | RIndexError h' => WF h' r
  | RNoParent h' => WF h' r /\ par h B = None
  | RErr => False
  end.
Proof.
  intros d1 d2 d3 h r t B Er Hr Hnd HB.
  destruct (t_find_ex _ _ HB) as [sB Hfs].
  pose proof (repair_spec d1 d2 d3 h r t B sB Er Hr Hnd Hfs) as H.
  destruct (repair d1 d2 d3 h B) as [h'|h'|h'|]; auto.
  - destruct H as (k1 & k2 & k3 & sm & rest & _ & R & Nd).
    exists (t_replace B [fcopy sB k1 d1; sm; fcopy sB k3 d3] t). rewrite tid_t_replace. auto.
  - destruct H as [R _]. exists t. auto.
  - destruct H as [R E]. split; auto. exists t. auto.
Qed.

(* one iteration of `while self._fix_nesting(node)` that repairs something: SOME node B of the document that has
   a parent is split, under SOME marking (whatever _nesting_broken / _mark_nodes compute) *)
Definition repair_step (r : N) (h h' : heap) : Prop :=
  exists d1 d2 d3 t B, tid t = r /\ repr h None t /\ NoDup (ids t) /\ In B (ids t) /\
                       repair d1 d2 d3 h B = ROk h'.

Inductive repair_steps (r : N) : heap -> heap -> Prop :=
| rs_refl : forall h, repair_steps r h h
| rs_step : forall h h1 h2, repair_step r h h1 -> repair_steps r h1 h2 -> repair_steps r h h2.

Lemma repair_step_WF : forall r h h', repair_step r h h' -> WF h' r.
Proof.
  intros r h h' (d1 & d2 & d3 & t & B & Er & Hr & Hnd & HB & E).
  pose proof (repair_preserves_WF d1 d2 d3 h r t B Er Hr Hnd HB) as H. rewrite E in H. exact H.
Qed.

Theorem repair_steps_WF : forall r h h', WF h r -> repair_steps r h h' -> WF h' r.
Proof.
  intros r h h' Hwf Hs. induction Hs as [h|h h1 h2 H1 _ IH]; auto. apply IH. eapply repair_step_WF; eauto.
Qed.

(* Article 1 [ PreFormatted 2 [ Text 3 "5", ImageLink 4, Text 5 "6" ] ]: marks 3 = top, 4 = problem, 5 = bottom;
   the copies get the identities 6-9, 10-13, 14-17 (preorder) *)
Definition hx : heap :=
  [(1, mkNode 20 None [2] []); (2, mkNode 32 (Some 1) [3; 4; 5] []); (3, mkNode 1 (Some 2) [] [5]);
   (4, mkNode 28 (Some 2) [] []); (5, mkNode 1 (Some 2) [] [6])]%N.
Definition dx1 (j : N) : bool := N.eqb j 8 || N.eqb j 9.       (* problem, bottom in the first copy *)
Definition dx2 (j : N) : bool := N.eqb j 11 || N.eqb j 13.     (* top, bottom in the second copy *)
Definition dx3 (j : N) : bool := N.eqb j 15 || N.eqb j 16.     (* top, problem in the third copy *)

