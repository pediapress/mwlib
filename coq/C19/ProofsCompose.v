(* C19 — the status command on top of the REAL queue model (coq/C16/Model.v, the model of qs.jobs.workq + QPlugin
   + connection life cycle that C16/C17/C18 are proved about), instead of C19's own life-cycle abstraction.

   The queue model abstracts values: job names, error strings, results and info dicts are numbers (Model.v of
   C16: err = ENone | EStr n with 0 = "", 1 = "timeout", 2 = "killed", >= 3 another non-empty string).  The
   composition is parametric in the decoding of those numbers into the JSON values the status command reads
   (Section variables; the only fact used is that exactly code 0 decodes to a falsy error). *)
From Coq Require Import List NArith ZArith Bool.
From MW Require Import Common.Str C19.Gen_writers C19.Model C19.Proofs C19.ProofsCD C19.ProofsLife.
From MW Require C16.Model C19.QueueInv.
Import ListNotations.

Module Q := MW.C16.Model.
Module QI := MW.C19.QueueInv.

Section Compose.
  Variable nfkd : str -> str.
  Variable code_of : str -> N.              (* job id string -> the queue model's name code *)
  Variable dec_err : N -> pyval.            (* error code -> the error value in the snapshot *)
  Variable dec_res : N -> pyval.            (* result code -> the result value *)
  Variable dec_info : N -> pyval.           (* info code -> the info dict *)
  Hypothesis dec_err_truthy : forall n, truthy (dec_err n) = negb (n =? 0)%N.

  Definition err_val (e : Q.err) : option pyval :=
    match e with Q.ENone => None | Q.EStr n => Some (dec_err n) end.

  (* job._json() restricted to the four fields the status command reads (jobs.py:54-66): info is always there,
     done/error/result only once assigned *)
  Definition snap16 (j : Q.job) : snap :=
    mkSnap (Some (match Q.j_info j with None => VDict [] | Some v => dec_info v end))
           (if Q.j_done j then Some (VBool true) else None)
           (err_val (Q.j_err j))
           (option_map dec_res (Q.j_res j)).

  (* rpc_qinfo (qserve.py:74-78) on a state of the queue model *)
  Definition qinfo16 (s : Q.state) : str -> option snap :=
    fun id => option_map snap16 (QI.job_at s (Q.JName (code_of id))).

  Definition finished_or_malformed (resp : response) (rs : option snap) : Prop :=
    (exists m, resp = Finished m) \/ (exists e, resp = Crash e /\ ~ wf_result rs).

  Lemma r_done_snap16 j : r_done (Some (snap16 j)) = Q.j_done j.
  Proof. unfold r_done. cbn. destruct (Q.j_done j); reflexivity. Qed.

  (* the one fact about the decoding: the snapshot's error is truthy iff the coded one is *)
  Lemma r_error_snap16_truthy j : truthy (r_error (Some (snap16 j))) = Q.err_truthy (Q.j_err j).
  Proof.
    change (r_error (Some (snap16 j))) with (get_or (err_val (Q.j_err j)) VNone).
    destruct (Q.j_err j) as [|n]; [reflexivity|apply dec_err_truthy].
  Qed.

  (* the answer for a job object of the queue model, by its coded error and its done flag *)
  Lemma job16_status j m w :
    known w ->
    let r := Some (snap16 j) in
    if Q.err_truthy (Q.j_err j) then status nfkd r m w = Failed (get_or (err_val (Q.j_err j)) VNone)
    else if Q.j_done j then finished_or_malformed (status nfkd r m w) r
    else status nfkd r m w = Progress (progress_status r m).
  Proof.
    intros K. pose proof (status_cases nfkd (Some (snap16 j)) m w K) as S.
    rewrite r_error_snap16_truthy, r_done_snap16 in S. exact S.
  Qed.

  (* C19_reachable over histories of the C16 queue model: EVERY list of its ops -- Add, StartPull, RunLoop, Finish,
     Kill, Tick, Disconnect, Choice, Wait, Info, SetInfo, Stats, Advance, Drop, Watchdog -- from the empty queue *)
  Lemma reachable_status16 h c w :
    known w ->
    let s := Q.run h Q.init in
    let q := qinfo16 s in
    let resp := do_render_status nfkd q c w in
    let rs := q (render_jobid c w) in
    let prog := Progress (progress_status rs (q (makezip_jobid c))) in
    match QI.job_at s (Q.JName (code_of (render_jobid c w))) with
    | None => resp = prog                                      (* never added, dropped after its ttl, dropped by waitjobs *)
    | Some j =>
        if Q.j_done j then
          match Q.j_err j with
          | Q.ENone => finished_or_malformed resp rs             (* finished without an error *)
          | Q.EStr n =>
              if (n =? 0)%N then finished_or_malformed resp rs   (* finished with error "" *)
              else resp = Failed (dec_err n)                     (* failed / "killed" / "timeout" *)
          end
        else                                                     (* queued, handed to a worker, running, info updates *)
          Q.j_err j = Q.ENone /\ Q.j_res j = None /\ resp = prog
    end.
  Proof.
    intros K s q resp rs prog. unfold resp, prog, rs, q, do_render_status, qinfo16.
    destruct (QI.job_at s (Q.JName (code_of (render_jobid c w)))) as [j|] eqn:E; cbn [option_map];
      [|exact (status_cases nfkd None _ w K)].
    pose proof (job16_status j (option_map snap16 (QI.job_at s (Q.JName (code_of (makezip_jobid c))))) w K) as S.
    cbv zeta in S. destruct (Q.j_done j) eqn:Dj.
    - destruct (Q.j_err j) as [|n]; cbn [Q.err_truthy] in S; [exact S|]. destruct (n =? 0)%N; cbn [negb] in S; exact S.
    - destruct (QI.run_fd h j (QI.job_at_In _ _ _ E) Dj) as [Fe Fr]. rewrite Fe in S. auto.
  Qed.

  (* `finished` is never reported for a job that is absent, not done, or done with a truthy error -- over queue histories *)
  Lemma finished_only_if16 h c w mo :
    do_render_status nfkd (qinfo16 (Q.run h Q.init)) c w = Finished mo ->
    exists j, QI.job_at (Q.run h Q.init) (Q.JName (code_of (render_jobid c w))) = Some j /\ Q.j_done j = true /\
              Q.err_truthy (Q.j_err j) = false.
  Proof.
    intros H. unfold do_render_status in H. pose proof (status_finished_only_if _ _ _ _ _ H) as (K & D & E & s0 & Es).
    unfold qinfo16 in *. destruct (QI.job_at (Q.run h Q.init) (Q.JName (code_of (render_jobid c w)))) as [j|]; [|discriminate Es].
    exists j. cbn [option_map] in D, E. rewrite r_done_snap16 in D. rewrite r_error_snap16_truthy in E. auto.
  Qed.
End Compose.

(* NOT proved (full statements):
   (1) the step lemma for handletimeouts, the analogue of C19_status_after_kill (Properties.v):
         forall h dt c w j, known w -> let s := Q.run h Q.init in let i := Q.JName (code_of (render_jobid c w)) in
           QI.job_at s i = Some j -> Q.j_done j = false -> Q.j_timeout j <= Q.s_now s + dt ->
           do_render_status nfkd (qinfo16 (Q.run (h ++ [Q.Tick dt]) Q.init)) c w = Failed (dec_err 1)
       it needs the queue invariant "every job that is not done has its (timeout, (prio, serial)) entry in s_tq", which
       coq/C16 does not provide.  (reachable_status16 does cover the state after the sweep: a job whose error code is 1
       is answered with Failed (dec_err 1).)
   (2) a simulation between C19's own life-cycle model (Model.v `run`, full JSON values, one record per id; tied to the
       real workq by the harness) and the C16 model under the decoding, i.e.
         forall ops, exists h, forall id, qinfo_of (Model.run ops) id = qinfo16 (Q.run h Q.init) id
       (the C16 model stores value CODES and replaces the info dict on SetInfo where jobs.py updates it key-wise, so the
       statement needs a decoding that is history dependent).  Both models are tied to the same real code instead. *)

(* non-vacuity on the queue model: render job "7" added, pulled by connection 1, finished with error code 5;
   another one killed; a third still queued *)
Definition ex_ops : list Q.op :=
  [Q.Add 1 0 (Some 7%N) None; Q.Add 1 0 (Some 8%N) None; Q.Add 1 0 (Some 9%N) None;
   Q.StartPull 1 [1%N]; Q.Finish 1 (Q.JName 7) None (Q.EStr 5); Q.Kill 2 [Q.JName 8]].
