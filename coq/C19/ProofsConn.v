(* C19 — closing a client connection never changes which job an id stands for (so never changes what render_status
   reports), for every history of adds, pulls, finishes, kills, timeouts, drops and disconnects on any number of
   connections - as long as shutdown() asks the job object it holds (dec_repo).  Asking the id->job table instead
   (dec_byid, seeded/C19-7) is refuted: a killed earlier incarnation comes back over the live one. *)
From Coq Require Import List NArith Bool Arith.
From MW Require Import Common.Str C19.ModelConn.
Import ListNotations.

(* an unfinished job object held by a connection is the one registered under its id; killed implies done *)
Definition coherent (s : cstate) : Prop :=
  (forall c id i, In (id, i) (held s c) -> jdone s i = false -> table s id = Some i) /\
  (forall i, jkilled s i = true -> jdone s i = true).

Lemma updT_same : forall t id v, t id = v -> forall x, updT t id v x = t x.
Proof.
  intros t id v H x. unfold updT. destruct (str_eqb x id) eqn:E; [|reflexivity].
  apply str_eqb_spec in E. subst x. symmetry. exact H.
Qed.

Lemma requeue_repo_noop : forall dn l tbl,
  (forall id i, In (id, i) l -> dn i = false -> tbl id = Some i) ->
  forall x, requeue dec_repo dn l tbl x = tbl x.
Proof.
  intros dn l. induction l as [|[id i] l IH]; intros tbl H x; [reflexivity|].
  change (requeue dec_repo dn ((id, i) :: l) tbl)
    with (requeue dec_repo dn l (if negb (dn i) then updT tbl id (Some i) else tbl)).
  destruct (dn i) eqn:Hd; cbn [negb].
  - apply IH. intros id' i' Hin. apply H. right. exact Hin.
  - assert (Hi : tbl id = Some i) by (apply H; [left; reflexivity|exact Hd]).
    rewrite IH.
    + apply updT_same. exact Hi.
    + intros id' i' Hin Hd'. rewrite (updT_same tbl id (Some i) Hi). apply H; [right; exact Hin|exact Hd'].
Qed.

Lemma in_forget : forall id e l, In e (forget id l) -> In e l.
Proof. intros id e l H. unfold forget in H. apply filter_In in H. tauto. Qed.

Lemma in_updH : forall h c l c' e, In e (updH h c l c') -> (c' = c /\ In e l) \/ In e (h c').
Proof. intros h c l c' e. unfold updH. destruct (Nat.eqb_spec c' c); auto. Qed.

(* coherence survives when the registrations and the flags stay and the connections hold less *)
Lemma coherent_shrink : forall s s', coherent s ->
  (forall x, table s' x = table s x) -> jdone s' = jdone s -> jkilled s' = jkilled s ->
  (forall c e, In e (held s' c) -> In e (held s c)) ->
  coherent s'.
Proof.
  intros s s' [Hc Hk] Ht Hd Hkl Hh. split.
  - intros c id i Hin Hdi. rewrite Ht. rewrite Hd in Hdi. eauto.
  - intros i. rewrite Hd, Hkl. apply Hk.
Qed.

(* marking a job done (and perhaps killed) *)
Lemma coherent_mark : forall s id k, coherent s -> coherent (mark s id k).
Proof.
  intros s id k [Hc Hk]. unfold mark. destruct (table s id) as [i|]; [|split; assumption].
  destruct (jdone s i) eqn:Hd; [split; assumption|]. split; cbn [table held jdone jkilled].
  - intros c id' i' Hin Hd'. apply (Hc c); [exact Hin|].
    unfold updB in Hd'. destruct (Nat.eqb i' i); [discriminate|exact Hd'].
  - intros j Hj. unfold updB at 1. destruct (Nat.eqb j i) eqn:E; [reflexivity|].
    apply Hk. destruct k; [unfold updB in Hj; rewrite E in Hj|]; exact Hj.
Qed.

(* finish and kill: mark, then the connection forgets the id *)
Lemma coherent_mark_forget : forall s id k c, coherent s ->
  coherent (let s1 := mark s id k in
            mkC (table s1) (jdone s1) (jkilled s1) (updH (held s1) c (forget id (held s1 c))) (fresh s1)).
Proof.
  intros s id k c H. apply (coherent_shrink (mark s id k)); [apply coherent_mark; exact H|reflexivity..|].
  cbn [held]. intros c' e Hin. apply in_updH in Hin as [[-> Hin]|Hin]; [eapply in_forget|]; exact Hin.
Qed.

(* an id whose registered object is done can be registered to anything: no connection holds that object unfinished *)
Lemma coherent_reregister : forall s id v n, coherent s ->
  (forall i, table s id = Some i -> jdone s i = true) ->
  coherent (mkC (updT (table s) id v) (jdone s) (jkilled s) (held s) n).
Proof.
  intros s id v n [Hc Hk] Hdone. split; cbn [table held jdone jkilled]; [|exact Hk].
  intros c id' i' Hin Hd. unfold updT. destruct (str_eqb id' id) eqn:E; [|eapply Hc; eauto].
  apply str_eqb_spec in E. subst id'. rewrite (Hdone i' (Hc c id i' Hin Hd)) in Hd. discriminate Hd.
Qed.

Lemma coherent_step : forall s o, coherent s -> coherent (cstep dec_repo s o).
Proof.
  intros s o H. destruct o as [id|c id|c id|c id|id|id|c]; cbn [cstep].
  - (* a new incarnation replaces none or a killed one, and killed implies done *)
    destruct (table s id) as [i|] eqn:E.
    + destruct (jkilled s i) eqn:Ek; [|exact H]. apply coherent_reregister; [exact H|].
      intros j Hj. rewrite E in Hj. injection Hj as <-. exact (proj2 H i Ek).
    + apply coherent_reregister; [exact H|]. intros j Hj. rewrite E in Hj. discriminate Hj.
  - (* what is pulled is the registered job *)
    destruct (table s id) as [i|] eqn:E; [|exact H]. destruct (jdone s i) eqn:Hd; [exact H|].
    destruct H as [Hc Hk]. split; cbn [table held jdone jkilled]; [|exact Hk].
    intros c' id' i' Hin Hd'. apply in_updH in Hin as [[-> [Heq|Hin]]|Hin]; [|apply in_forget in Hin|]; eauto.
    injection Heq as <- <-. exact E.
  - apply coherent_mark_forget. exact H.
  - apply coherent_mark_forget. exact H.
  - apply coherent_mark. exact H.
  - (* only a finished job is dropped *)
    destruct (table s id) as [i|] eqn:E; [|exact H]. destruct (jdone s i) eqn:Hd; [|exact H].
    apply coherent_reregister; [exact H|]. intros j Hj. rewrite E in Hj. injection Hj as <-. exact Hd.
  - apply (coherent_shrink s _ H); cbn [table held jdone jkilled]; [|reflexivity..|].
    + apply requeue_repo_noop. intros a b. apply (proj1 H).
    + intros c' e Hin. apply in_updH in Hin as [[_ []]|Hin]. exact Hin.
Qed.

Lemma coherent_c0 : coherent c0.
Proof. split; cbn; [intros _ _ _ []|discriminate]. Qed.

Lemma coherent_fold : forall ops s, coherent s -> coherent (fold_left (cstep dec_repo) ops s).
Proof. induction ops as [|o ops IH]; intros s H; [exact H|]. cbn [fold_left]. apply IH, coherent_step, H. Qed.

Theorem crun_coherent : forall ops, coherent (crun dec_repo ops).
Proof. intros ops. apply coherent_fold, coherent_c0. Qed.

(* closing a connection of a coherent state re-registers only what is registered already *)
Theorem disconnect_table : forall s c id, coherent s -> table (cstep dec_repo s (CDisconnect c)) id = table s id.
Proof. intros s c id [Hc _]. cbn [cstep table]. apply requeue_repo_noop. intros a b. apply Hc. Qed.

(* seeded/C19-7: the test by id.  Render job pulled by connection 1, killed, re-added under the same id, pulled by
   connection 2; connection 1 closes: the killed incarnation 0 is registered again over the live incarnation 1;
   the status source says `done` while the job worker 2 holds is not; worker 2's finish then hits the stale object
   and the live job never becomes done. *)
Definition jid : str := [120%N].
Definition byid_history : list cop := [CAdd jid; CPull 1 jid; CKill 0 jid; CAdd jid; CPull 2 jid].
