(* C19 — the Content-Disposition value is header safe; well-formed results never crash. *)
From Coq Require Import List NArith ZArith Bool Lia ZifyBool ZifyN.
From MW Require Import Common.Str C19.Gen_writers C19.Model C19.Proofs.
Import ListNotations.
Local Open Scope N_scope.

(* Unicode category Cc *)
Definition is_control (c : N) : bool := (c <? 32) || ((127 <=? c) && (c <=? 159)).

(* printable ASCII other than the separator class gen_sep_chars (space, semicolon, colon, double quote,
   apostrophe, comma) *)
Definition name_char (c : N) : bool := (33 <=? c) && (c <=? 126) && negb (is_sep c).

(* unreserved characters, '/' (quote's default safe character) and the '%' of an escape *)
Definition quoted_char (c : N) : bool := unreserved c || (c =? 47) || (c =? 37).

Local Arguments is_sep : simpl never.
Local Arguments name_char : simpl never.
Local Arguments py_isspace : simpl never.
Local Arguments quoted_char : simpl never.
Local Arguments is_control : simpl never.
Local Arguments scalar : simpl never.

Definition noctl (s : str) : Prop := Forall (fun c => is_control c = false) s.
Definition scalars (s : str) : Prop := Forall (fun c => scalar c = true) s.

(* facts about the generated separator class: re-checked whenever nserve.py's regex changes *)
Lemma sep_space : is_sep 32 = true.
Proof. reflexivity. Qed.
Lemma sep_dash : is_sep 45 = false.
Proof. reflexivity. Qed.

Lemma lstrip_Forall (P : N -> Prop) s : Forall P s -> Forall P (lstrip s).
Proof.
  induction s as [|c s IH]; intros H; cbn; [constructor|].
  destruct (py_isspace c); [apply IH; inversion H; assumption|exact H].
Qed.

Lemma strip_Forall (P : N -> Prop) s : Forall P s -> Forall P (strip s).
Proof.
  intros H. unfold strip. apply Forall_rev, lstrip_Forall, Forall_rev, lstrip_Forall, H.
Qed.

Lemma or_collection_Forall (P : N -> Prop) s : Forall P k_collection -> Forall P s -> Forall P (or_collection s).
Proof. intros Hk H. destruct s; cbn; assumption. Qed.

Lemma or_collection_nonnil s : or_collection s <> [].
Proof. destruct s; cbn; discriminate. Qed.

Lemma collection_noctl : noctl k_collection.
Proof. unfold noctl, k_collection. repeat constructor. Qed.
Lemma collection_scalars : scalars k_collection.
Proof. unfold scalars, k_collection. repeat constructor. Qed.
Lemma collection_name : Forall (fun c => c = 32 \/ name_char c = true) k_collection.
Proof. unfold k_collection. repeat (constructor; [right; reflexivity|]). constructor. Qed.

Lemma ascii_only_range s : noctl s -> Forall (fun c => 32 <= c <= 126) (ascii_only s).
Proof.
  unfold noctl, ascii_only. induction s as [|c s IH]; intros H; cbn; [constructor|].
  inversion H as [|? ? Hc Hs]; subst.
  destruct (c <? 128) eqn:E.
  - constructor; [|apply IH; assumption]. unfold is_control in Hc. lia.
  - apply IH; assumption.
Qed.

Lemma collapse_chars s : forall b,
  Forall (fun c => 32 <= c <= 126) s ->
  Forall (fun c => c = 32 \/ name_char c = true) (collapse b s).
Proof.
  induction s as [|c s IH]; intros b H; cbn; [constructor|].
  inversion H as [|? ? Hc Hs]; subst.
  destruct (is_sep c) eqn:E.
  - destruct b; [apply IH; assumption|]. constructor; [left; reflexivity|apply IH; assumption].
  - constructor; [|apply IH; assumption].
    right. unfold name_char. rewrite E. cbn [negb]. rewrite andb_true_r.
    assert (c <> 32) by (intros ->; rewrite sep_space in E; discriminate). lia.
Qed.

Lemma dash_chars s :
  Forall (fun c => c = 32 \/ name_char c = true) s -> Forall (fun c => name_char c = true) (dash s).
Proof.
  unfold dash. induction s as [|c s IH]; intros H; cbn; [constructor|].
  inversion H as [|? ? Hc Hs]; subst. constructor; [|apply IH; assumption].
  destruct (c =? 32) eqn:E; [reflexivity|].
  destruct Hc as [->|Hc]; [discriminate|exact Hc].
Qed.

Lemma dash_nonnil s : s <> [] -> dash s <> [].
Proof. destruct s; cbn; [congruence|discriminate]. Qed.

Lemma hexdigit_alnum n : n < 16 -> alnum (hexdigit n) = true.
Proof. intros H. unfold alnum, hexdigit. destruct (n <? 10) eqn:E; lia. Qed.

Lemma quote_byte_chars b : Forall (fun c => quoted_char c = true) (quote_byte b).
Proof.
  unfold quote_byte. destruct (unreserved b || (b =? 47)) eqn:E.
  - constructor; [|constructor]. unfold quoted_char. rewrite E. reflexivity.
  - assert (H1 : (b / 16) mod 16 < 16) by (apply N.mod_lt; lia).
    assert (H2 : b mod 16 < 16) by (apply N.mod_lt; lia).
    repeat constructor.
    + unfold quoted_char, unreserved. rewrite (hexdigit_alnum _ H1). reflexivity.
    + unfold quoted_char, unreserved. rewrite (hexdigit_alnum _ H2). reflexivity.
Qed.

Lemma flat_map_quote_chars bs : Forall (fun c => quoted_char c = true) (flat_map quote_byte bs).
Proof.
  induction bs as [|b bs IH]; cbn; [constructor|]. apply Forall_app. split; [apply quote_byte_chars|exact IH].
Qed.

Lemma utf8_scalar c : scalar c = true -> exists bs, utf8 c = Some bs.
Proof.
  unfold scalar, utf8. intros H.
  destruct (c <? 128); [eauto|]. destruct (c <? 2048); [eauto|].
  destruct (c <? 65536) eqn:E3.
  - destruct ((55296 <=? c) && (c <=? 57343)) eqn:E4; [|eauto]. rewrite andb_true_iff in H. destruct H as [_ H]. discriminate.
  - destruct (c <? 1114112) eqn:E5; [eauto|]. rewrite andb_true_iff in H. destruct H as [H _]. discriminate.
Qed.

Lemma quote_scalars s : scalars s -> exists q, quote s = Some q /\ Forall (fun c => quoted_char c = true) q.
Proof.
  unfold scalars. induction s as [|c s IH]; intros H; cbn.
  - exists []. split; [reflexivity|constructor].
  - inversion H as [|? ? Hc Hs]; subst.
    destruct (utf8_scalar c Hc) as [bs ->]. destruct (IH Hs) as (q & -> & Hq).
    eexists. split; [reflexivity|]. apply Forall_app. split; [apply flat_map_quote_chars|exact Hq].
Qed.

Lemma quote_byte_nonnil b : quote_byte b <> [].
Proof. unfold quote_byte. destruct (unreserved b || (b =? 47)); discriminate. Qed.

Lemma utf8_nonnil c : utf8 c <> Some [].
Proof.
  unfold utf8.
  destruct (c <? 128); [discriminate|]. destruct (c <? 2048); [discriminate|].
  destruct (c <? 65536).
  - destruct ((55296 <=? c) && (c <=? 57343)); discriminate.
  - destruct (c <? 1114112); discriminate.
Qed.

(* every character contributes at least one byte, every byte at least one character *)
Lemma quote_nonnil s q : quote s = Some q -> s <> [] -> q <> [].
Proof.
  destruct s as [|c s]; [congruence|]. cbn [quote]. intros H _.
  destruct (utf8 c) as [bs|] eqn:U; [|discriminate]. destruct (quote s); [|discriminate].
  injection H as <-. destruct bs as [|b bs]; [destruct (utf8_nonnil c U)|].
  cbn [flat_map]. intros E. apply app_eq_nil in E as [E _]. apply app_eq_nil in E as [E _].
  exact (quote_byte_nonnil b E).
Qed.

(* a name the try-block hands on: none, or a well-formed one *)
Definition wf_opt_name (sf : option pyval) : Prop := match sf with Some v => wf_name v | None => True end.

(* on a well-formed result the try-block raises nothing that is not caught, and the name it hands on is well formed *)
Lemma result_part_wf r :
  wf_result r -> match result_part (or_empty r) with inl _ => False | inr (_, _, sf) => wf_opt_name sf end.
Proof.
  unfold wf_result, result_part. destruct (s_result (or_empty r)) as [rv|]; [|exact (fun _ => I)].
  intros [F|(kvs & -> & H)]; [rewrite F; exact I|].
  destruct (truthy (VDict kvs)); [|exact I].
  destruct (assoc k_url kvs) as [u|]; [|exact I]. destruct (assoc k_size kvs) as [sz|]; [|exact I].
  exact (H u sz eq_refl eq_refl).
Qed.

Section CDName.
  Variable nfkd : str -> str.
  (* unicodedata.normalize("NFKD", s) introduces no control character *)
  Hypothesis nfkd_no_new_controls : forall s, noctl s -> noctl (nfkd s).

  Lemma cd_values_name filename :
    noctl filename ->
    Forall (fun c => name_char c = true) (fst (cd_values nfkd filename)) /\ fst (cd_values nfkd filename) <> [].
  Proof.
    intros H. unfold cd_values. cbn [fst]. split.
    - apply dash_chars, or_collection_Forall; [exact collection_name|].
      apply strip_Forall, collapse_chars, ascii_only_range, nfkd_no_new_controls.
      apply or_collection_Forall; [exact collection_noctl|]. apply strip_Forall, H.
    - apply dash_nonnil, or_collection_nonnil.
  Qed.
End CDName.

(* the rest holds for every nfkd *)
Section CD.
  Variable nfkd : str -> str.

  Lemma cd_values_utf8 filename : scalars filename -> scalars (snd (cd_values nfkd filename)).
  Proof.
    intros H. unfold cd_values. cbn [snd].
    apply or_collection_Forall; [exact collection_scalars|]. apply strip_Forall, H.
  Qed.

  (* the header for a name without lone surrogates: the ASCII form, then the quoted UTF-8 form when the two differ *)
  Lemma cd_shape filename ext :
    scalars filename ->
    exists tail,
      content_disposition nfkd filename ext = inr (k_inline ++ fst (cd_values nfkd filename) ++ k_dot :: ext ++ tail) /\
      (tail = [] \/ exists q, quote (snd (cd_values nfkd filename)) = Some q /\ tail = k_star ++ q ++ k_dot :: ext /\
                              Forall (fun c => quoted_char c = true) q).
  Proof.
    intros Hs. unfold content_disposition. pose proof (cd_values_utf8 filename Hs) as Hu.
    destruct (cd_values nfkd filename) as [a u]. cbn [fst snd] in *.
    destruct (negb (str_eqb u a)).
    - destruct (quote_scalars u Hu) as (q & Hq & Hqc). rewrite Hq. exists (k_star ++ q ++ k_dot :: ext). split.
      + f_equal. rewrite <- !app_assoc. reflexivity.
      + right. exists q. auto.
    - exists []. split; [|left; reflexivity]. f_equal. rewrite app_nil_r. reflexivity.
  Qed.

  Lemma cd_inr filename ext : scalars filename -> exists d, content_disposition nfkd filename ext = inr d.
  Proof. intros H. destruct (cd_shape filename ext H) as (tail & -> & _). eauto. Qed.

  Lemma cd_val_inr sf ext : wf_opt_name sf -> exists d, content_disposition_val nfkd sf ext = inr d.
  Proof.
    destruct sf as [v|]; [|intros _; apply cd_inr; constructor].
    intros [F|(s & -> & Hs)]; unfold content_disposition_val.
    - rewrite F. apply cd_inr. constructor.
    - destruct (truthy (VStr s)); [apply cd_inr; exact Hs|apply cd_inr; constructor].
  Qed.

  Lemma finished_wf r ext ctype : wf_result r -> exists m, finished nfkd (or_empty r) ext ctype = Finished m.
  Proof.
    intros H. apply result_part_wf in H. unfold finished.
    destruct (result_part (or_empty r)) as [e|[[u sz] sf]]; [contradiction|].
    destruct (is_nil ext); [eauto|]. destruct (cd_val_inr sf ext H) as [d ->]. eauto.
  Qed.

  (* a render job that is done without a truthy error: `finished`, or the command raises and the result is malformed *)
  Lemma status_done_noerr r m w :
    known w -> r_done r = true -> truthy (r_error r) = false ->
    (exists mo, status nfkd r m w = Finished mo) \/ (exists e, status nfkd r m w = Crash e /\ ~ wf_result r).
  Proof.
    intros K D E. destruct (known_writer w K) as (ext & ctype & W). rewrite status_eq, W, E, D.
    destruct (finished_cases nfkd (or_empty r) ext ctype) as [F|[e C]]; [left; exact F|].
    right. exists e. split; [exact C|]. intros WF. destruct (finished_wf r ext ctype WF) as [mo F]. congruence.
  Qed.

  (* the answer for a known writer, by the error and done reads of the render snapshot; the two job models
     (ProofsLife.v, ProofsCompose.v) instantiate r with their snapshots *)
  Lemma status_cases r m w :
    known w ->
    if truthy (r_error r) then status nfkd r m w = Failed (r_error r)
    else if r_done r then
      (exists mo, status nfkd r m w = Finished mo) \/ (exists e, status nfkd r m w = Crash e /\ ~ wf_result r)
    else status nfkd r m w = Progress (progress_status r m).
  Proof.
    intros K. destruct (truthy (r_error r)) eqn:E; [apply status_failed; assumption|].
    destruct (r_done r) eqn:D; [apply status_done_noerr; assumption|apply status_progress; assumption].
  Qed.
End CD.
