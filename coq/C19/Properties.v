(* C19 — property theorems only, each followed by Print Assumptions; the check re-compiles this file on every
   run, so each is put together in a few lines from the lemmas of the Proofs files. *)
From Coq Require Import List NArith ZArith Bool.
From MW Require Import Common.Str C19.Gen_writers C19.Model C19.ModelReq C19.Proofs C19.ProofsCD C19.ProofsLife C19.ProofsCompose C19.ProofsReq C19.ModelConn C19.ProofsConn.
Import ListNotations.

(* `status nfkd r m w` is do_render_status after its two qinfo calls: r / m are the `_json()` snapshots of
   the jobs "<c>:render-<w>" / "<c>:makezip" (None = unknown to the queue; fields may be absent; every
   field is an arbitrary JSON value with Python truthiness).  r_done/r_error/r_info are the three
   `res.get(...)` reads.  All statements are over ALL snapshots, reachable or not. *)

(* `finished` is reported only for a render job OF THAT WRITER that exists, is done, and whose error is
   falsy — never for an absent, queued, running or failed job. *)
Theorem C19_finished_only_if : forall nfkd r m w mo,
  status nfkd r m w = Finished mo ->
  known w /\ r_done r = true /\ truthy (r_error r) = false /\ exists s, r = Some s.
Proof. exact status_finished_only_if. Qed.
Print Assumptions C19_finished_only_if.

(* ... and it IS reported for every such job whose result is well formed (absent, falsy, or a dict
   whose suggested_filename is falsy or text without lone surrogates). *)
Theorem C19_finished_iff : forall nfkd r m w,
  known w -> wf_result r ->
  ((exists mo, status nfkd r m w = Finished mo) <-> r_done r = true /\ truthy (r_error r) = false).
Proof.
  intros nfkd r m w K WF. split.
  - intros [mo H]. destruct (status_finished_only_if nfkd r m w mo H) as (_ & D & E & _). split; assumption.
  - intros [D E]. destruct (status_done_noerr nfkd r m w K D E) as [F|(e & _ & NW)]; [exact F|contradiction].
Qed.
Print Assumptions C19_finished_iff.

(* `failed` iff the render job's snapshot carries a truthy error; the response carries that very value.
   (That a job with an error is done is C19_error_implies_done, over reachable queue states.) *)
Theorem C19_failed_iff : forall nfkd r m w e,
  status nfkd r m w = Failed e <-> known w /\ e = r_error r /\ truthy e = true.
Proof. exact status_failed_iff. Qed.
Print Assumptions C19_failed_iff.

(* otherwise `progress`: the render job's own info once it is truthy, until then the fetch job's info
   while that job is not done, then the fixed "data fetched" text *)
Theorem C19_progress_otherwise : forall nfkd r m w,
  known w -> truthy (r_error r) = false -> r_done r = false ->
  status nfkd r m w = Progress (progress_status r m) /\
  (truthy (r_info r) = true -> progress_status r m = r_info r) /\
  (truthy (r_info r) = false -> r_done m = false -> progress_status r m = r_info m).
Proof.
  intros nfkd r m w K E D. split; [exact (status_progress nfkd r m w K E D)|].
  unfold progress_status. split; intros H; rewrite H; [reflexivity|]. intros ->. reflexivity.
Qed.
Print Assumptions C19_progress_otherwise.

Theorem C19_progress_only_if : forall nfkd r m w st,
  status nfkd r m w = Progress st ->
  known w /\ truthy (r_error r) = false /\ r_done r = false /\ st = progress_status r m.
Proof. exact status_progress_only_if. Qed.
Print Assumptions C19_progress_only_if.

(* the command raises only for an unknown writer or a malformed result of a successfully finished job *)
Theorem C19_crash_only_malformed : forall nfkd r m w e,
  status nfkd r m w = Crash e -> ~ known w \/ (r_done r = true /\ truthy (r_error r) = false /\ ~ wf_result r).
Proof.
  intros nfkd r m w e H. rewrite status_eq in H. unfold known.
  destruct (assoc w writers) as [[ext ctype]|]; [right|left; intros K; exact (K eq_refl)].
  destruct (truthy (r_error r)); [discriminate|]. destruct (r_done r); [|discriminate].
  repeat split. intros WF. destruct (finished_wf nfkd r ext ctype WF) as [mo F]. congruence.
Qed.
Print Assumptions C19_crash_only_malformed.

(* jobs of other writers / other collections cannot influence the answer: the answer depends on the
   two looked-up ids only, and those ids are injective *)
Theorem C19_other_writer :
  (forall nfkd (q q' : str -> option snap) c w,
     q (render_jobid c w) = q' (render_jobid c w) -> q (makezip_jobid c) = q' (makezip_jobid c) ->
     do_render_status nfkd q c w = do_render_status nfkd q' c w) /\
  (forall c w w', render_jobid c w = render_jobid c w' -> w = w') /\
  (forall c w, render_jobid c w <> makezip_jobid c) /\
  (forall c c' w w', no_char 58%N c -> no_char 58%N c' -> render_jobid c w = render_jobid c' w' -> c = c' /\ w = w') /\
  (forall c c' w, no_char 58%N c -> no_char 58%N c' -> render_jobid c w <> makezip_jobid c').
Proof.
  split; [exact status_local|]. split; [exact render_jobid_inj_w|]. split; [exact render_ne_makezip|].
  split; [exact render_jobid_inj|exact render_ne_makezip_any].
Qed.
Print Assumptions C19_other_writer.

(* Content-Disposition: for every suggested filename without control characters and lone surrogates,
   and ANY function nfkd that introduces no control character, the header value is
   inline; filename=<A>.<ext>[;filename*=UTF-8''<Q>.<ext>]  with <A> non-empty and made of printable
   ASCII other than the separator class, <Q> non-empty and made of unreserved characters, '/', '%'. *)
Theorem C19_filename_header_safe : forall nfkd,
  (forall s, noctl s -> noctl (nfkd s)) ->
  forall filename ext, noctl filename -> scalars filename ->
  exists a tail,
    content_disposition nfkd filename ext = inr (k_inline ++ a ++ k_dot :: ext ++ tail) /\
    a <> [] /\ Forall (fun c => name_char c = true) a /\
    (tail = [] \/ exists q, tail = k_star ++ q ++ k_dot :: ext /\ q <> [] /\ Forall (fun c => quoted_char c = true) q).
Proof.
  intros nfkd Hn filename ext Hc Hs. destruct (cd_values_name nfkd Hn filename Hc) as [Ha Hne].
  destruct (cd_shape nfkd filename ext Hs) as (tail & E & T).
  exists (fst (cd_values nfkd filename)), tail. split; [exact E|]. split; [exact Hne|]. split; [exact Ha|].
  destruct T as [T|(q & Hq & T & Hqc)]; [left; exact T|]. right. exists q. split; [exact T|]. split; [|exact Hqc].
  apply (quote_nonnil _ q Hq). unfold cd_values. cbn [snd]. apply or_collection_nonnil.
Qed.
Print Assumptions C19_filename_header_safe.

(* the generated writer table: extensions and content types are header-safe tokens *)
Theorem C19_writers_header_safe : forall w ext ct,
  assoc w writers = Some (ext, ct) ->
  ext <> [] /\ Forall (fun c => token_char c = true) ext /\ Forall (fun c => ctype_char c = true) ct.
Proof.
  intros w ext ct H. destruct (assoc_In _ _ _ H) as [n Hin].
  destruct (writer_ok_spec n ext ct (proj1 (forallb_forall _ _) writers_ok _ Hin)) as (_ & He & _ & _ & Te & Tc).
  repeat split; assumption.
Qed.
Print Assumptions C19_writers_header_safe.

(* Life cycle over C19's OWN abstraction of qs.jobs.workq (one record per job id, full JSON values, a ghost phase; tied
   to the real workq by the harness after every op of every history).  The same statement over the C16 queue model
   is C19_reachable below; here the values are not coded: the failed response carries the very error value, and
   "killed"/"timeout" are the literal strings. *)
Theorem C19_reachable_partial : forall nfkd ops c w,
  known w ->
  let st := run ops in
  let resp := do_render_status nfkd (qinfo_of st) c w in
  let rs := qinfo_of st (render_jobid c w) in
  match st (render_jobid c w) with
  | None => resp = Progress (progress_status rs (qinfo_of st (makezip_jobid c)))
  | Some j =>
      match j_phase j with
      | Queued | Running => resp = Progress (progress_status rs (qinfo_of st (makezip_jobid c)))
      | FinishedOK => (exists m, resp = Finished m) \/ (exists e, resp = Crash e /\ ~ wf_result rs)
      | FinishedErr => exists e, resp = Failed e /\ j_error j = Some e /\ truthy e = true
      | Killed => resp = Failed (VStr k_killed)
      | TimedOut => resp = Failed (VStr k_timeout)
      end
  end.
Proof. exact reachable_status. Qed.
Print Assumptions C19_reachable_partial.

Theorem C19_error_implies_done : forall ops id j,
  run ops id = Some j -> j_error j <> None -> j_done j = true.
Proof.
  intros ops id j H He. destruct (j_done j) eqn:D; [reflexivity|].
  destruct (job_inv_not_done j (run_inv ops id j H) D) as [Er _]. contradiction.
Qed.
Print Assumptions C19_error_implies_done.

(* ---------------------------------------------------------------------------------------------------------
   Composition with the REAL queue model: coq/C16/Model.v (`Q`), the model of qs.jobs.workq + QPlugin + connection
   life cycle under gevent scheduling that C16/C17/C18 are proved about.  Its values are coded (job names, error
   strings, results, info dicts are numbers; error code 0 = "", 1 = "timeout", 2 = "killed"); the theorems hold for
   EVERY decoding of the codes into JSON values under which exactly code 0 is a falsy error.  `qinfo16 .. s` is
   rpc_qinfo on a state of that model, `QI.job_at s i` the job object registered under id i. *)

(* invariant of the queue model over ALL its ops (Drop/Watchdog/Advance/Disconnect/RunLoop included; C16's own
   inv_err covers only histories without Drop): a job with an error or a result is done *)
Theorem C19_queue_error_implies_done : forall h i j,
  QI.job_at (Q.run h Q.init) i = Some j -> (Q.j_err j <> Q.ENone \/ Q.j_res j <> None) -> Q.j_done j = true.
Proof. exact QI.reachable_error_done. Qed.
Print Assumptions C19_queue_error_implies_done.

(* C19_reachable: for EVERY history of the queue model (any list of Add / StartPull / RunLoop / Finish / Kill / Tick /
   Disconnect / Choice / Wait / Info / SetInfo / Stats / Advance / Drop / Watchdog from the empty queue), every
   collection and every known writer, the status command answers according to the render job of THAT writer as the
   queue holds it: absent (never added, dropped after its time-to-live, dropped by waitjobs) or not done (queued,
   handed to a worker, running; then it has neither error nor result) -> progress; done with a truthy error
   (failed, "killed", "timeout") -> failed with that error; done without / with a falsy error -> finished (or the
   command raises, and then the job's result is malformed). *)
Theorem C19_reachable :
  forall (nfkd : str -> str) (code_of : str -> N) (dec_err dec_res dec_info : N -> pyval),
  (forall n, truthy (dec_err n) = negb (n =? 0)%N) ->
  forall h c w, known w ->
    let s := Q.run h Q.init in
    let q := qinfo16 code_of dec_err dec_res dec_info s in
    let resp := do_render_status nfkd q c w in
    let rs := q (render_jobid c w) in
    let prog := Progress (progress_status rs (q (makezip_jobid c))) in
    match QI.job_at s (Q.JName (code_of (render_jobid c w))) with
    | None => resp = prog
    | Some j =>
        if Q.j_done j then
          match Q.j_err j with
          | Q.ENone => finished_or_malformed resp rs
          | Q.EStr n => if (n =? 0)%N then finished_or_malformed resp rs else resp = Failed (dec_err n)
          end
        else Q.j_err j = Q.ENone /\ Q.j_res j = None /\ resp = prog
    end.
Proof. exact reachable_status16. Qed.
Print Assumptions C19_reachable.

(* never `finished` for a job that is absent, queued, running or failed -- over queue histories *)
Theorem C19_finished_only_if_queue :
  forall (nfkd : str -> str) (code_of : str -> N) (dec_err dec_res dec_info : N -> pyval),
  (forall n, truthy (dec_err n) = negb (n =? 0)%N) ->
  forall h c w mo,
  do_render_status nfkd (qinfo16 code_of dec_err dec_res dec_info (Q.run h Q.init)) c w = Finished mo ->
  exists j, QI.job_at (Q.run h Q.init) (Q.JName (code_of (render_jobid c w))) = Some j /\ Q.j_done j = true /\
            Q.err_truthy (Q.j_err j) = false.
Proof. exact finished_only_if16. Qed.
Print Assumptions C19_finished_only_if_queue.

(* how the outcome gets there: after ANY queue history in which the render job is present and not done, rpc_qfinish by an
   idle connection makes the status `failed` with that error (truthy error) or `finished` (no / falsy error); rpc_qkill
   makes it `failed` with "killed" (code 2) *)
Theorem C19_status_after_finish :
  forall (nfkd : str -> str) (code_of : str -> N) (dec_err dec_res dec_info : N -> pyval),
  (forall n, truthy (dec_err n) = negb (n =? 0)%N) ->
  forall h cn c w res e j, known w ->
    let s := Q.run h Q.init in
    let i := Q.JName (code_of (render_jobid c w)) in
    Q.is_idle cn s = true -> QI.job_at s i = Some j -> Q.j_done j = false ->
    let s' := Q.run (h ++ [Q.Finish cn i res e]) Q.init in
    let resp := do_render_status nfkd (qinfo16 code_of dec_err dec_res dec_info s') c w in
    if Q.err_truthy e then exists n, e = Q.EStr n /\ resp = Failed (dec_err n)
    else finished_or_malformed resp (qinfo16 code_of dec_err dec_res dec_info s' (render_jobid c w)).
Proof.
  intros nfkd code_of dec_err dec_res dec_info Hd h cn c w res e j K s i I E D s' resp. subst s i s' resp.
  destruct (QI.finish_step _ cn _ res e j I E D) as (j' & G & H1 & H2 & _). rewrite <- QI.run_snoc in G.
  pose proof (reachable_status16 nfkd code_of dec_err dec_res dec_info Hd
                (h ++ [Q.Finish cn (Q.JName (code_of (render_jobid c w))) res e]) c w K) as R.
  cbv zeta in R. rewrite G, H1, H2 in R.
  destruct e as [|n]; cbn [Q.err_truthy]; [exact R|].
  destruct (n =? 0)%N; cbn [negb]; [exact R|]. exists n. split; [reflexivity|exact R].
Qed.
Print Assumptions C19_status_after_finish.

Theorem C19_status_after_kill :
  forall (nfkd : str -> str) (code_of : str -> N) (dec_err dec_res dec_info : N -> pyval),
  (forall n, truthy (dec_err n) = negb (n =? 0)%N) ->
  forall h cn c w j, known w ->
    let s := Q.run h Q.init in
    let i := Q.JName (code_of (render_jobid c w)) in
    Q.is_idle cn s = true -> QI.job_at s i = Some j -> Q.j_done j = false ->
    do_render_status nfkd (qinfo16 code_of dec_err dec_res dec_info (Q.run (h ++ [Q.Kill cn [i]]) Q.init)) c w = Failed (dec_err 2%N).
Proof.
  intros nfkd code_of dec_err dec_res dec_info Hd h cn c w j K s i I E D. subst s i.
  destruct (QI.kill_step _ cn _ j I E D) as (j' & G & H1 & H2 & _). rewrite <- QI.run_snoc in G.
  pose proof (reachable_status16 nfkd code_of dec_err dec_res dec_info Hd
                (h ++ [Q.Kill cn [Q.JName (code_of (render_jobid c w))]]) c w K) as R.
  cbv zeta in R. rewrite G, H1, H2 in R. exact R.
Qed.
Print Assumptions C19_status_after_kill.

(* ---------------------------------------------------------------------------------------------------------
   ONE REQUEST, SEVERAL READS.  The theorems above are about `status` / `do_render_status`, i.e. the command applied to
   snapshots taken from ONE queue state.  The real command reads the queue by up to two qinfo RPCs, and other clients of
   the queue act between them.  `status_req` (ModelReq.v) is the command with its reads explicit, `exec r qs` runs it
   with the queue state qs[i] answering its i-th read; the harness ties it to the real code on the reads of real
   requests (answer AND sequence of ids asked).  Consistency ACROSS the reads of a request is NOT a theorem about nserve
   (the code takes no atomic snapshot): it is the harness' part -- op "istatus" of vt/harness/c19_impl.py injects queue
   events between the RPCs of one real request and the monitor judges the answer against the states the jobs had during
   the request. *)

(* the response (and the sequence of reads) of ANY request program is a function of the snapshots it actually read *)
Theorem C19_request_function_of_reads : forall r qs qs' x tr,
  exec r qs = Some (x, tr) -> answers qs' tr -> exec r qs' = Some (x, tr).
Proof. exact exec_function_of_reads. Qed.
Print Assumptions C19_request_function_of_reads.

(* the status request reads the render job of that writer, then at most the fetch job, nothing else; its answer is
   `status` on the render snapshot of the first read and the fetch snapshot of the second *)
Theorem C19_request_reads : forall nfkd c w q1 q2 qs,
  exists tr,
    exec (status_req nfkd c w) (q1 :: q2 :: qs) = Some (status nfkd (q1 (render_jobid c w)) (q2 (makezip_jobid c)) w, tr) /\
    (tr = [] \/ tr = [(render_jobid c w, q1 (render_jobid c w))] \/
     tr = [(render_jobid c w, q1 (render_jobid c w)); (makezip_jobid c, q2 (makezip_jobid c))]).
Proof.
  intros. eexists. split; [apply status_req_run|].
  destruct (assoc w writers); [right|left; reflexivity].
  destruct (_ || _); [left|right]; reflexivity.
Qed.
Print Assumptions C19_request_reads.

(* all reads taken from the same queue state: the request IS do_render_status on that state, so every theorem above
   (C19_finished_only_if .. C19_reachable, C19_status_after_finish/kill) applies to it *)
Theorem C19_request_consistent : forall nfkd c w q qs,
  exists tr, exec (status_req nfkd c w) (q :: q :: qs) = Some (do_render_status nfkd q c w, tr).
Proof. intros. eexists. apply status_req_run. Qed.
Print Assumptions C19_request_consistent.

(* ... and already when, between the two reads, the fetch job (resp. the render job) did not change: the answer is the
   atomic answer on the state of the first (resp. second) read *)
Theorem C19_request_atomic_if_one_job_unchanged : forall nfkd c w q1 q2 qs,
  (q2 (makezip_jobid c) = q1 (makezip_jobid c) ->
   exists tr, exec (status_req nfkd c w) (q1 :: q2 :: qs) = Some (do_render_status nfkd q1 c w, tr)) /\
  (q2 (render_jobid c w) = q1 (render_jobid c w) ->
   exists tr, exec (status_req nfkd c w) (q1 :: q2 :: qs) = Some (do_render_status nfkd q2 c w, tr)).
Proof. intros. split; [apply status_req_atomic_first|apply status_req_atomic_second]. Qed.
Print Assumptions C19_request_atomic_if_one_job_unchanged.

(* the interleaved case, arbitrary different states q1, q2: a `finished` answer was derived from exactly ONE read -- the
   render job of that writer -- and the snapshot read had done and no (truthy) error; it is the atomic answer on q1 *)
Theorem C19_interleaved_finished_only_if : forall nfkd c w q1 q2 qs mo tr,
  exec (status_req nfkd c w) (q1 :: q2 :: qs) = Some (Finished mo, tr) ->
  known w /\
  (exists s, q1 (render_jobid c w) = Some s /\ tr = [(render_jobid c w, Some s)]) /\
  r_done (q1 (render_jobid c w)) = true /\ truthy (r_error (q1 (render_jobid c w))) = false /\
  do_render_status nfkd q1 c w = Finished mo.
Proof. exact interleaved_finished_only_if. Qed.
Print Assumptions C19_interleaved_finished_only_if.

Theorem C19_interleaved_failed_iff : forall nfkd c w q1 q2 qs e,
  (exists tr, exec (status_req nfkd c w) (q1 :: q2 :: qs) = Some (Failed e, tr)) <->
  known w /\ e = r_error (q1 (render_jobid c w)) /\ truthy e = true.
Proof.
  intros nfkd c w q1 q2 qs e. rewrite <- (status_failed_iff nfkd _ (q2 (makezip_jobid c))). split.
  - intros [tr H]. symmetry. exact (status_req_answer nfkd _ _ _ _ _ _ _ H).
  - intros <-. eexists. apply status_req_run.
Qed.
Print Assumptions C19_interleaved_failed_iff.

Theorem C19_interleaved_progress_only_if : forall nfkd c w q1 q2 qs st tr,
  exec (status_req nfkd c w) (q1 :: q2 :: qs) = Some (Progress st, tr) ->
  known w /\ truthy (r_error (q1 (render_jobid c w))) = false /\ r_done (q1 (render_jobid c w)) = false /\
  st = progress_status (q1 (render_jobid c w)) (q2 (makezip_jobid c)).
Proof.
  intros nfkd c w q1 q2 qs st tr H. apply (status_progress_only_if nfkd).
  symmetry. exact (status_req_answer nfkd _ _ _ _ _ _ _ H).
Qed.
Print Assumptions C19_interleaved_progress_only_if.

(* over histories: the queue ran ops0 before the first read and ANY ops1 before the second.  `finished` => the render
   job of that writer was FinishedOK after ops0 (C19's own life-cycle model) / done without truthy error after h0 (C16
   queue model) -- never queued, running, failed, killed, timed out or absent when it was read *)
Theorem C19_interleaved_history_finished : forall nfkd ops0 ops1 c w mo tr qs,
  exec (status_req nfkd c w) (qinfo_of (run ops0) :: qinfo_of (run (ops0 ++ ops1)) :: qs) = Some (Finished mo, tr) ->
  exists j, run ops0 (render_jobid c w) = Some j /\ j_phase j = FinishedOK /\ j_done j = true.
Proof.
  intros nfkd ops0 ops1 c w mo tr qs H.
  apply interleaved_finished_only_if in H. destruct H as (_ & (s & Es & _) & D & E & _).
  unfold qinfo_of in Es, D, E. destruct (run ops0 (render_jobid c w)) as [j|] eqn:R; [|discriminate Es].
  cbn [option_map] in D, E. rewrite r_done_snap in D. rewrite r_error_snap in E.
  exists j. split; [reflexivity|]. split; [|exact D]. exact (job_inv_finished_ok j (run_inv ops0 _ _ R) D E).
Qed.
Print Assumptions C19_interleaved_history_finished.

Theorem C19_interleaved_finished_only_if_queue :
  forall (nfkd : str -> str) (code_of : str -> N) (dec_err dec_res dec_info : N -> pyval),
  (forall n, truthy (dec_err n) = negb (n =? 0)%N) ->
  forall h0 h1 c w mo tr qs,
  exec (status_req nfkd c w)
       (qinfo16 code_of dec_err dec_res dec_info (Q.run h0 Q.init) ::
        qinfo16 code_of dec_err dec_res dec_info (Q.run (h0 ++ h1) Q.init) :: qs) = Some (Finished mo, tr) ->
  exists j, QI.job_at (Q.run h0 Q.init) (Q.JName (code_of (render_jobid c w))) = Some j /\ Q.j_done j = true /\
            Q.err_truthy (Q.j_err j) = false.
Proof.
  intros nfkd code_of dec_err dec_res dec_info Hd h0 h1 c w mo tr qs H.
  apply interleaved_finished_only_if in H. destruct H as (_ & _ & _ & _ & S).
  exact (finished_only_if16 nfkd code_of dec_err dec_res dec_info Hd h0 c w mo S).
Qed.
Print Assumptions C19_interleaved_finished_only_if_queue.

(* a render job that is not done when it is read is answered `progress`, whatever happens to it before the next read
   (finished with an error, killed, timed out, dropped, ..) *)
Theorem C19_interleaved_running_progress : forall nfkd ops0 ops1 c w j qs,
  known w -> run ops0 (render_jobid c w) = Some j -> j_done j = false ->
  exists st tr, exec (status_req nfkd c w) (qinfo_of (run ops0) :: qinfo_of (run (ops0 ++ ops1)) :: qs) = Some (Progress st, tr).
Proof. exact interleaved_running_progress. Qed.
Print Assumptions C19_interleaved_running_progress.

(* exactly one event addressed to ONE job (push, pull, setinfo, finish, kill, dropjobs, waitjobs of any id) between the two
   reads: the request is linearizable -- its answer is the atomic answer on the state before or on the state after the
   event.  (Tick / DropDead change both jobs of a collection at once; then the answer combines the render job of before
   with the fetch job of after, which is why the monitor asks for a justifying state per job.) *)
Theorem C19_interleaved_single_job_event_atomic : forall nfkd ops0 now id e c w qs,
  let q1 := qinfo_of (run ops0) in
  let q2 := qinfo_of (run (ops0 ++ [OnJob now id e])) in
  exists tr, exec (status_req nfkd c w) (q1 :: q2 :: qs) = Some (do_render_status nfkd q1 c w, tr) \/
             exec (status_req nfkd c w) (q1 :: q2 :: qs) = Some (do_render_status nfkd q2 c w, tr).
Proof.
  intros nfkd ops0 now id e c w qs q1 q2. destruct (onjob_keeps_one ops0 now id e c w) as [H|H].
  - destruct (status_req_atomic_first nfkd c w q1 q2 qs H) as [tr Ht]. exists tr. left. exact Ht.
  - destruct (status_req_atomic_second nfkd c w q1 q2 qs H) as [tr Ht]. exists tr. right. exact Ht.
Qed.
Print Assumptions C19_interleaved_single_job_event_atomic.

(* how the error outcomes get there, C19's own life-cycle model (after ANY history in which the render job is present and
   not done): handletimeouts past its deadline -> failed "timeout"; qkill -> failed "killed"; qfinish with a truthy
   error -> failed with that error.  (Over the C16 queue model the kill / finish steps are C19_status_after_kill / _finish;
   the timeout step is not proved there, see ProofsCompose.v.) *)
Theorem C19_own_status_after_tick : forall nfkd ops now c w j,
  known w -> run ops (render_jobid c w) = Some j -> j_done j = false -> (j_timeout j <= now)%Z ->
  do_render_status nfkd (qinfo_of (run (ops ++ [Tick now]))) c w = Failed (VStr k_timeout).
Proof.
  intros nfkd ops now c w j K E D T.
  apply (status_marked_failed nfkd _ c w j (j_result j) (VStr k_timeout) (j_ttl j) TimedOut K D eq_refl).
  rewrite run_snoc. cbn [apply_op]. rewrite E. cbn [option_map]. unfold tick. rewrite D.
  apply Z.leb_le in T. rewrite T. reflexivity.
Qed.
Print Assumptions C19_own_status_after_tick.

Theorem C19_own_status_after_kill : forall nfkd ops now c w j,
  known w -> run ops (render_jobid c w) = Some j -> j_done j = false ->
  do_render_status nfkd (qinfo_of (run (ops ++ [OnJob now (render_jobid c w) Kill]))) c w = Failed (VStr k_killed).
Proof.
  intros nfkd ops now c w j K E D.
  apply (status_marked_failed nfkd _ c w j (j_result j) (VStr k_killed) (j_ttl j) Killed K D eq_refl).
  exact (run_onjob ops now _ Kill j _ E eq_refl).
Qed.
Print Assumptions C19_own_status_after_kill.

Theorem C19_own_status_after_finish_error : forall nfkd ops now c w j res e,
  known w -> run ops (render_jobid c w) = Some j -> j_done j = false -> truthy e = true ->
  do_render_status nfkd (qinfo_of (run (ops ++ [OnJob now (render_jobid c w) (Finish res e)]))) c w = Failed e.
Proof.
  intros nfkd ops now c w j res e K E D T. eapply (status_marked_failed nfkd _ c w j (Some res) e); [exact K|exact D|exact T|].
  exact (run_onjob ops now _ (Finish res e) j _ E eq_refl).
Qed.
Print Assumptions C19_own_status_after_finish_error.

(* the job fails while a request is in flight (the scenario of seeded/C19-6) -> that request says `progress`, the next
   one `failed` with the error; `finished` is never said *)
Theorem C19_interleaved_then_failed : forall nfkd ops0 now c w j res e qs,
  known w -> run ops0 (render_jobid c w) = Some j -> j_done j = false -> truthy e = true ->
  let ops1 := [OnJob now (render_jobid c w) (Finish res e)] in
  (exists st tr, exec (status_req nfkd c w) (qinfo_of (run ops0) :: qinfo_of (run (ops0 ++ ops1)) :: qs) = Some (Progress st, tr)) /\
  do_render_status nfkd (qinfo_of (run (ops0 ++ ops1))) c w = Failed e.
Proof.
  intros nfkd ops0 now c w j res e qs K E D T ops1. split.
  - apply interleaved_running_progress with (j := j); assumption.
  - apply C19_own_status_after_finish_error with (j := j); assumption.
Qed.
Print Assumptions C19_interleaved_then_failed.

(* non-vacuity: fetch done, render job pulled; the request reads the render job, THEN the worker reports "boom", then the
   request reads the fetch job: `progress` (the fixed text); a request after that: failed "boom" *)
Example C19_example_interleaved :
  option_map fst (exec (status_req (fun s => s) ex_c ex_w) [qinfo_of (run ex_ops0); qinfo_of (run (ex_ops0 ++ ex_ops1))])
    = Some (Progress fetched_status) /\
  do_render_status (fun s => s) (qinfo_of (run (ex_ops0 ++ ex_ops1))) ex_c ex_w = Failed (VStr [98;111;111;109]%N).
Proof. vm_compute. split; reflexivity. Qed.
Print Assumptions C19_example_interleaved.

(* Non-vacuity: the NFKD hypothesis is satisfiable; a concrete history: render job of "rl" pushed,
   pulled, finished with a result: finished, with the header of the Motörhead test case (nfkd tabulated). *)
Example C19_example_hypothesis : exists nfkd : str -> str, forall s, noctl s -> noctl (nfkd s).
Proof. exists (fun s => s). auto. Qed.
Print Assumptions C19_example_hypothesis.

Example C19_example_history :
  let c := [48;49]%N in let w := [114;108]%N in
  let name := [77;111;116;246;114;104;101;97;100]%N in
  let nfkd := fun s : str => if str_eqb s name then [77;111;116;111;776;114;104;101;97;100]%N else s in
  let res := VDict [(k_url, VStr [117]%N); (k_size, VInt 3); (k_sugg, VStr name)] in
  let ops := [OnJob 0 (makezip_jobid c) (Push 1200 None); OnJob 0 (render_jobid c w) (Push 1200 None);
              OnJob 1 (render_jobid c w) Pull; OnJob 2 (render_jobid c w) (Finish res VNone)] in
  known w /\
  do_render_status nfkd (qinfo_of (run ops)) c w =
  Finished (mkMore (Some (VStr [117]%N)) (Some (VInt 3)) (Some (VStr name))
     (Some [97;112;112;108;105;99;97;116;105;111;110;47;112;100;102]%N)
     (Some (k_inline ++ [77;111;116;111;114;104;101;97;100;46;112;100;102]%N ++ k_star ++
            [77;111;116;37;67;51;37;66;54;114;104;101;97;100;46;112;100;102]%N))) /\
  do_render_status nfkd (qinfo_of (run ops)) c [111;100;102]%N = Progress (VDict []).
Proof. vm_compute. repeat split. discriminate. Qed.
Print Assumptions C19_example_history.

(* the queue-model hypotheses are satisfiable: a history with a failed, a killed and a queued job and an absent one;
   and a decoding with exactly code 0 falsy exists *)
Example C19_example_queue :
  let s := Q.run ex_ops Q.init in
  option_map (fun j => (Q.j_done j, Q.j_err j)) (QI.job_at s (Q.JName 7%N)) = Some (true, Q.EStr 5%N) /\
  option_map (fun j => (Q.j_done j, Q.j_err j)) (QI.job_at s (Q.JName 8%N)) = Some (true, Q.e_killed) /\
  option_map (fun j => (Q.j_done j, Q.j_err j)) (QI.job_at s (Q.JName 9%N)) = Some (false, Q.ENone) /\
  QI.job_at s (Q.JName 10%N) = None.
Proof. vm_compute. repeat split. Qed.
Print Assumptions C19_example_queue.

Example C19_example_decoding : exists dec_err : N -> pyval, forall n, truthy (dec_err n) = negb (n =? 0)%N.
Proof.
  exists (fun n => VInt (Z.of_N n)). intro n. cbn [truthy]. f_equal.
  destruct n; reflexivity.
Qed.
Print Assumptions C19_example_decoding.

(* ---- CLIENT CONNECTIONS of the queue server (ModelConn.v).  Every connection has a handler that remembers the job
   OBJECTS pulled through it and, when the connection closes, hands the unfinished ones back (QPlugin.shutdown ->
   workq.pushjob: id2job[j.jobid] = j).  An id stands for several job objects over time (a killed or dropped job is
   re-added as a new object), so pushjob can overwrite the entry render_status reads.  cstate: id -> registered
   incarnation, done/killed per incarnation, held jobs per connection; crun dec = any history of adds, pulls, finishes,
   kills, timeouts, drops, disconnects; dec_repo = the test of qserve.py:104 (`if j.done: continue`). *)

(* closing ANY connection after ANY history leaves every id registered to the same job object in the same state:
   the status command answers the same before and after *)
Theorem C19_disconnect_preserves_registration : forall ops c id,
  let s := crun dec_repo ops in
  let s' := cstep dec_repo s (CDisconnect c) in
  table s' id = table s id /\ jdone s' = jdone s /\ jkilled s' = jkilled s /\ served_done s' id = served_done s id.
Proof.
  intros ops c id. cbn zeta. pose proof (disconnect_table _ c id (crun_coherent ops)) as Ht.
  repeat split; [exact Ht|]. unfold served_done. rewrite Ht. reflexivity.
Qed.
Print Assumptions C19_disconnect_preserves_registration.

(* the invariant behind it: an unfinished job object held by a connection IS the one registered under its id *)
Theorem C19_held_unfinished_is_registered : forall ops c id i,
  let s := crun dec_repo ops in In (id, i) (held s c) -> jdone s i = false -> table s id = Some i.
Proof. intros ops c id i. exact (proj1 (crun_coherent ops) c id i). Qed.
Print Assumptions C19_held_unfinished_is_registered.

(* seeded/C19-7 (shutdown asks the id->job table instead of its own job object): refuted.  Pulled by connection 1,
   killed, re-added, pulled by connection 2, connection 1 closes: the killed incarnation 0 is registered again over the
   live incarnation 1, the status source says done+killed, and worker 2's finish then hits the stale object - the live
   job never becomes done.  The same history is harmless with the repo's test (last conjunct).
   Also the non-vacuity example of the two theorems above: a history with a pull, a kill, a re-add and a disconnect. *)
Theorem C19_disconnect_by_id_refuted :
  let s := crun dec_byid byid_history in
  let s' := cstep dec_byid s (CDisconnect 1) in
  let s'' := cstep dec_byid s' (CFinish 2 jid) in
  table s jid = Some 1 /\ served_done s jid = Some false /\
  table s' jid = Some 0 /\ served_done s' jid = Some true /\ jkilled s' 0 = true /\ jdone s' 1 = false /\
  table s'' jid = Some 0 /\ jdone s'' 1 = false /\
  table (cstep dec_repo (crun dec_repo byid_history) (CDisconnect 1)) jid = Some 1.
Proof. vm_compute. repeat split. Qed.
Print Assumptions C19_disconnect_by_id_refuted.
