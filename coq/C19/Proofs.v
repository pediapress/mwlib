(* C19 — lemmas about the status mapping and the job ids (content disposition: ProofsCD.v,
   life cycle: ProofsLife.v). *)
From Coq Require Import List NArith ZArith Bool.
From MW Require Import Common.Str C19.Gen_writers C19.Model.
Import ListNotations.
Local Open Scope N_scope.

Lemma colon_split c c' r r' :
  no_char 58 c -> no_char 58 c' -> c ++ 58 :: r = c' ++ 58 :: r' -> c = c' /\ r = r'.
Proof.
  revert c'. induction c as [|x c IH]; intros [|y c'] Hc Hc' H; cbn in H.
  - inversion H; auto.
  - inversion H; subst. exfalso. apply Hc'. left; reflexivity.
  - inversion H; subst. exfalso. apply Hc. left; reflexivity.
  - inversion H; subst. destruct (IH c') as [-> ->]; auto.
    + intro Hin. apply Hc. right. exact Hin.
    + intro Hin. apply Hc'. right. exact Hin.
Qed.

Definition render_tail : str := Eval compute in tl k_render.
Definition makezip_tail : str := Eval compute in tl k_makezip.

Lemma render_jobid_eq c w : render_jobid c w = c ++ 58 :: render_tail ++ w.
Proof. reflexivity. Qed.
Lemma makezip_jobid_eq c : makezip_jobid c = c ++ 58 :: makezip_tail.
Proof. reflexivity. Qed.

(* same collection: the id determines the writer, and is never the fetch job's id *)
Lemma render_jobid_inj_w c w w' : render_jobid c w = render_jobid c w' -> w = w'.
Proof.
  unfold render_jobid. intros H. apply app_inv_head in H. apply app_inv_head in H. exact H.
Qed.

Lemma render_ne_makezip c w : render_jobid c w <> makezip_jobid c.
Proof.
  unfold render_jobid, makezip_jobid. intros H. apply app_inv_head in H. cbv in H. discriminate H.
Qed.

(* collection ids contain no colon (they are 16 hex digits, nserve.py:77): ids of different
   collections never coincide either *)
Lemma render_jobid_inj c c' w w' :
  no_char 58 c -> no_char 58 c' -> render_jobid c w = render_jobid c' w' -> c = c' /\ w = w'.
Proof.
  intros Hc Hc' H. rewrite !render_jobid_eq in H.
  destruct (colon_split _ _ _ _ Hc Hc' H) as [-> H2]. split; [reflexivity|].
  apply app_inv_head in H2. exact H2.
Qed.

Lemma render_ne_makezip_any c c' w :
  no_char 58 c -> no_char 58 c' -> render_jobid c w <> makezip_jobid c'.
Proof.
  intros Hc Hc' H. rewrite render_jobid_eq, makezip_jobid_eq in H.
  destruct (colon_split _ _ _ _ Hc Hc' H) as [_ H2]. cbv in H2. discriminate H2.
Qed.

Lemma makezip_jobid_inj c c' : makezip_jobid c = makezip_jobid c' -> c = c'.
Proof. unfold makezip_jobid. intros H. apply app_inv_tail in H. exact H. Qed.

Lemma assoc_In {A} k (l : list (str * A)) v : assoc k l = Some v -> exists k', In (k', v) l.
Proof.
  induction l as [|[k' v'] l IH]; cbn [assoc]; [discriminate|].
  destruct (str_eqb k k'); [intros [= ->]; exists k'; left; reflexivity|].
  intros H. destruct (IH H) as [k'' Hin]. exists k''. right. exact Hin.
Qed.

Definition r_done (o : option snap) : bool := truthy (get_or (s_done (or_empty o)) (VBool false)).
Definition r_error (o : option snap) : pyval := get_or (s_error (or_empty o)) VNone.
Definition r_info (o : option snap) : pyval := get_or (s_info (or_empty o)) (VDict []).
Definition known (w : str) : Prop := assoc w writers <> None.

Definition scalar (c : N) : bool := (c <? 1114112) && negb ((55296 <=? c) && (c <=? 57343)).

(* job results as the queue's clients produce them: nothing, a falsy value, or a dict whose
   suggested_filename (if url and size are there) is falsy or text without lone surrogates *)
Definition wf_name (v : pyval) : Prop :=
  truthy v = false \/ exists s, v = VStr s /\ Forall (fun c => scalar c = true) s.

Definition wf_result (o : option snap) : Prop :=
  match s_result (or_empty o) with
  | None => True
  | Some r =>
      truthy r = false \/
      exists kvs, r = VDict kvs /\
        (forall u sz, assoc k_url kvs = Some u -> assoc k_size kvs = Some sz ->
                      wf_name (get_or (assoc k_sugg kvs) (VStr [])))
  end.

(* what `progress` shows *)
Definition progress_status (r m : option snap) : pyval :=
  if truthy (r_info r) then r_info r
  else if r_done m then fetched_status else r_info m.

Section Status.
  Variable nfkd : str -> str.

  Lemma finished_cases res ext ctype :
    (exists m, finished nfkd res ext ctype = Finished m) \/ (exists e, finished nfkd res ext ctype = Crash e).
  Proof.
    unfold finished. destruct (result_part res) as [e|[[u sz] sf]]; [right; eauto|].
    destruct (is_nil ext); [left; eauto|].
    destruct (content_disposition_val nfkd sf ext); [right|left]; eauto.
  Qed.

  (* the command as a function of the three reads of the render snapshot; everything below about `status`
     is read off this equation *)
  Lemma status_eq r m w :
    status nfkd r m w =
    match assoc w writers with
    | None => Crash KeyError
    | Some (ext, ctype) =>
        if truthy (r_error r) then Failed (r_error r)
        else if r_done r then finished nfkd (or_empty r) ext ctype
        else Progress (progress_status r m)
    end.
  Proof.
    unfold status, progress_status, r_error, r_done, r_info.
    destruct (assoc w writers) as [[ext ctype]|]; [|reflexivity].
    destruct (truthy (get_or (s_error (or_empty r)) VNone)); [reflexivity|].
    destruct (truthy (get_or (s_done (or_empty r)) (VBool false))); [reflexivity|].
    destruct (truthy (get_or (s_info (or_empty r)) (VDict []))); cbn [negb]; [reflexivity|].
    destruct (truthy (get_or (s_done (or_empty m)) (VBool false))); reflexivity.
  Qed.

  Lemma known_writer w : known w -> exists ext ctype, assoc w writers = Some (ext, ctype).
  Proof. unfold known. destruct (assoc w writers) as [[ext ctype]|]; [eauto|congruence]. Qed.

  Lemma status_failed r m w :
    known w -> truthy (r_error r) = true -> status nfkd r m w = Failed (r_error r).
  Proof. intros K E. destruct (known_writer w K) as (ext & ctype & W). rewrite status_eq, W, E. reflexivity. Qed.

  Lemma status_progress r m w :
    known w -> truthy (r_error r) = false -> r_done r = false ->
    status nfkd r m w = Progress (progress_status r m).
  Proof. intros K E D. destruct (known_writer w K) as (ext & ctype & W). rewrite status_eq, W, E, D. reflexivity. Qed.

  Lemma status_failed_iff r m w e :
    status nfkd r m w = Failed e <-> known w /\ e = r_error r /\ truthy e = true.
  Proof.
    split; [|intros (K & -> & E); apply status_failed; assumption].
    rewrite status_eq. unfold known. destruct (assoc w writers) as [[ext ctype]|]; [|discriminate].
    destruct (truthy (r_error r)) eqn:E.
    - intros [= <-]. repeat split; [discriminate|exact E].
    - destruct (r_done r); [|discriminate].
      destruct (finished_cases (or_empty r) ext ctype) as [[x ->]|[x ->]]; discriminate.
  Qed.

  Lemma status_finished_only_if r m w mo :
    status nfkd r m w = Finished mo ->
    known w /\ r_done r = true /\ truthy (r_error r) = false /\ exists s, r = Some s.
  Proof.
    rewrite status_eq. unfold known. destruct (assoc w writers) as [[ext ctype]|]; [|discriminate].
    destruct (truthy (r_error r)); [discriminate|]. destruct (r_done r) eqn:D; [|discriminate].
    intros _. repeat split; [discriminate|]. destruct r as [s|]; [eauto|discriminate D].
  Qed.

  Lemma status_progress_only_if r m w st :
    status nfkd r m w = Progress st ->
    known w /\ truthy (r_error r) = false /\ r_done r = false /\ st = progress_status r m.
  Proof.
    rewrite status_eq. unfold known. destruct (assoc w writers) as [[ext ctype]|]; [|discriminate].
    destruct (truthy (r_error r)); [discriminate|]. destruct (r_done r).
    - destruct (finished_cases (or_empty r) ext ctype) as [[x ->]|[x ->]]; discriminate.
    - intros [= <-]. repeat split. discriminate.
  Qed.

  Lemma status_local (q q' : str -> option snap) c w :
    q (render_jobid c w) = q' (render_jobid c w) -> q (makezip_jobid c) = q' (makezip_jobid c) ->
    do_render_status nfkd q c w = do_render_status nfkd q' c w.
  Proof. unfold do_render_status. intros -> ->. reflexivity. Qed.
End Status.
