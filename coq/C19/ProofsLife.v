(* C19 — the life cycle of a job in the queue: what the ghost phase says about the fields the status command reads,
   in every reachable store; the answer for a registered job, and after an op has marked it failed; the generated
   writer table. *)
From Coq Require Import List NArith ZArith Bool.
From MW Require Import Common.Str C19.Gen_writers C19.Model C19.Proofs C19.ProofsCD.
Import ListNotations.

(* what the ghost phase means for the fields the status command reads *)
Definition job_inv (j : job) : Prop :=
  match j_phase j with
  | Queued | Running => j_done j = false /\ j_error j = None /\ j_result j = None
  | FinishedOK => j_done j = true /\ exists e, j_error j = Some e /\ truthy e = false
  | FinishedErr => j_done j = true /\ exists e, j_error j = Some e /\ truthy e = true
  | Killed => j_done j = true /\ j_error j = Some (VStr k_killed)
  | TimedOut => j_done j = true /\ j_error j = Some (VStr k_timeout)
  end.

Definition opt_inv (o : option job) : Prop := match o with Some j => job_inv j | None => True end.

Definition store_inv (st : store) : Prop := forall id, opt_inv (st id).

Lemma new_job_inv now t ttl : job_inv (new_job now t ttl).
Proof. cbn. auto. Qed.

Lemma job_inv_not_done j : job_inv j -> j_done j = false -> j_error j = None /\ j_result j = None.
Proof.
  unfold job_inv. intros H D. destruct (j_phase j).
  1, 2: destruct H as (_ & Er & Rs); split; assumption.
  (* the four finished phases have done = true *)
  all: destruct H as [H _]; congruence.
Qed.

Lemma job_inv_finished_ok j :
  job_inv j -> j_done j = true -> truthy (get_or (j_error j) VNone) = false -> j_phase j = FinishedOK.
Proof.
  unfold job_inv. intros H D T. destruct (j_phase j).
  - destruct H as [H _]. congruence.
  - destruct H as [H _]. congruence.
  - reflexivity.
  - destruct H as (_ & e & Er & Te). rewrite Er in T. cbn [get_or] in T. congruence.
  - destruct H as [_ Er]. rewrite Er in T. discriminate T.
  - destruct H as [_ Er]. rewrite Er in T. discriminate T.
Qed.

Lemma mark_finished_inv j r e ttl ph :
  job_inv j ->
  (j_done j = false ->
   match ph with
   | Queued | Running => False
   | FinishedOK => exists x, e = Some x /\ truthy x = false
   | FinishedErr => exists x, e = Some x /\ truthy x = true
   | Killed => e = Some (VStr k_killed)
   | TimedOut => e = Some (VStr k_timeout)
   end) ->
  job_inv (mark_finished j r e ttl ph).
Proof.
  intros Hj H. unfold mark_finished. destruct (j_done j) eqn:D; [exact Hj|].
  specialize (H eq_refl). unfold job_inv. cbn.
  destruct ph; try contradiction; auto.
Qed.

(* the records built by Pull / SetInfo / DropMark / dropdead copy phase, done, error and result, so job_inv of the
   new record is job_inv of the old one by computation *)
Lemma step_inv now o e : opt_inv o -> match step now o e with inr o' => opt_inv o' | inl _ => True end.
Proof.
  intros H. destruct e as [tmo ttl| |info|res err| | |], o as [j|]; cbn [step opt_inv] in *; try exact I.
  - (* Push on a registered id: a new object only over a killed one *)
    destruct (j_error j) as [v|]; [|exact H]. destruct (pyval_is_str v k_killed); [apply new_job_inv|exact H].
  - (* Push on a free id *)
    apply new_job_inv.
  - (* Pull *)
    destruct (j_done j) eqn:D; [exact H|]. destruct (job_inv_not_done j H D) as [Er Rs]. unfold job_inv. cbn. auto.
  - (* SetInfo *)
    exact H.
  - (* Finish *)
    apply mark_finished_inv; [exact H|]. intros _. destruct (truthy err) eqn:E; eauto.
  - (* Kill *)
    apply mark_finished_inv; [exact H|]. reflexivity.
  - (* DropMark *)
    exact H.
  - (* Wait *)
    destruct (j_done j && j_drop j); [exact I|exact H].
Qed.

Lemma tick_inv now j : job_inv j -> job_inv (tick now j).
Proof.
  intros H. unfold tick. destruct (negb (j_done j) && (j_timeout j <=? now)%Z); [|exact H].
  apply mark_finished_inv; [exact H|]. reflexivity.
Qed.

Lemma dropdead_inv now j : job_inv j -> opt_inv (dropdead now j).
Proof.
  intros H. unfold dropdead. destruct (j_deadline j) as [d|].
  - destruct (negb (d =? 0)%Z && (d <? now)%Z); [exact I|]. destruct (j_done j && (d =? 0)%Z); exact H.
  - set (b := j_done j) at 1. destruct b; exact H.
Qed.

Lemma apply_op_inv st o : store_inv st -> store_inv (apply_op st o).
Proof.
  intros H id. destruct o as [now id0 e|now|now]; cbn [apply_op].
  - pose proof (step_inv now (st id0) e (H id0)) as S.
    destruct (step now (st id0) e) as [u|o']; [apply H|].
    unfold upd. destruct (str_eqb id id0); [exact S|apply H].
  - specialize (H id). destruct (st id) as [j|]; [apply tick_inv; exact H|exact I].
  - specialize (H id). destruct (st id) as [j|]; [apply dropdead_inv; exact H|exact I].
Qed.

Lemma run_inv_from ops : forall st, store_inv st -> store_inv (fold_left apply_op ops st).
Proof.
  induction ops as [|o ops IH]; intros st H; cbn; [exact H|]. apply IH, apply_op_inv, H.
Qed.

Lemma run_inv ops id j : run ops id = Some j -> job_inv j.
Proof.
  intros E. pose proof (run_inv_from ops empty_store (fun _ => I) id) as H.
  fold (run ops) in H. rewrite E in H. exact H.
Qed.

Definition phase_of (o : option job) : option phase := option_map j_phase o.

Lemma r_done_snap j : r_done (Some (snap_of j)) = j_done j.
Proof. unfold r_done. cbn. destruct (j_done j); reflexivity. Qed.

Lemma r_error_snap j : r_error (Some (snap_of j)) = get_or (j_error j) VNone.
Proof. reflexivity. Qed.

(* the answer for a registered job, by its error and done fields *)
Lemma job_status nfkd j m w :
  known w ->
  let r := Some (snap_of j) in
  if truthy (get_or (j_error j) VNone) then status nfkd r m w = Failed (get_or (j_error j) VNone)
  else if j_done j then
    (exists mo, status nfkd r m w = Finished mo) \/ (exists e, status nfkd r m w = Crash e /\ ~ wf_result r)
  else status nfkd r m w = Progress (progress_status r m).
Proof.
  intros K. pose proof (status_cases nfkd (Some (snap_of j)) m w K) as S. rewrite r_done_snap in S. exact S.
Qed.

(* the answer by the ghost phase of the render job, over every history of C19's own life-cycle model *)
Lemma reachable_status : forall nfkd ops c w,
  known w ->
  let st := run ops in
  let resp := do_render_status nfkd (qinfo_of st) c w in
  let rs := qinfo_of st (render_jobid c w) in
  match st (render_jobid c w) with
  | None => resp = Progress (progress_status rs (qinfo_of st (makezip_jobid c)))
  | Some j =>
      match j_phase j with
      | Queued | Running => resp = Progress (progress_status rs (qinfo_of st (makezip_jobid c)))
      | FinishedOK => (exists m, resp = Finished m) \/ (exists e, resp = Crash e /\ ~ wf_result rs)
      | FinishedErr => exists e, resp = Failed e /\ j_error j = Some e /\ truthy e = true
      | Killed => resp = Failed (VStr k_killed)
      | TimedOut => resp = Failed (VStr k_timeout)
      end
  end.
Proof.
  intros nfkd ops c w K st resp rs. unfold resp, rs, do_render_status, qinfo_of.
  destruct (st (render_jobid c w)) as [j|] eqn:E; cbn [option_map]; [|exact (status_cases nfkd None _ w K)].
  pose proof (job_status nfkd j (option_map snap_of (st (makezip_jobid c))) w K) as S. cbv zeta in S.
  pose proof (run_inv ops _ _ E) as I. unfold job_inv in I.
  destruct (j_phase j).
  - destruct I as (D & Er & _). rewrite Er, D in S. exact S.
  - destruct I as (D & Er & _). rewrite Er, D in S. exact S.
  - destruct I as (D & e & Er & T). rewrite Er, D in S. cbn [get_or] in S. rewrite T in S. exact S.
  - destruct I as (D & e & Er & T). rewrite Er in S. cbn [get_or] in S. rewrite T in S. eauto.
  - destruct I as (D & Er). rewrite Er in S. exact S.
  - destruct I as (D & Er). rewrite Er in S. exact S.
Qed.

Lemma run_snoc ops o : run (ops ++ [o]) = apply_op (run ops) o.
Proof. unfold run. rewrite fold_left_app. reflexivity. Qed.

Lemma apply_onjob_other st now id e id' : id' <> id -> apply_op st (OnJob now id e) id' = st id'.
Proof.
  intros N. unfold apply_op. destruct (step now (st id) e) as [u|o]; [reflexivity|].
  unfold upd. apply str_eqb_false in N. rewrite N. reflexivity.
Qed.

(* an event addressed to one job leaves the fetch job or the render job of a collection as it was *)
Lemma onjob_keeps_one ops now id e c w :
  let q1 := qinfo_of (run ops) in
  let q2 := qinfo_of (run (ops ++ [OnJob now id e])) in
  q2 (makezip_jobid c) = q1 (makezip_jobid c) \/ q2 (render_jobid c w) = q1 (render_jobid c w).
Proof.
  intros q1 q2. unfold q1, q2, qinfo_of. rewrite run_snoc.
  destruct (str_eqb (makezip_jobid c) id) eqn:E.
  - right. apply str_eqb_spec in E. subst id. rewrite apply_onjob_other; [reflexivity|apply render_ne_makezip].
  - left. apply str_eqb_false in E. rewrite apply_onjob_other; [reflexivity|exact E].
Qed.

Lemma run_onjob ops now id e j o :
  run ops id = Some j -> step now (Some j) e = inr o -> run (ops ++ [OnJob now id e]) id = o.
Proof.
  intros E S. rewrite run_snoc. cbn [apply_op]. rewrite E, S. unfold upd. rewrite str_eqb_refl. reflexivity.
Qed.

Lemma mark_finished_error j r e ttl ph : j_done j = false -> j_error (mark_finished j r e ttl ph) = e.
Proof. unfold mark_finished. intros ->. reflexivity. Qed.

(* how an error outcome gets there in C19's own life-cycle model: once an op has marked the render job, not done
   before, finished with a truthy error, the status is `failed` with that error *)
Lemma status_marked_failed nfkd st c w j r e ttl ph :
  known w -> j_done j = false -> truthy e = true ->
  st (render_jobid c w) = Some (mark_finished j r (Some e) ttl ph) ->
  do_render_status nfkd (qinfo_of st) c w = Failed e.
Proof.
  intros K D T E. unfold do_render_status, qinfo_of at 1. rewrite E. cbn [option_map].
  pose proof (job_status nfkd (mark_finished j r (Some e) ttl ph) (qinfo_of st (makezip_jobid c)) w K) as S.
  cbv zeta in S. rewrite (mark_finished_error j r (Some e) ttl ph D) in S. cbn [get_or] in S. rewrite T in S. exact S.
Qed.

Definition token_char (c : N) : bool := alnum c || (c =? 46)%N || (c =? 45)%N || (c =? 43)%N || (c =? 95)%N.
Definition ctype_char (c : N) : bool := token_char c || (c =? 47)%N.

Definition writer_ok (r : str * (str * str)) : bool :=
  let '(n, (ext, ct)) := r in
  negb (is_nil n) && negb (is_nil ext) && negb (is_nil ct)
  && forallb token_char n && forallb token_char ext && forallb ctype_char ct.

Lemma writer_ok_spec n ext ct :
  writer_ok (n, (ext, ct)) = true ->
  n <> [] /\ ext <> [] /\ ct <> [] /\
  Forall (fun c => token_char c = true) n /\ Forall (fun c => token_char c = true) ext /\
  Forall (fun c => ctype_char c = true) ct.
Proof.
  unfold writer_ok. rewrite !andb_true_iff, !forallb_forall, <- !Forall_forall.
  intros (((((Hn & He) & Hc) & Tn) & Te) & Tc).
  repeat split; try assumption; intros ->; discriminate.
Qed.

Lemma writers_ok : forallb writer_ok writers = true.
Proof. vm_compute. reflexivity. Qed.
