(* C19 — invariants of the C16 queue model (coq/C16/Model.v: qs.jobs.workq + QPlugin + connection life cycle under
   gevent scheduling) that the status command relies on, proved for EVERY op of that model -- Drop (dropjobs),
   Watchdog (dropdead), Advance, Disconnect, RunLoop included; C16's own `Inv` carries `inv_err` only for histories
   without Drop.  Stated on the job table alone, so no other invariant is needed; which helpers of the model leave the
   job table alone is taken from C16/Proofs.v.  At the end: what one Finish or Kill step writes into a job that is not
   done. *)
From Coq Require Import List NArith Bool.
From MW Require Import C16.Model.
From MW Require C16.Proofs.
Import ListNotations.
Open Scope N_scope.

Lemma invariant_reachable : forall (P : state -> Prop),
  (forall s o, P s -> P (fst (step s o))) -> forall h s, P s -> P (run h s).
Proof. exact C16.Proofs.invariant_reachable. Qed.

Lemma preenall_jobs : forall s, s_jobs (preenall s) = s_jobs s.
Proof. reflexivity. Qed.

Lemma mark_ids : forall x u s, s_ids (mark_finished x u s) = s_ids s.
Proof.
  intros x u s. unfold mark_finished. destruct (getjob (s_jobs s) x) as [j|]; [|reflexivity].
  destruct (j_done j); reflexivity.
Qed.

(* a job object that is not done has neither an error nor a result (jobs.py: both are class-level None until
   _mark_finished assigns them together with done = True) *)
Definition FD (s : state) : Prop :=
  forall j, In j (s_jobs s) -> j_done j = false -> j_err j = ENone /\ j_res j = None.

Lemma fd_same : forall s s', s_jobs s' = s_jobs s -> FD s -> FD s'.
Proof. intros s s' E H j. rewrite E. apply H. Qed.

Lemma fd_jobs : forall js s s', s_jobs s' = js -> s_jobs s = js -> FD s -> FD s'.
Proof. intros js s s' E1 E2. apply fd_same. congruence. Qed.

(* rewriting one object by a function that keeps (or sets) done, or keeps err/res *)
Lemma fd_setjob : forall s s' ser f,
  s_jobs s' = setjob ser f (s_jobs s) ->
  (forall j, j_done (f j) = true \/ (j_done (f j) = j_done j /\ j_err (f j) = j_err j /\ j_res (f j) = j_res j)) ->
  FD s -> FD s'.
Proof.
  intros s s' ser f E Hf H j Hin D. rewrite E in Hin. unfold setjob in Hin. apply in_map_iff in Hin.
  destruct Hin as (j0 & He & Hin). destruct (j_serial j0 =? ser).
  - subst j. destruct (Hf j0) as [Ht|(Hd & Herr & Hres)]; [congruence|].
    rewrite Herr, Hres. apply H; [exact Hin|congruence].
  - subst j. apply H; assumption.
Qed.

Lemma fd_mark : forall x u s, FD s -> FD (mark_finished x u s).
Proof.
  intros x u s H. unfold mark_finished. destruct (getjob (s_jobs s) x) as [j|] eqn:E; [|exact H].
  destruct (j_done j) eqn:D; [exact H|].
  eapply fd_setjob; [| |exact H].
  - cbn [s_jobs set_cnt set_hub set_jobs]. reflexivity.
  - intro j0. left. reflexivity.
Qed.

Lemma fd_killjobs : forall js s, FD s -> FD (killjobs js s).
Proof.
  induction js as [|i r IH]; intros s H; cbn [killjobs]; [exact H|].
  destruct (id_lookup (s_ids s) i); apply IH; [apply fd_mark|]; exact H.
Qed.

Lemma fd_timeouts : forall q s, FD s -> FD (timeouts_loop q s).
Proof.
  induction q as [|x r IH]; intros s H; cbn [timeouts_loop]; [exact H|].
  destruct (is_done (s_jobs s) (snd (snd x))); [apply IH; exact H|].
  destruct (s_now s <? fst x); [exact H|]. apply IH, fd_mark, H.
Qed.

Lemma fd_dropjobs : forall js s, FD s -> FD (dropjobs js s).
Proof.
  induction js as [|i r IH]; intros s H; cbn [dropjobs]; [exact H|].
  destruct (id_lookup (s_ids s) i) as [ser|]; [|apply IH; exact H]. apply IH.
  eapply fd_setjob; [reflexivity| |exact H]. intro j. right. cbn. auto.
Qed.

Lemma fd_dropdead : forall l s, FD s -> FD (dropdead_loop l s).
Proof.
  induction l as [|i r IH]; intros s H; cbn [dropdead_loop]; [exact H|].
  destruct (id_lookup (s_ids s) i) as [ser|]; [|apply IH; exact H].
  destruct (getjob (s_jobs s) ser) as [j|]; [|apply IH; exact H]. cbv zeta. apply IH.
  assert (H1 : forall expired : bool, FD (if expired then set_ids (id_del (s_ids s) i) s else s))
    by (intros []; exact H).
  destruct (j_done j && negb (dl_truthy (j_dl j))); [|apply H1].
  eapply fd_setjob; [reflexivity| |apply H1]. intro j0. right. cbn. auto.
Qed.

Lemma fd_push_fresh : forall s, FD s -> forall j0 ser c, j_err j0 = ENone -> j_res j0 = None ->
  FD (pushjob ser (set_jobs (j0 :: s_jobs s) (set_count c s))).
Proof.
  intros s H j0 ser c He Hr. eapply fd_same; [exact (proj1 (C16.Proofs.pushjob_jobs _ _))|].
  intros j [Hj|Hj] D; [subst j; auto|apply H; assumption].
Qed.

(* the ops that only move jobs between queues, connections and the event hub *)
Definition keeps_jobs (o : op) : bool :=
  match o with
  | StartPull _ _ | RunLoop | Disconnect _ | Choice _ | Wait _ _ | Info _ | Stats | Advance _ => true
  | _ => false
  end.

Lemma step_keeps_jobs : forall s o, keeps_jobs o = true -> s_jobs (fst (step s o)) = s_jobs s.
Proof.
  intros s o F. destruct o as [ch prio name tmo|c chs| |c i res e|c js|dt|c|k|c i|i|i v| |dt|js|];
    try discriminate F; cbn [step]; try reflexivity.
  - (* StartPull *)
    destruct (is_idle c s); [apply C16.Proofs.pop_jobs|reflexivity].
  - (* RunLoop *)
    rewrite C16.Proofs.run_events_jobs. reflexivity.
  - (* Disconnect *)
    destruct (c_st (get_conn (s_conns s) c)); reflexivity.
  - (* Wait *)
    destruct (is_idle c s); [|reflexivity]. destruct (id_lookup (s_ids s) i) as [ser|]; [|reflexivity].
    destruct (getjob (s_jobs s) ser) as [j|]; [|reflexivity]. destruct (j_done j); [|reflexivity].
    cbn [fst]. destruct (_ && _); reflexivity.
Qed.

(* every op of the queue model keeps FD: the others push a fresh job (Add), mark a job finished (Finish, Kill, Tick)
   or rewrite fields other than done/err/res (SetInfo, Drop, Watchdog) *)
Lemma step_fd : forall s o, FD s -> FD (fst (step s o)).
Proof.
  intros s o H. destruct (keeps_jobs o) eqn:F; [exact (fd_same _ _ (step_keeps_jobs s o F) H)|].
  destruct o as [ch prio name tmo|c chs| |c i res e|c js|dt|c|k|c i|i|i v| |dt|js|]; try discriminate F; cbn [step].
  - (* Add *)
    pose proof (fd_push_fresh s H) as N. unfold push. destruct name as [n|]; [|apply N; reflexivity].
    destruct (id_lookup (s_ids s) (JName n)) as [ser|]; [|apply N; reflexivity].
    destruct (getjob (s_jobs s) ser) as [j0|]; [|apply N; reflexivity].
    destruct (err_is_killed (j_err j0)); [apply N; reflexivity|exact H].
  - (* Finish *)
    destruct (is_idle c s); [|exact H]. destruct (id_lookup (s_ids s) i); [|exact H]. cbn [fst].
    exact (fd_mark _ _ _ H).
  - (* Kill *)
    destruct (is_idle c s); [|exact H]. cbn [fst]. exact (fd_killjobs _ _ H).
  - (* Tick *)
    cbn [fst]. unfold handletimeouts. apply (fd_same _ _ (preenall_jobs _)), fd_timeouts. exact H.
  - (* SetInfo *)
    destruct (id_lookup (s_ids s) i) as [ser|]; [|exact H]. cbn [fst].
    eapply fd_setjob; [reflexivity| |exact H]. intro j. right. cbn. auto.
  - (* Drop *)
    cbn [fst]. apply fd_dropjobs. exact H.
  - (* Watchdog *)
    cbn [fst]. unfold dropdead. apply fd_dropdead. exact H.
Qed.

Lemma fd_init : FD init.
Proof. intros j []. Qed.

Lemma run_fd : forall h, FD (run h init).
Proof. intro h. apply (invariant_reachable FD); [intros s o; apply step_fd|apply fd_init]. Qed.

Lemma getjob_In : forall js x j, getjob js x = Some j -> In j js.
Proof.
  induction js as [|z r IH]; intros x j H; [discriminate|]. cbn [getjob] in H.
  destruct (j_serial z =? x); [inversion H; left; reflexivity|right; eapply IH; eauto].
Qed.

(* the job object registered under an id (what rpc_qinfo serves: qserve.py:74-78) *)
Definition job_at (s : state) (i : jid) : option job :=
  match id_lookup (s_ids s) i with Some ser => getjob (s_jobs s) ser | None => None end.

Lemma job_at_In : forall s i j, job_at s i = Some j -> In j (s_jobs s).
Proof.
  intros s i j. unfold job_at. destruct (id_lookup (s_ids s) i) as [ser|]; [apply getjob_In|discriminate].
Qed.

(* `error is not None -> done`, and `result is not None -> done`, in every reachable state of the queue model *)
Lemma reachable_error_done : forall h i j,
  job_at (run h init) i = Some j -> (j_err j <> ENone \/ j_res j <> None) -> j_done j = true.
Proof.
  intros h i j E Hne. destruct (j_done j) eqn:D; [reflexivity|].
  destruct (run_fd h j (job_at_In _ _ _ E) D) as [He Hr]. destruct Hne; congruence.
Qed.

(* single steps: what finishing and killing write into a job that is not done yet *)
Lemma mark_finished_fields : forall ser u s j, getjob (s_jobs s) ser = Some j -> j_done j = false ->
  exists j', getjob (s_jobs (mark_finished ser u s)) ser = Some j' /\
             j_done j' = true /\ j_err j' = j_err (u j) /\ j_res j' = j_res (u j) /\ j_info j' = j_info j /\ j_id j' = j_id j.
Proof.
  intros ser u s j E D. unfold mark_finished. rewrite E, D. cbn [s_jobs set_cnt set_hub set_jobs].
  rewrite C16.Proofs.getjob_setjob, N.eqb_refl, E by (intros _ _; exact (C16.Proofs.getjob_serial _ _ _ E)).
  eexists. split; [reflexivity|]. cbn. repeat split.
Qed.

Lemma job_at_mark : forall u s i j,
  job_at s i = Some j -> j_done j = false ->
  exists ser, id_lookup (s_ids s) i = Some ser /\
  exists j', job_at (mark_finished ser u s) i = Some j' /\ j_done j' = true /\
             j_err j' = j_err (u j) /\ j_res j' = j_res (u j) /\ j_info j' = j_info j.
Proof.
  intros u s i j. unfold job_at. intros E D. destruct (id_lookup (s_ids s) i) as [ser|] eqn:L; [|discriminate].
  exists ser. split; [reflexivity|].
  destruct (mark_finished_fields ser u s j E D) as (j' & G & H1 & H2 & H3 & H4 & _).
  exists j'. rewrite mark_ids, L. auto.
Qed.

(* rpc_qfinish by an idle connection on a job that is not done: the job object carries exactly that outcome *)
Lemma finish_step : forall s cn i res e j,
  is_idle cn s = true -> job_at s i = Some j -> j_done j = false ->
  exists j', job_at (fst (step s (Finish cn i res e))) i = Some j' /\
             j_done j' = true /\ j_err j' = e /\ j_res j' = res /\ j_info j' = j_info j.
Proof.
  intros s cn i res e j I E D. cbn [step]. rewrite I.
  destruct (job_at_mark (fun j0 => upd_finish res e (if err_truthy e then N_min 10 (j_ttl j0) else j_ttl j0) j0) s i j E D)
    as (ser & L & j' & G & H).
  rewrite L. exists j'. split; [exact G|exact H].
Qed.

(* rpc_qkill of that one id *)
Lemma kill_step : forall s cn i j,
  is_idle cn s = true -> job_at s i = Some j -> j_done j = false ->
  exists j', job_at (fst (step s (Kill cn [i]))) i = Some j' /\
             j_done j' = true /\ j_err j' = e_killed /\ j_info j' = j_info j.
Proof.
  intros s cn i j I E D. cbn [step]. rewrite I. cbn [fst killjobs].
  destruct (job_at_mark (upd_err e_killed) s i j E D) as (ser & L & j' & G & H1 & H2 & _ & H4).
  rewrite L. exists j'. split; [exact G|]. split; [exact H1|]. split; [exact H2|exact H4].
Qed.

Lemma run_snoc : forall h o, run (h ++ [o]) init = fst (step (run h init) o).
Proof. intros h o. unfold run. rewrite fold_left_app. reflexivity. Qed.
