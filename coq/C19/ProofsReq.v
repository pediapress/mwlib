(* C19 — one status request whose qinfo reads see DIFFERENT queue states (other clients of the queue act between
   the RPCs of the request).  Definitions: ModelReq.v.

   What is proved here is about the REQUEST: which reads it makes, that its answer is a function of the snapshots it
   actually read, what a `finished` / `failed` / `progress` answer says about those snapshots, and when the answer
   coincides with the atomic answer (Model.do_render_status) on one of the states.  Whether the snapshots a request
   reads are mutually consistent is not a property of nserve: the harness (vt/harness/c19_impl.py, op "istatus")
   injects queue events between the reads of one request of the real code and judges the answer against the states
   the jobs had during the request. *)
From Coq Require Import List NArith ZArith Bool.
From MW Require Import Common.Str C19.Gen_writers C19.Model C19.ModelReq C19.Proofs C19.ProofsCD C19.ProofsLife.
Import ListNotations.

(* the states qs answer the reads of trace tr: the i-th state maps the i-th id asked to the i-th snapshot read *)
Fixpoint answers (qs : list (str -> option snap)) (tr : list (str * option snap)) {struct tr} : Prop :=
  match tr with
  | [] => True
  | (id, s) :: tr' =>
      match qs with
      | [] => False
      | q :: qs' => q id = s /\ answers qs' tr'
      end
  end.

Lemma exec_answers r : forall qs x tr, exec r qs = Some (x, tr) -> answers qs tr.
Proof.
  induction r as [x0|id k IH]; intros qs x tr H; cbn in H.
  - injection H as _ <-. exact I.
  - destruct qs as [|q qs']; [discriminate|].
    destruct (exec (k (q id)) qs') as [[x1 tr1]|] eqn:E; [|discriminate].
    injection H as _ <-. cbn. split; [reflexivity|]. exact (IH _ _ _ _ E).
Qed.

(* the response (and the reads) of a request are a function of the snapshots it actually read: any other sequence of
   queue states that answers the same reads in the same way gives the same response and the same trace *)
Lemma exec_function_of_reads r : forall qs qs' x tr,
  exec r qs = Some (x, tr) -> answers qs' tr -> exec r qs' = Some (x, tr).
Proof.
  induction r as [x0|id k IH]; intros qs qs' x tr H A; cbn in H.
  - injection H as <- <-. reflexivity.
  - destruct qs as [|q qs1]; [discriminate|].
    destruct (exec (k (q id)) qs1) as [[x1 tr1]|] eqn:E; [|discriminate].
    injection H as <- <-. cbn in A. destruct qs' as [|q' qs1']; [contradiction|].
    destruct A as [A1 A2]. cbn. rewrite A1. rewrite (IH _ _ _ _ _ E A2). reflexivity.
Qed.

Section Req.
  Variable nfkd : str -> str.

  (* the request reads the render job, then the fetch job if the render job shows neither error, nor done, nor
     info; its answer is Model.status applied to the render snapshot of the FIRST state and the fetch snapshot of
     the SECOND *)
  Lemma status_req_run c w q1 q2 qs :
    let r := q1 (render_jobid c w) in
    let m := q2 (makezip_jobid c) in
    exec (status_req nfkd c w) (q1 :: q2 :: qs) =
      Some (status nfkd r m w,
            match assoc w writers with
            | None => []
            | Some _ => (render_jobid c w, r) ::
                        if truthy (r_error r) || r_done r || truthy (r_info r) then [] else [(makezip_jobid c, m)]
            end).
  Proof.
    unfold status_req, status, r_error, r_done, r_info.
    destruct (assoc w writers) as [[ext ctype]|]; [|reflexivity]. cbn [exec].
    destruct (truthy (get_or (s_error (or_empty (q1 (render_jobid c w)))) VNone)); [reflexivity|].
    destruct (truthy (get_or (s_done (or_empty (q1 (render_jobid c w)))) (VBool false))); [reflexivity|].
    destruct (truthy (get_or (s_info (or_empty (q1 (render_jobid c w)))) (VDict []))); [reflexivity|]. cbn [negb exec].
    destruct (truthy (get_or (s_done (or_empty (q2 (makezip_jobid c)))) (VBool false))); reflexivity.
  Qed.

  Lemma status_req_answer c w q1 q2 qs x tr :
    exec (status_req nfkd c w) (q1 :: q2 :: qs) = Some (x, tr) ->
    x = status nfkd (q1 (render_jobid c w)) (q2 (makezip_jobid c)) w.
  Proof.
    intros H. pose proof (status_req_run c w q1 q2 qs) as R. cbv zeta in R. rewrite H in R.
    exact (f_equal (fun o => match o with Some (y, _) => y | None => x end) R).
  Qed.

  (* a request that completes on its first read gives the same answer and trace whatever states follow: the fetch
     job does not matter to it *)
  Lemma status_req_exec1 c w q1 x tr :
    exec (status_req nfkd c w) [q1] = Some (x, tr) ->
    forall q2 qs, exec (status_req nfkd c w) (q1 :: q2 :: qs) = Some (x, tr).
  Proof.
    intros H q2 qs. apply (exec_function_of_reads _ _ _ _ _ H).
    pose proof (exec_answers _ _ _ _ H) as A.
    destruct tr as [|[id s] tr]; [exact I|]. cbn in A. destruct A as [A1 A2]. cbn. split; [exact A1|].
    destruct tr as [|[id' s'] tr']; [exact I|contradiction].
  Qed.

  (* between the reads, only OTHER jobs changed: the answer is the atomic one on the state that saw both jobs as
     the request did *)
  Lemma status_req_atomic_first c w q1 q2 qs :
    q2 (makezip_jobid c) = q1 (makezip_jobid c) ->
    exists tr, exec (status_req nfkd c w) (q1 :: q2 :: qs) = Some (do_render_status nfkd q1 c w, tr).
  Proof. intros E. eexists. rewrite status_req_run, E. reflexivity. Qed.

  Lemma status_req_atomic_second c w q1 q2 qs :
    q2 (render_jobid c w) = q1 (render_jobid c w) ->
    exists tr, exec (status_req nfkd c w) (q1 :: q2 :: qs) = Some (do_render_status nfkd q2 c w, tr).
  Proof. intros E. eexists. rewrite status_req_run. unfold do_render_status. rewrite E. reflexivity. Qed.

  (* the answer does not depend on the fetch job unless the render job has neither error, nor done, nor info *)
  Lemma status_indep_makezip r m m' w :
    truthy (r_error r) = true \/ r_done r = true \/ truthy (r_info r) = true ->
    status nfkd r m w = status nfkd r m' w.
  Proof.
    intros H. rewrite !status_eq. destruct (assoc w writers) as [[ext ctype]|]; [|reflexivity].
    destruct (truthy (r_error r)); [reflexivity|]. destruct (r_done r); [reflexivity|].
    destruct H as [H|[H|H]]; try discriminate H. unfold progress_status. rewrite H. reflexivity.
  Qed.

  (* whatever happens to the queue between the reads: a `finished` answer was derived from ONE read, the read of the
     render job of that writer, and the snapshot read had done and no (truthy) error; the answer is the atomic answer
     on the state of the first read *)
  Lemma interleaved_finished_only_if c w q1 q2 qs mo tr :
    exec (status_req nfkd c w) (q1 :: q2 :: qs) = Some (Finished mo, tr) ->
    known w /\
    (exists s, q1 (render_jobid c w) = Some s /\ tr = [(render_jobid c w, Some s)]) /\
    r_done (q1 (render_jobid c w)) = true /\ truthy (r_error (q1 (render_jobid c w))) = false /\
    do_render_status nfkd q1 c w = Finished mo.
  Proof.
    intros H. pose proof (status_req_answer _ _ _ _ _ _ _ H) as S. symmetry in S.
    destruct (status_finished_only_if nfkd _ _ _ _ S) as (K & D & E & s & Es).
    split; [exact K|]. split; [|split; [exact D|split; [exact E|]]].
    - (* done, so no second read *)
      exists s. split; [exact Es|]. destruct (known_writer w K) as (ext & ctype & W).
      rewrite status_req_run, W, D, orb_true_r, Es in H. injection H as _ <-. reflexivity.
    - unfold do_render_status. rewrite <- S. apply status_indep_makezip. right; left; exact D.
  Qed.

  (* the scenario of seeded/C19-6, in the model: the render job is running without info when it is read, it is
     then finished with an error / killed / timed out (or anything else: ops1 is arbitrary) before the fetch job is
     read: the model's answer is `progress`, never `finished` *)
  Lemma interleaved_running_progress ops0 ops1 c w j qs :
    known w -> run ops0 (render_jobid c w) = Some j -> j_done j = false ->
    exists st tr, exec (status_req nfkd c w) (qinfo_of (run ops0) :: qinfo_of (run (ops0 ++ ops1)) :: qs) = Some (Progress st, tr).
  Proof.
    intros K E D. destruct (job_inv_not_done j (run_inv ops0 _ _ E) D) as [Er _].
    pose proof (fun m => job_status nfkd j m w K) as S. cbv zeta in S. rewrite Er, D in S.
    eexists. eexists. rewrite status_req_run. cbv zeta. unfold qinfo_of at 1. rewrite E. cbn [option_map].
    rewrite S. reflexivity.
  Qed.
End Req.

(* non-vacuity / the scenario of seeded/C19-6 as a computation: fetch done, render job pulled (no info), status request reads the
   render job, THEN the worker reports an error, then the request reads the fetch job: `progress` with the fixed text *)
Definition ex_c : str := [48;49]%N.
Definition ex_w : str := [114;108]%N.
Definition ex_ops0 : list op :=
  [OnJob 0 (makezip_jobid ex_c) (Push 1200 None); OnJob 0 (render_jobid ex_c ex_w) (Push 1200 None);
   OnJob 1 (makezip_jobid ex_c) Pull; OnJob 2 (makezip_jobid ex_c) (Finish VNone VNone); OnJob 3 (render_jobid ex_c ex_w) Pull].
Definition ex_ops1 : list op := [OnJob 4 (render_jobid ex_c ex_w) (Finish VNone (VStr [98;111;111;109]%N))].
