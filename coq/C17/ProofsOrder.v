(* C17 — priority/FIFO order: channel queues stay sorted by (priority, serial) (the heap-as-sorted-list
   contract of Model.v), after _preenall every queue head is unfinished, and therefore a non-blocking pull
   returns the (priority, serial)-minimum among the unfinished queued jobs of the requested channels. *)
From Coq Require Import List NArith Bool Lia Arith Sorted.
From MW Require Import C16.Model C16.Proofs C17.Proofs.
Import ListNotations.
Open Scope N_scope.

Definition key_le (a b : qkey) : Prop := key_lt b a = false.

(* Both orders are lexicographic on N; once the Boolean tests are read as (in)equalities every
   fact about them is linear arithmetic. *)
Lemma key_lt_iff : forall a b, key_lt a b = true <->
  fst a < fst b \/ (fst a = fst b /\ snd a < snd b).
Proof.
  intros a b. unfold key_lt.
  rewrite orb_true_iff, andb_true_iff, !N.ltb_lt, N.eqb_eq. reflexivity.
Qed.

Lemma key_le_iff : forall a b, key_le a b <->
  fst a < fst b \/ (fst a = fst b /\ snd a <= snd b).
Proof. intros a b. unfold key_le. rewrite <- not_true_iff_false, key_lt_iff. lia. Qed.

Ltac key_cases := rewrite ?key_le_iff, ?key_lt_iff in *; cbn [fst snd] in *; lia.

Lemma key_le_trans : forall a b c, key_le a b -> key_le b c -> key_le a c.
Proof. intros [a1 a2] [b1 b2] [c1 c2] H1 H2. key_cases. Qed.

Lemma key_lt_le : forall a b, key_lt a b = true -> key_le a b.
Proof. intros [a1 a2] [b1 b2] H. key_cases. Qed.

Lemma key_le_refl : forall a, key_le a a.
Proof. intros [a1 a2]. key_cases. Qed.

Definition sorted (q : list qkey) : Prop := StronglySorted key_le q.

Lemma sorted_tl : forall q, sorted q -> sorted (tl q).
Proof. intros [|x r] H; [exact H|]. inversion H; assumption. Qed.

Lemma sorted_head_le : forall x r y, sorted (x :: r) -> In y (x :: r) -> key_le x y.
Proof.
  intros x r y H [Hy|Hy]; [subst; apply key_le_refl|].
  inversion H as [|? ? _ HF]; subst. rewrite Forall_forall in HF. apply HF. exact Hy.
Qed.

Lemma ins_forall : forall a x q, key_le a x -> Forall (key_le a) q -> Forall (key_le a) (ins x q).
Proof.
  intros a x q Hx HF. apply Forall_forall. intros y Hy. apply ins_In in Hy. destruct Hy as [Hy|Hy]; [subst; exact Hx|].
  rewrite Forall_forall in HF. apply HF. exact Hy.
Qed.

Lemma sorted_ins : forall x q, sorted q -> sorted (ins x q).
Proof.
  intros x q. induction q as [|y r IH]; intro H; cbn [ins].
  - constructor; constructor.
  - inversion H as [|? ? Hr HF]; subst. destruct (key_lt x y) eqn:E.
    + constructor; [exact H|]. constructor; [apply key_lt_le; exact E|].
      eapply Forall_impl; [|exact HF]. intros z Hz. eapply key_le_trans; [apply key_lt_le; exact E|exact Hz].
    + constructor; [apply IH; exact Hr|]. apply ins_forall; [exact E|exact HF].
Qed.

Lemma sorted_preen : forall js q, sorted q -> sorted (preen js q).
Proof.
  intros js q. induction q as [|x r IH]; intro H; cbn [preen]; [exact H|].
  destruct (is_done js (snd x)); [|exact H]. apply IH. inversion H; assumption.
Qed.

(* an unfinished entry is never skimmed off *)
Lemma preen_keeps : forall js q e, In e q -> is_done js (snd e) = false -> In e (preen js q).
Proof.
  intros js q e. induction q as [|x r IH]; intros Hin D; cbn [preen]; [exact Hin|].
  destruct (is_done js (snd x)) eqn:Dx; [|exact Hin].
  destruct Hin as [Hx|Hr]; [subst; congruence|]. apply IH; assumption.
Qed.

Definition QS (s : state) : Prop := forall k q, In (k, q) (s_queues s) -> sorted q.

Lemma qs_same : forall s s', s_queues s' = s_queues s -> QS s -> QS s'.
Proof. intros s s' H Q k q Hin. rewrite H in Hin. exact (Q k q Hin). Qed.

Lemma qs_qget : forall s k q, QS s -> q_get (s_queues s) k = Some q -> sorted q.
Proof. intros s k q Q H. apply (Q k q). apply q_get_In. exact H. Qed.

Lemma qs_set : forall s k l, QS s -> sorted l -> QS (set_queues (q_set (s_queues s) k l) s).
Proof.
  intros s k l Q Hl k' q Hin. sf. apply q_set_In in Hin. destruct Hin as [[_ Hq]|Hin]; [subst; exact Hl|exact (Q _ _ Hin)].
Qed.

Lemma qs_preenall : forall s, QS s -> QS (preenall s).
Proof.
  intros s Q k q Hin. unfold preenall in Hin. sf. apply in_map_iff in Hin. destruct Hin as ([k0 q0]&He&Hin).
  cbn [fst snd] in He. inversion He; subst. apply sorted_preen. exact (Q _ _ Hin).
Qed.

Lemma qs_pushjob : forall x s, QS s -> QS (pushjob x s).
Proof.
  intros x s Q. unfold pushjob. destruct (getjob (s_jobs s) x) as [j|]; [|exact Q]. cbv zeta. sf.
  destruct (filter (watches (j_chan j)) (s_waiters s)) as [|a0 r].
  - sf. intros k q Hin. sf. apply q_set_In in Hin. destruct Hin as [[_ Hq]|Hin]; [|exact (Q _ _ Hin)].
    subst q. apply sorted_ins. destruct (q_get (s_queues s) (j_chan j)) as [q0|] eqn:E; [|constructor].
    apply (Q (j_chan j)). apply q_get_In. exact E.
  - eapply qs_same; [|exact Q]. reflexivity.
Qed.

Lemma deliver_queues : forall c chs x s, s_queues (fst (deliver c chs x s)) = s_queues s.
Proof. intros. unfold deliver. destruct (getjob (s_jobs s) x); reflexivity. Qed.

Lemma qs_pop : forall c chs s, QS s -> QS (fst (pop_or_block c chs s)).
Proof.
  intros c chs s Q. unfold pop_or_block. cbv zeta. pose proof (qs_preenall s Q) as Q1.
  destruct (heads (s_queues (preenall s)) _) as [x|]; [|eapply qs_same; [|exact Q1]; reflexivity].
  destruct (getjob (s_jobs (preenall s)) (snd x)) as [j|]; [|exact Q1].
  eapply qs_same; [apply deliver_queues|]. apply qs_set; [exact Q1|].
  apply sorted_tl. destruct (q_get (s_queues (preenall s)) (j_chan j)) as [q0|] eqn:E; [|constructor].
  eapply qs_qget; eauto.
Qed.

Lemma qs_shutdown : forall l s, QS s -> QS (shutdown_loop l s).
Proof.
  induction l as [|[i w] r IH]; intros s Q; cbn [shutdown_loop]; [exact Q|].
  destruct (is_done (s_jobs s) w); [apply IH; exact Q|]. apply IH. apply qs_pushjob. eapply qs_same; [|exact Q]. reflexivity.
Qed.

Lemma qs_die : forall c s, QS s -> QS (fst (die c s)).
Proof. intros c s Q. unfold die. cbv zeta. cbn [fst]. apply qs_shutdown. eapply qs_same; [|exact Q]. reflexivity. Qed.

Lemma qs_run_event : forall e s, QS s -> QS (fst (run_event e s)).
Proof.
  intros e s Q. destruct e as [c|c|ser]; cbn [run_event].
  - destruct (c_st (get_conn (s_conns s) c)) as [|chs [x|]|w|]; try exact Q.
    destruct (is_done (s_jobs s) x); [apply qs_pop; exact Q|eapply qs_same; [apply deliver_queues|exact Q]].
  - destruct (c_st (get_conn (s_conns s) c)) as [|chs mb|w|]; try exact Q; try (apply qs_die; exact Q).
    apply qs_die. destruct mb as [x|]; [|eapply qs_same; [|exact Q]; reflexivity].
    sf. destruct (is_done (s_jobs s) x); [eapply qs_same; [|exact Q]; reflexivity|].
    apply qs_pushjob. eapply qs_same; [|exact Q]. reflexivity.
  - destruct (release ser (s_jobs s) (s_conns s)) as [cs o]. destruct (getjob (s_jobs s) ser) as [j|]; [|exact Q].
    destruct (j_drop j && has_waiter ser (s_conns s) && id_is (s_ids s) (j_id j) ser); exact Q.
Qed.

Lemma qs_run_events : forall es s, QS s -> QS (fst (run_events es s)).
Proof.
  induction es as [|e r IH]; intros s Q; [exact Q|]. rewrite run_events_cons. apply IH, qs_run_event, Q.
Qed.

Lemma step_qs : forall s o, QS s -> QS (fst (step s o)).
Proof.
  intros s o Q. destruct o as [ch prio name tmo|c chs| |c i res e|c js|dt|c|k|c i|i|i v| |dt|js|]; cbn [step].
  - destruct (push_cases ch prio name tmo s) as [[n E]|(j0&i&_&_&_&E)]; rewrite E; cbn [fst]; [exact Q|].
    apply qs_pushjob. eapply qs_same; [|exact Q]. reflexivity.
  - destruct (is_idle c s); [apply qs_pop; exact Q|exact Q].
  - apply qs_run_events. eapply qs_same; [|exact Q]. reflexivity.
  - destruct (is_idle c s); [|exact Q]. destruct (id_lookup (s_ids s) i); [|exact Q]. cbn [fst].
    eapply qs_same; [|exact Q]. sf. apply mark_jstep.
  - destruct (is_idle c s); [|exact Q]. cbn [fst]. eapply qs_same; [|exact Q]. sf. apply killjobs_jstep.
  - cbn [fst]. unfold handletimeouts. apply qs_preenall. eapply qs_same; [|exact Q]. exact (js_queues _ _ (timeouts_jstep _ (set_now (s_now s + dt) s))).
  - destruct (c_st (get_conn (s_conns s) c)); exact Q.
  - exact Q.
  - destruct (is_idle c s); [|exact Q]. destruct (id_lookup (s_ids s) i) as [ser|]; [|exact Q].
    destruct (getjob (s_jobs s) ser) as [j|]; [|exact Q].
    destruct (j_done j); [destruct (j_drop j && id_is (s_ids s) (j_id j) ser)|]; exact Q.
  - exact Q.
  - destruct (id_lookup (s_ids s) i); exact Q.
  - exact Q.
  - exact Q.
  - cbn [fst]. eapply qs_same; [apply dropjobs_jstep|exact Q].
  - cbn [fst]. eapply qs_same; [apply dropdead_jstep|exact Q].
Qed.

Lemma qs_init : QS init.
Proof. intros k q []. Qed.

Lemma reachable_qs : forall h, QS (run h init).
Proof. intro h. apply (invariant_reachable QS step_qs). apply qs_init. Qed.

Lemma heads_none : forall qs chs, heads qs chs = None ->
  forall c y t, In c chs -> q_get qs c = Some (y :: t) -> False.
Proof.
  intros qs chs. induction chs as [|c0 r IH]; intros H c y t Hin Hq; [destruct Hin|]. cbn [heads] in H.
  destruct (q_get qs c0) as [[|x0 t0]|] eqn:E0.
  - destruct Hin as [Hc|Hc]; [subst; congruence|]. eapply IH; eauto.
  - destruct (heads qs r) as [m|]; [destruct (key_lt m x0)|]; discriminate.
  - destruct Hin as [Hc|Hc]; [subst; congruence|]. eapply IH; eauto.
Qed.

Lemma heads_min : forall qs chs x, heads qs chs = Some x ->
  forall c y t, In c chs -> q_get qs c = Some (y :: t) -> key_le x y.
Proof.
  intros qs chs. induction chs as [|c0 r IH]; intros x H c y t Hin Hq; [destruct Hin|]. cbn [heads] in H.
  destruct (q_get qs c0) as [[|x0 t0]|] eqn:E0.
  - destruct Hin as [Hc|Hc]; [subst; congruence|]. eapply IH; eauto.
  - destruct (heads qs r) as [m|] eqn:EH.
    + destruct (key_lt m x0) eqn:EL; inversion H; subst x.
      * destruct Hin as [Hc|Hc]; [subst c0; rewrite E0 in Hq; inversion Hq; subst; apply key_lt_le; exact EL|].
        eapply IH; eauto.
      * destruct Hin as [Hc|Hc]; [subst c0; rewrite E0 in Hq; inversion Hq; subst; apply key_le_refl|].
        eapply key_le_trans; [exact EL|]. eapply IH; eauto.
    + inversion H; subst x. destruct Hin as [Hc|Hc]; [subst c0; rewrite E0 in Hq; inversion Hq; subst; apply key_le_refl|].
      destruct (heads_none _ _ EH _ _ _ Hc Hq).
  - destruct Hin as [Hc|Hc]; [subst; congruence|]. eapply IH; eauto.
Qed.

Lemma q_get_dom : forall qs k q, q_get qs k = Some q -> In k (map fst qs).
Proof. intros qs k q H. apply q_get_In in H. apply in_map_iff. exists (k, q). auto. Qed.

(* the channels pop() looks at contain every requested channel that has a queue *)
Definition try_of (chs : list N) (s : state) : list N := match chs with [] => map fst (s_queues s) | _ => chs end.

Lemma in_try : forall chs s k q, eligible k chs -> q_get (s_queues s) k = Some q -> In k (try_of chs s).
Proof.
  intros chs s k q [He|He] Hq; unfold try_of.
  - subst chs. eapply q_get_dom; eauto.
  - destruct chs as [|c0 r]; [discriminate|]. apply mem_true_iff. exact He.
Qed.

(* what pop_or_block does, spelled out on the preened state *)
Lemma pop_min_first : forall chs s, QS s ->
  forall k q p x, q_get (s_queues s) k = Some q -> eligible k chs -> In (p, x) q -> is_done (s_jobs s) x = false ->
  match heads (s_queues (preenall s)) (try_of chs (preenall s)) with
  | Some m => key_le m (p, x)
  | None => False
  end.
Proof.
  intros chs s Q k q p x Hq He Hin D.
  assert (Hq1 : q_get (s_queues (preenall s)) k = Some (preen (s_jobs s) q)).
  { unfold preenall. sf. rewrite q_get_map. rewrite Hq. reflexivity. }
  pose proof (preen_keeps (s_jobs s) q (p, x) Hin D) as Hin1.
  destruct (preen (s_jobs s) q) as [|y t] eqn:EP; [destruct Hin1|].
  assert (S1 : sorted (y :: t)) by (rewrite <- EP; apply sorted_preen; eapply qs_qget; eauto).
  pose proof (in_try chs (preenall s) k _ He Hq1) as Ht.
  destruct (heads (s_queues (preenall s)) (try_of chs (preenall s))) as [m|] eqn:EH.
  - eapply key_le_trans; [eapply heads_min; eauto|]. eapply sorted_head_le; eauto.
  - eapply heads_none; eauto.
Qed.

(* C17 min-first: whatever StartPull delivers at once is the (priority, serial)-minimum among the unfinished
   jobs queued on the requested channels (all channels when none was named), in any state with sorted queues
   that satisfies the C16 invariant (e.g. a restarted one, C18) *)
Lemma min_first_state : forall s c chs j, QS s -> Inv s [] [] ->
  In (ODeliver c chs j) (snd (step s (StartPull c chs))) ->
  forall k q p x, q_get (s_queues s) k = Some q -> (chs = [] \/ mem k chs = true) -> In (p, x) q ->
  is_done (s_jobs s) x = false -> key_lt (p, x) (j_prio j, j_serial j) = false.
Proof.
  intros s c chs j Q I Hout k q p x Hq He Hin D.
  pose proof (pop_min_first chs s Q k q p x Hq He Hin D) as M.
  cbn [step] in Hout. destruct (is_idle c s); [|destruct Hout as [H|[]]; discriminate H].
  unfold pop_or_block in Hout. cbv zeta in Hout. fold (try_of chs (preenall s)) in Hout.
  destruct (heads (s_queues (preenall s)) (try_of chs (preenall s))) as [m|] eqn:EH; [|destruct M].
  destruct m as [pm xm]. destruct (heads_spec _ _ _ EH) as (k0&rest&Hk0&Hq0).
  pose proof (preenall_inv _ _ _ I) as I1.
  destruct (inv_q _ _ _ I1 _ _ _ _ (q_get_In _ _ _ Hq0) (or_introl eq_refl)) as (jm&Ejm&Hch&Hp).
  cbn [snd fst] in *. rewrite Ejm in Hout.
  apply deliver_out in Hout. destruct Hout as (j'&Ho&Ej'). inversion Ho; subst j'. sf.
  rewrite Ejm in Ej'. inversion Ej'; subst jm. rewrite Hp. rewrite (getjob_serial _ _ _ Ejm). exact M.
Qed.

Lemma min_first : forall h c chs j,
  let s := run h init in
  In (ODeliver c chs j) (snd (step s (StartPull c chs))) ->
  forall k q p x, q_get (s_queues s) k = Some q -> (chs = [] \/ mem k chs = true) -> In (p, x) q ->
  is_done (s_jobs s) x = false -> key_lt (p, x) (j_prio j, j_serial j) = false.
Proof. intros h c chs j s. apply min_first_state; [apply reachable_qs|apply reachable_inv]. Qed.

(* The same, read as the two rules a client relies on: no unfinished job queued on a requested channel has a
   strictly better (numerically smaller) priority than the delivered one, and among those of EQUAL priority none
   arrived earlier (smaller serial): priority first, FIFO within a priority. *)
Lemma key_not_lt_prio_fifo : forall p x a b,
  key_lt (p, x) (a, b) = false -> a <= p /\ (p = a -> b <= x).
Proof.
  intros p x a b M. unfold key_lt in M. cbn [fst snd] in M.
  apply orb_false_iff in M. destruct M as [M1 M2].
  apply N.ltb_ge in M1. split; [exact M1|].
  intros E. subst p. rewrite N.eqb_refl in M2. cbn [andb] in M2. apply N.ltb_ge in M2. exact M2.
Qed.

(* ... and it blocks only when no unfinished job is queued on any requested channel *)
Lemma blocks_only_when_empty_state : forall s c chs, QS s ->
  is_idle c s = true -> In OBlocked (snd (step s (StartPull c chs))) ->
  forall k q p x, q_get (s_queues s) k = Some q -> (chs = [] \/ mem k chs = true) -> In (p, x) q ->
  is_done (s_jobs s) x = true.
Proof.
  intros s c chs Q EI Hout k q p x Hq He Hin. destruct (is_done (s_jobs s) x) eqn:D; [reflexivity|exfalso].
  pose proof (pop_min_first chs s Q k q p x Hq He Hin D) as M.
  cbn [step] in Hout. rewrite EI in Hout.
  unfold pop_or_block in Hout. cbv zeta in Hout. fold (try_of chs (preenall s)) in Hout.
  destruct (heads (s_queues (preenall s)) (try_of chs (preenall s))) as [m|] eqn:EH; [|exact M].
  destruct (getjob (s_jobs (preenall s)) (snd m)) as [jm|]; [|destruct Hout].
  apply deliver_out in Hout. destruct Hout as (j'&Ho&_). discriminate Ho.
Qed.

