(* C17 — LIVENESS of waits: "clients waiting for a job are released exactly when it is finished".
   The safety half (a released client gets a finished record) is in C17/Proofs.v; here:

   (A) waiter_has_wakeup : in every reachable state, a connection blocked in waitjobs() either waits for an
       unfinished job or the wake-up (the notifier of the job's finish_event, EvDone) is queued in the hub;
   (B) runloop_outcome_gw : the hub turn that follows the finish releases the waiter (it gets the finished job
       record), unless its own disconnect was queued in front of the notification; runloop_unblocks : either way
       the waiter is not blocked on that job afterwards;
   (C) wait_released_after_finish / wait_ends_by_release_or_death : whatever happens between the wait and
       the finish, after the hub turn that follows the finish the client does not wait any more, and over
       the whole trace it was either released with the finished record or it died. *)
From Coq Require Import List NArith Bool Lia Arith.
From MW Require Import C16.Model C16.Proofs C17.Proofs.
Import ListNotations.
Open Scope N_scope.

Lemma done_pending_In : forall ser es, done_pending ser es = true <-> In (EvDone ser) es.
Proof.
  intros ser es. induction es as [|e r IH]; cbn [done_pending In].
  - split; [discriminate|tauto].
  - destruct e as [c|c|w].
    + rewrite IH. split; [auto|]. intros [H|H]; [discriminate H|exact H].
    + rewrite IH. split; [auto|]. intros [H|H]; [discriminate H|exact H].
    + rewrite orb_true_iff, IH, N.eqb_eq. split; intros [H|H]; auto.
      * left. congruence.
      * left. inversion H. reflexivity.
Qed.

Lemma new_conn_st : forall c, c_st (new_conn c) = Idle.
Proof. reflexivity. Qed.

(* somebody blocked on `ser` is seen by _mark_finished's "is anybody linked to the event" test; no uniqueness
   of connection ids is needed: get_conn returns the first match, which is an element of the list *)
Lemma has_waiter_get : forall cs c ser, c_st (get_conn cs c) = BWait ser -> has_waiter ser cs = true.
Proof.
  induction cs as [|y r IH]; intros c ser H; cbn [get_conn has_waiter] in *.
  - rewrite new_conn_st in H. discriminate H.
  - destruct (c_id y =? c).
    + rewrite H. rewrite N.eqb_refl. reflexivity.
    + specialize (IH _ _ H). destruct (c_st y); try exact IH. rewrite IH. apply orb_true_r.
Qed.

(* every connection blocked in a wait waits for an existing job, and either the job is unfinished or its
   finish notification is among the pending hub events `hub` *)
Definition wl (js : list job) (cs : list conn) (hub : list event) : Prop :=
  forall c ser, c_st (get_conn cs c) = BWait ser ->
    getjob js ser <> None /\ (is_done js ser = false \/ In (EvDone ser) hub).

Definition WL (s : state) : Prop := wl (s_jobs s) (s_conns s) (s_hub s).

(* "no connection was newly blocked in a wait" *)
Definition nbw (cs cs' : list conn) : Prop :=
  forall c ser, c_st (get_conn cs' c) = BWait ser -> c_st (get_conn cs c) = BWait ser.

Lemma nbw_refl : forall cs, nbw cs cs.
Proof. intros cs c ser H. exact H. Qed.

Lemma nbw_trans : forall a b c, nbw a b -> nbw b c -> nbw a c.
Proof. intros a b c H1 H2 x ser H. apply H1. apply H2. exact H. Qed.

Lemma nbw_put : forall cs x,
  (forall w, c_st x = BWait w -> c_st (get_conn cs (c_id x)) = BWait w) -> nbw cs (put_conn cs x).
Proof.
  intros cs x Hx c ser H. destruct (N.eq_dec (c_id x) c) as [E|E].
  - subst c. rewrite get_put_same in H. apply Hx. exact H.
  - rewrite get_put_other in H by exact E. exact H.
Qed.

(* a transformer that leaves the job table and the set of pending finish notifications alone (nnd) and does
   not block anybody in a wait *)
Definition frame (s s' : state) : Prop := nnd s s' /\ nbw (s_conns s) (s_conns s').

Lemma frame_refl : forall s, frame s s.
Proof. intro s. split; [apply nnd_refl|apply nbw_refl]. Qed.

Lemma frame_trans : forall a b c, frame a b -> frame b c -> frame a c.
Proof. intros a b c [N1 B1] [N2 B2]. split; [eapply nnd_trans; eauto|eapply nbw_trans; eauto]. Qed.

Lemma frame_same : forall s s', s_jobs s' = s_jobs s -> s_hub s' = s_hub s -> s_conns s' = s_conns s -> frame s s'.
Proof. intros s s' J H C. split; [apply nnd_same; assumption|]. rewrite C. apply nbw_refl. Qed.

Lemma frame_wl_gen : forall s s' es, frame s s' ->
  wl (s_jobs s) (s_conns s) (es ++ s_hub s) -> wl (s_jobs s') (s_conns s') (es ++ s_hub s').
Proof.
  intros s s' es [[J H] B] W c ser Hst. destruct (W c ser (B _ _ Hst)) as [Ex D]. rewrite J. split; [exact Ex|].
  destruct D as [D|D]; [left; exact D|right].
  apply in_app_or in D. apply in_or_app. destruct D as [D|D]; [left; exact D|right; apply H; exact D].
Qed.

Lemma frame_wl : forall s s', frame s s' -> WL s -> WL s'.
Proof. intros s s' F W. apply (frame_wl_gen s s' [] F). exact W. Qed.

Lemma qmove_frame : forall s s', qmove s s' -> frame s s'.
Proof. intros s s' M. split; [apply qmove_nnd; exact M|exact (qm_wait _ _ M)]. Qed.

Lemma run_event_done_conns : forall x s,
  s_conns (fst (run_event (EvDone x) s)) = fst (release x (s_jobs s) (s_conns s)).
Proof.
  intros x s. cbn [run_event]. destruct (release x (s_jobs s) (s_conns s)) as [cs o].
  destruct (getjob (s_jobs s) x) as [j|]; [|reflexivity].
  destruct (j_drop j && has_waiter x (s_conns s) && id_is (s_ids s) (j_id j) x); reflexivity.
Qed.

Lemma run_event_done_out : forall x s,
  snd (run_event (EvDone x) s) = snd (release x (s_jobs s) (s_conns s)).
Proof.
  intros x s. cbn [run_event]. destruct (release x (s_jobs s) (s_conns s)) as [cs o].
  destruct (getjob (s_jobs s) x) as [j|]; [|reflexivity].
  destruct (j_drop j && has_waiter x (s_conns s) && id_is (s_ids s) (j_id j) x); reflexivity.
Qed.

(* the notifier of job `ser` releases EVERY connection blocked on it *)
Lemma release_no_bwait : forall ser js cs c, c_st (get_conn (fst (release ser js cs)) c) <> BWait ser.
Proof.
  intros ser js cs c. induction cs as [|y r IH]; cbn [release].
  - cbn [fst get_conn]. rewrite new_conn_st. discriminate.
  - destruct (release ser js r) as [r' o]. cbn [fst] in IH.
    destruct (c_st y) as [|chs mb|w|] eqn:ES; try destruct (w =? ser) eqn:EW; cbn [fst get_conn c_id];
      (destruct (c_id y =? c); [|exact IH]);
      first [ rewrite ES; discriminate
            | cbn [c_st]; discriminate
            | rewrite ES; intro H; inversion H; subst w; rewrite N.eqb_refl in EW; discriminate EW ].
Qed.

Lemma run_event_done_no_bwait : forall x s c, c_st (get_conn (s_conns (fst (run_event (EvDone x) s))) c) <> BWait x.
Proof. intros x s c. rewrite run_event_done_conns. apply release_no_bwait. Qed.

Lemma wl_drop_head : forall js cs e es, (forall x, e <> EvDone x) -> wl js cs (e :: es) -> wl js cs es.
Proof.
  intros js cs e es He W c ser Hst. destruct (W c ser Hst) as [Ex [D|[D|D]]]; split; auto.
  exfalso. eapply He; eauto.
Qed.

Lemma run_event_wl : forall e r s,
  wl (s_jobs s) (s_conns s) ((e :: r) ++ s_hub s) ->
  wl (s_jobs (fst (run_event e s))) (s_conns (fst (run_event e s))) (r ++ s_hub (fst (run_event e s))).
Proof.
  intros e r s W. pose proof (qmove_frame _ _ (run_event_qmove e s)) as F. cbn [app] in W.
  destruct e as [c'|c'|x].
  - apply (frame_wl_gen _ _ r F). eapply wl_drop_head; [|exact W]. intros y H; discriminate H.
  - apply (frame_wl_gen _ _ r F). eapply wl_drop_head; [|exact W]. intros y H; discriminate H.
  - intros c ser Hst. destruct F as [[J H] B].
    assert (NE : ser <> x).
    { intro E. subst ser. exact (run_event_done_no_bwait x s c Hst). }
    destruct (W c ser (B _ _ Hst)) as [Ex D]. rewrite J. split; [exact Ex|].
    destruct D as [D|[D|D]]; [left; exact D| |right].
    + exfalso. apply NE. inversion D. reflexivity.
    + apply in_app_or in D. apply in_or_app. destruct D as [D|D]; [left; exact D|right; apply H; exact D].
Qed.

Lemma run_events_wl : forall es s, wl (s_jobs s) (s_conns s) (es ++ s_hub s) -> WL (fst (run_events es s)).
Proof.
  induction es as [|e r IH]; intros s W; [exact W|]. rewrite run_events_cons. apply IH, run_event_wl, W.
Qed.

Lemma mark_wl : forall x u s, WL s -> WL (mark_finished x u s).
Proof.
  intros x u s W. unfold mark_finished. destruct (getjob (s_jobs s) x) as [j|] eqn:E; [|exact W].
  destruct (j_done j) eqn:D; [exact W|]. unfold WL. sf. intros c w Hst.
  destruct (W c w Hst) as [Ex Dw].
  pose proof (has_waiter_get _ _ _ Hst) as HW.
  unfold is_done. rewrite getjob_setjob by (intros; cbn; eapply getjob_serial; eauto).
  destruct (w =? x) eqn:Ewx.
  - apply N.eqb_eq in Ewx. subst w. rewrite E. cbn [option_map]. split; [discriminate|].
    right. rewrite HW. apply in_or_app. right. left. reflexivity.
  - split; [exact Ex|]. destruct Dw as [Dw|Dw]; [left; exact Dw|right].
    destruct (has_waiter x (s_conns s)); [apply in_or_app; left; exact Dw|exact Dw].
Qed.

Lemma wl_same : forall s s', s_jobs s' = s_jobs s -> s_hub s' = s_hub s -> s_conns s' = s_conns s -> WL s -> WL s'.
Proof. intros s s' J H C. apply frame_wl. apply frame_same; assumption. Qed.

Lemma wl_eqd : forall js js' cs hub, tab_eqd js js' -> wl js cs hub -> wl js' cs hub.
Proof.
  intros js js' cs hub T W c ser Hst. destruct (W c ser Hst) as [Ex D]. specialize (T ser). unfold is_done in *.
  destruct (getjob js ser) as [j|]; [|congruence]. destruct (getjob js' ser) as [j'|]; [|contradiction].
  split; [discriminate|]. rewrite T. exact D.
Qed.

Lemma dropjobs_eqd : forall js s,
  tab_eqd (s_jobs s) (s_jobs (dropjobs js s)) /\ s_hub (dropjobs js s) = s_hub s /\ s_conns (dropjobs js s) = s_conns s.
Proof.
  intros js s.
  apply (dropjobs_ind (fun s' => tab_eqd (s_jobs s) (s_jobs s') /\ s_hub s' = s_hub s /\ s_conns s' = s_conns s));
    [|split; [apply tab_eqd_refl|split; reflexivity]].
  intros ser s0 (T&H). split; [|exact H]. eapply tab_eqd_trans; [exact T|apply setjob_eqd, set_drop_edit].
Qed.

Lemma dropdead_eqd : forall l s,
  tab_eqd (s_jobs s) (s_jobs (dropdead_loop l s)) /\ s_hub (dropdead_loop l s) = s_hub s /\
  s_conns (dropdead_loop l s) = s_conns s.
Proof.
  intros l s.
  apply (dropdead_loop_ind (fun s' => tab_eqd (s_jobs s) (s_jobs s') /\ s_hub s' = s_hub s /\ s_conns s' = s_conns s));
    [auto| |split; [apply tab_eqd_refl|split; reflexivity]].
  intros ser j d s0 (T&H) _ _. split; [|exact H]. eapply tab_eqd_trans; [exact T|apply setjob_eqd, set_dl_edit].
Qed.

Lemma step_wl : forall s o, Inv s [] [] -> WL s -> WL (fst (step s o)).
Proof.
  intros s o I W.
  destruct o as [ch prio name tmo|c chs| |c i res e|c js|dt|c|k|c i|i|i v| |dt|js|]; cbn [step].
  - (* Add: the new object has a fresh serial; nobody waits for it *)
    destruct (push_cases ch prio name tmo s) as [[n E]|(j0&i&Hs&_&_&E)]; rewrite E; cbn [fst]; [exact W|].
    eapply frame_wl; [apply qmove_frame, pushjob_qmove|]. unfold WL. sf. intros c w Hst.
    destruct (W c w Hst) as [Ex D].
    destruct (getjob (s_jobs s) w) as [jw|] eqn:Ew; [|congruence].
    unfold is_done in *. rewrite (getjob_fresh _ _ _ j0 _ _ I Hs Ew), Ew in *. split; [exact Ex|exact D].
  - destruct (is_idle c s); [|exact W]. eapply frame_wl; [apply qmove_frame, pop_qmove|exact W].
  - apply run_events_wl. sf. rewrite app_nil_r. exact W.
  - destruct (is_idle c s); [|exact W]. destruct (id_lookup (s_ids s) i) as [ser|]; [|exact W]. cbn [fst].
    match goal with |- WL (set_conns _ ?t) => assert (W1 : WL t) by (apply mark_wl; exact W) end.
    eapply frame_wl; [|exact W1]. split; [apply nnd_same; reflexivity|]. sf.
    apply nbw_put. intros w H. cbn [c_st c_id] in *. exact H.
  - destruct (is_idle c s); [|exact W]. cbn [fst].
    pose proof (killjobs_ind WL (fun x e => mark_wl x (upd_err e)) js s W) as W1.
    eapply frame_wl; [|exact W1]. split; [apply nnd_same; reflexivity|]. sf.
    apply nbw_put. intros w H. cbn [c_st c_id] in *. exact H.
  - cbn [fst]. unfold handletimeouts.
    eapply wl_same; [| | |apply (timeouts_loop_ind WL (fun x e => mark_wl x (upd_err e)) (fun v s0 H => H) (s_tq s) (set_now (s_now s + dt) s) W)];
      reflexivity.
  - destruct (c_st (get_conn (s_conns s) c)); cbn [fst]; try exact W;
      (intros c0 w Hst; sf; destruct (W c0 w Hst) as [Ex D]; split; [exact Ex|];
       destruct D as [D|D]; [left; exact D|right; apply in_or_app; left; exact D]).
  - cbn [fst]. eapply wl_same; [| | |exact W]; reflexivity.
  - (* Wait blocks only on an existing job that is unfinished or whose notifier is still pending *)
    destruct (is_idle c s); [|exact W]. destruct (id_lookup (s_ids s) i) as [ser|]; [|exact W].
    destruct (getjob (s_jobs s) ser) as [j|] eqn:Ej; [|exact W].
    destruct (j_done j) eqn:ED.
    + destruct (j_drop j && id_is (s_ids s) (j_id j) ser); cbn [fst]; [|exact W].
      eapply wl_same; [| | |exact W]; reflexivity.
    + cbn [fst]. unfold WL. sf. intros c0 w Hst. destruct (N.eq_dec c c0) as [Ec|Ec].
      * subst c0.
        pose proof (get_put_same (s_conns s) (mkConn c (BWait ser) (c_run (get_conn (s_conns s) c)))) as G.
        cbn [c_id] in G. rewrite G in Hst. cbn [c_st] in Hst. inversion Hst; subst w.
        split; [congruence|]. unfold is_done. rewrite Ej. left; exact ED.
      * rewrite get_put_other in Hst by (cbn [c_id]; exact Ec). exact (W c0 w Hst).
  - exact W.
  - destruct (id_lookup (s_ids s) i) as [ser|]; [|exact W]. cbn [fst]. unfold WL. sf.
    eapply wl_eqd; [|exact W]. apply setjob_eqd, set_info_edit.
  - exact W.
  - cbn [fst]. eapply wl_same; [| | |exact W]; reflexivity.
  - cbn [fst]. destruct (dropjobs_eqd js s) as (T&H&C). unfold WL. rewrite H, C. eapply wl_eqd; eauto.
  - cbn [fst]. unfold dropdead. destruct (dropdead_eqd (map fst (s_ids s)) s) as (T&H&C).
    unfold WL. rewrite H, C. eapply wl_eqd; eauto.
Qed.

Definition GW (s : state) : Prop := Good s /\ WL s.

Lemma step_gw : forall s o, GW s -> GW (fst (step s o)).
Proof. intros s o [G W]. split; [apply step_good; exact G|apply step_wl; [apply G|exact W]]. Qed.

Lemma gw_init : GW init.
Proof. split; [apply good_init|]. intros c ser H. cbn in H. discriminate H. Qed.

Lemma run_gw : forall h s, GW s -> GW (run h s).
Proof. intro h. apply (invariant_reachable GW). intros s o. apply step_gw. Qed.

Lemma reachable_gw : forall h, GW (run h init).
Proof. intro h. apply run_gw. apply gw_init. Qed.

(* (A) every connection blocked in a wait either waits for an unfinished job, or its wake-up - the notifier
   of the job's finish_event - is queued in the hub.  ("every finished job with registered waiters has a
   pending notifier event"; jobs.py:121 finish_event.set() + gevent's Event.) *)
Lemma waiter_has_wakeup : forall h c ser, let s := run h init in
  c_st (get_conn (s_conns s) c) = BWait ser ->
  is_done (s_jobs s) ser = false \/ done_pending ser (s_hub s) = true.
Proof.
  intros h c ser s Hst. destruct (reachable_gw h) as [_ W]. destruct (W c ser Hst) as [_ [D|D]]; [left; exact D|right].
  apply done_pending_In. exact D.
Qed.

(* ... and the job it waits for exists (the job table never forgets) *)
Lemma waiter_job_exists : forall h c ser, let s := run h init in
  c_st (get_conn (s_conns s) c) = BWait ser -> exists j, getjob (s_jobs s) ser = Some j.
Proof.
  intros h c ser s Hst. subst s. destruct (reachable_gw h) as [_ W]. destruct (W c ser Hst) as [Ex _].
  destruct (getjob (s_jobs (run h init)) ser) as [j|]; [exists j; reflexivity|congruence].
Qed.

(* what the notifier hands to a blocked client: the job record *)
Lemma release_outputs : forall ser js cs c j,
  c_st (get_conn cs c) = BWait ser -> getjob js ser = Some j ->
  In (OReleased c j) (snd (release ser js cs)).
Proof.
  intros ser js cs c j H Ej. revert H. induction cs as [|y r IH]; cbn [release get_conn]; intro H.
  - rewrite new_conn_st in H. discriminate H.
  - destruct (release ser js r) as [r' o]. cbn [snd] in IH.
    destruct (c_id y =? c) eqn:E.
    + apply N.eqb_eq in E. rewrite H. rewrite N.eqb_refl. cbn [snd]. rewrite Ej. left. rewrite E. reflexivity.
    + specialize (IH H). destruct (c_st y) as [| |w|]; cbn [snd]; try exact IH.
      destruct (w =? ser); cbn [snd]; [rewrite Ej; right; exact IH|exact IH].
Qed.

Lemma release_keeps : forall w ser js cs c, w <> ser ->
  c_st (get_conn cs c) = BWait ser -> c_st (get_conn (fst (release w js cs)) c) = BWait ser.
Proof.
  intros w ser js cs c NE H. destruct (release_spec w js cs) as (_&R2&_).
  destruct (R2 c) as [_ [E|[_ E]]]; [congruence|]. exfalso. apply NE. congruence.
Qed.

(* the primitives touch only the connection they serve (and waiters blocked in a pull) *)
Lemma deliver_conn_other : forall c' chs x s c, c' <> c ->
  get_conn (s_conns (fst (deliver c' chs x s))) c = get_conn (s_conns s) c.
Proof.
  intros c' chs x s c NE. unfold deliver. destruct (getjob (s_jobs s) x) as [j|]; cbn [fst]; [|reflexivity]. sf.
  apply get_put_other. cbn [c_id]. exact NE.
Qed.

Lemma pop_conn_other : forall c' chs s c, c' <> c ->
  get_conn (s_conns (fst (pop_or_block c' chs s))) c = get_conn (s_conns s) c.
Proof.
  intros c' chs s c NE. unfold pop_or_block. cbv zeta. destruct (heads _ _) as [x|].
  - destruct (getjob _ _); [|reflexivity]. rewrite deliver_conn_other by exact NE. reflexivity.
  - cbn [fst]. sf. apply get_put_other. cbn [c_id]. exact NE.
Qed.

Lemma pushjob_not_waiter : forall x s c, ~ In c (map fst (s_waiters s)) -> ~ In c (map fst (s_waiters (pushjob x s))).
Proof.
  intros x s c NW Hin. apply NW. apply in_map_iff in Hin. destruct Hin as (w0&Hf&Hin).
  apply in_map_iff. exists w0. split; [exact Hf|]. eapply pushjob_waiters_sub; eauto.
Qed.

Lemma shutdown_conn_other : forall l s c, ~ In c (map fst (s_waiters s)) ->
  get_conn (s_conns (shutdown_loop l s)) c = get_conn (s_conns s) c.
Proof.
  induction l as [|[i w] r IH]; intros s c NW; cbn [shutdown_loop]; [reflexivity|].
  destruct (is_done (s_jobs s) w); [apply IH; exact NW|].
  rewrite IH by (apply pushjob_not_waiter; exact NW).
  rewrite pushjob_conn_other by exact NW. reflexivity.
Qed.

Lemma die_conn_other : forall c' s c, c' <> c -> ~ In c (map fst (s_waiters s)) ->
  get_conn (s_conns (fst (die c' s))) c = get_conn (s_conns s) c.
Proof.
  intros c' s c NE NW. unfold die. cbv zeta. cbn [fst]. rewrite shutdown_conn_other by exact NW. sf.
  apply get_put_other. cbn [c_id]. exact NE.
Qed.

(* one hub event, seen from a connection c blocked on ser: unless the event is ser's notifier, either c stays
   blocked on ser or the event is c's own disconnect *)
Lemma run_event_track : forall e s c ser, Inv s [] [] ->
  c_st (get_conn (s_conns s) c) = BWait ser -> e <> EvDone ser ->
  c_st (get_conn (s_conns (fst (run_event e s))) c) = BWait ser \/
  (e = EvKill c /\ In (ODied c) (snd (run_event e s))).
Proof.
  intros e s c ser I Hst NE.
  assert (NW : ~ In c (map fst (s_waiters s))).
  { eapply not_waiter; eauto. intros chs' H. rewrite Hst in H. discriminate H. }
  destruct e as [c'|c'|w].
  - left. cbn [run_event]. destruct (N.eq_dec c' c) as [Ec|Ec].
    + subst c'. rewrite Hst. exact Hst.
    + destruct (c_st (get_conn (s_conns s) c')) as [|chs [x|]|w|]; try exact Hst.
      destruct (is_done (s_jobs s) x); [rewrite pop_conn_other by exact Ec|rewrite deliver_conn_other by exact Ec]; exact Hst.
  - cbn [run_event]. destruct (N.eq_dec c' c) as [Ec|Ec].
    + subst c'. right. rewrite Hst. split; [reflexivity|]. unfold die. cbn [snd]. left. reflexivity.
    + left. destruct (c_st (get_conn (s_conns s) c')) as [|chs mb|w|]; try exact Hst;
        try (rewrite die_conn_other by assumption; exact Hst).
      set (s1 := set_waiters (remove_waiter c' (s_waiters s)) s).
      assert (NW1 : ~ In c (map fst (s_waiters s1))).
      { unfold s1. sf. intro Hin. apply NW. apply in_map_iff in Hin. destruct Hin as (w0&Hf&Hin).
        apply in_map_iff. exists w0. split; [exact Hf|]. eapply remove_waiter_In; eauto. }
      destruct mb as [x|]; [destruct (is_done (s_jobs s1) x)|].
      * rewrite die_conn_other by assumption. exact Hst.
      * rewrite die_conn_other by (try assumption; apply pushjob_not_waiter; exact NW1).
        rewrite pushjob_conn_other by exact NW1. exact Hst.
      * rewrite die_conn_other by assumption. exact Hst.
  - left. rewrite run_event_done_conns. apply release_keeps; [congruence|exact Hst].
Qed.

(* one hub turn, seen from a connection c blocked on ser *)
Lemma run_events_track : forall es s c ser j, Inv s [] [] -> hub_ok (s_jobs s) es ->
  c_st (get_conn (s_conns s) c) = BWait ser -> getjob (s_jobs s) ser = Some j ->
  (c_st (get_conn (s_conns (fst (run_events es s))) c) = BWait ser /\ ~ In (EvDone ser) es) \/
  (In (OReleased c j) (snd (run_events es s)) /\ In (EvDone ser) es) \/
  (In (ODied c) (snd (run_events es s)) /\ exists a b, es = a ++ EvKill c :: b /\ ~ In (EvDone ser) a).
Proof.
  induction es as [|e r IH]; intros s c ser j I HD Hst Ej; cbn [run_events].
  - left. split; [exact Hst|intros []].
  - assert (HDe : forall x, e = EvDone x -> really_done (s_jobs s) x) by (intros x E; apply HD; left; exact E).
    pose proof (run_event_inv e s I HDe) as I1. pose proof (run_event_jobs e s) as J1.
    assert (DEC : e = EvDone ser \/ e <> EvDone ser).
    { destruct e as [a|a|w]; try (right; discriminate). destruct (N.eq_dec w ser); [left; congruence|right; congruence]. }
    destruct DEC as [Ee|NE].
    + subst e. right. left. pose proof (release_outputs ser (s_jobs s) (s_conns s) c j Hst Ej) as RO.
      rewrite <- run_event_done_out in RO.
      destruct (run_event (EvDone ser) s) as [s1 o1]. destruct (run_events r s1) as [s2 o2]. cbn [snd] in *.
      split; [|left; reflexivity]. apply in_or_app. left. exact RO.
    + pose proof (run_event_track e s c ser I Hst NE) as T.
      destruct (run_event e s) as [s1 o1]. cbn [fst snd] in *.
      assert (HD1 : hub_ok (s_jobs s1) r) by (rewrite J1; intros x Hin; apply HD; right; exact Hin).
      destruct T as [T|[Ek T]].
      * rewrite <- J1 in Ej. specialize (IH s1 c ser j I1 HD1 T Ej).
        destruct (run_events r s1) as [s2 o2]. cbn [fst snd] in *.
        destruct IH as [[K N]|[[R Rin]|[D (a&b&Eab&Na)]]].
        -- left. split; [exact K|]. intros [H|H]; [exact (NE H)|exact (N H)].
        -- right. left. split; [|right; exact Rin]. apply in_or_app. right. exact R.
        -- right. right. split; [apply in_or_app; right; exact D|].
           exists (e :: a), b. split; [rewrite Eab; reflexivity|]. intros [H|H]; [exact (NE H)|exact (Na H)].
      * destruct (run_events r s1) as [s2 o2]. cbn [snd]. right. right. split; [apply in_or_app; left; exact T|].
        exists [], r. split; [rewrite Ek; reflexivity|intros []].
Qed.

(* the notifier of ser is among the events of the turn: it releases c, and nothing in a hub turn blocks it again *)
Lemma run_events_done_no_bwait : forall es s c ser, In (EvDone ser) es ->
  c_st (get_conn (s_conns (fst (run_events es s))) c) <> BWait ser.
Proof.
  induction es as [|e r IH]; intros s c ser Hin; [destruct Hin|]. cbn [run_events].
  pose proof (qm_wait _ _ (run_events_qmove r (fst (run_event e s))) c ser) as B.
  destruct Hin as [He|Hin].
  - subst e. pose proof (run_event_done_no_bwait ser s c) as NB.
    destruct (run_event (EvDone ser) s) as [s1 o1]. cbn [fst] in *.
    destruct (run_events r s1) as [s2 o2]. cbn [fst] in *. intro H. exact (NB (B H)).
  - specialize (IH (fst (run_event e s)) c ser Hin). destruct (run_event e s) as [s1 o1]. cbn [fst] in *.
    destruct (run_events r s1) as [s2 o2]. exact IH.
Qed.

(* state-level versions (any state satisfying the invariants), then the reachable-state corollaries *)
Lemma runloop_no_waiter_gw : forall s c ser, GW s -> is_done (s_jobs s) ser = true ->
  c_st (get_conn (s_conns (fst (step s RunLoop))) c) <> BWait ser.
Proof.
  intros s c ser [G W] D Hafter. cbn [step] in Hafter.
  pose proof (qm_wait _ _ (run_events_qmove (s_hub s) (set_hub [] s)) c ser Hafter) as Hst. sf.
  destruct (W c ser Hst) as [_ [D0|Hin]]; [congruence|].
  exact (run_events_done_no_bwait (s_hub s) (set_hub [] s) c ser Hin Hafter).
Qed.

Lemma runloop_outcome_gw : forall s c ser, GW s ->
  c_st (get_conn (s_conns s) c) = BWait ser -> is_done (s_jobs s) ser = true ->
  exists j, getjob (s_jobs s) ser = Some j /\ j_done j = true /\
    (In (OReleased c j) (snd (step s RunLoop)) \/
     (In (ODied c) (snd (step s RunLoop)) /\
      exists a b, s_hub s = a ++ EvKill c :: b /\ ~ In (EvDone ser) a)).
Proof.
  intros s c ser [(A&K&I) W] Hst D.
  destruct (W c ser Hst) as [_ [D0|Hin]]; [congruence|].
  destruct (K ser Hin) as (j&Ej&Dj). exists j. split; [exact Ej|]. split; [exact Dj|].
  cbn [step].
  assert (I0 : Inv (set_hub [] s) [] []) by (eapply inv_same; eauto).
  destruct (run_events_track (s_hub s) (set_hub [] s) c ser j I0 K Hst Ej) as [[_ N]|[[R _]|Dd]].
  - exfalso. exact (N Hin).
  - left. exact R.
  - right. exact Dd.
Qed.

(* (B) a waiter blocked on a finished job is not blocked on it after the next hub turn ... *)
Lemma runloop_unblocks : forall h c ser, let s := run h init in
  c_st (get_conn (s_conns s) c) = BWait ser -> is_done (s_jobs s) ser = true ->
  let s' := fst (step s RunLoop) in c_st (get_conn (s_conns s') c) <> BWait ser.
Proof. intros h c ser s _ D s'. apply runloop_no_waiter_gw; [apply reachable_gw|exact D]. Qed.

(* ... it is not blocked in any wait at all (a hub turn never blocks anybody in a wait) ... *)
Lemma runloop_not_waiting : forall h c ser w, let s := run h init in
  c_st (get_conn (s_conns s) c) = BWait ser -> is_done (s_jobs s) ser = true ->
  c_st (get_conn (s_conns (fst (step s RunLoop))) c) <> BWait w.
Proof.
  intros h c ser w s Hst D Hafter.
  assert (Hb : c_st (get_conn (s_conns s) c) = BWait w).
  { cbn [step] in Hafter. exact (qm_wait _ _ (run_events_qmove (s_hub s) (set_hub [] s)) c w Hafter). }
  assert (w = ser) by congruence. subst w.
  exact (runloop_unblocks h c ser Hst D Hafter).
Qed.

Lemma idle_other : forall c' s c ser, is_idle c' s = true -> c_st (get_conn (s_conns s) c) = BWait ser -> c' <> c.
Proof. intros c' s c ser EI Hst E. subst c'. apply is_idle_st in EI. congruence. Qed.

(* no request of another client, no timer, nothing but a hub turn touches a connection blocked in a wait *)
Lemma step_conn_blocked : forall s o c ser, Inv s [] [] ->
  c_st (get_conn (s_conns s) c) = BWait ser -> o <> RunLoop ->
  get_conn (s_conns (fst (step s o))) c = get_conn (s_conns s) c.
Proof.
  intros s o c ser I Hst NR.
  assert (NW : ~ In c (map fst (s_waiters s))).
  { eapply not_waiter; eauto. intros chs' H. rewrite Hst in H. discriminate H. }
  destruct o as [ch prio name tmo|c' chs| |c' i res e|c' js|dt|c'|k|c' i|i|i v| |dt|js|]; cbn [step].
  - destruct (push_cases ch prio name tmo s) as [[n E]|(j0&i&_&_&_&E)]; rewrite E; cbn [fst]; [reflexivity|].
    rewrite pushjob_conn_other by (sf; exact NW). reflexivity.
  - destruct (is_idle c' s) eqn:EI; [|reflexivity]. apply pop_conn_other. eapply idle_other; eauto.
  - exfalso. apply NR. reflexivity.
  - destruct (is_idle c' s) eqn:EI; [|reflexivity]. pose proof (idle_other _ _ _ _ EI Hst) as Ec.
    destruct (id_lookup (s_ids s) i) as [x|]; [|reflexivity]. cbv zeta. cbn [fst]. sf.
    rewrite get_put_other by (cbn [c_id]; exact Ec).
    match goal with |- context [mark_finished ?x ?u s] => destruct (mark_fields x u s) as (_&Hc&_) end.
    rewrite Hc. reflexivity.
  - destruct (is_idle c' s) eqn:EI; [|reflexivity]. pose proof (idle_other _ _ _ _ EI Hst) as Ec.
    cbv zeta. cbn [fst]. sf. rewrite get_put_other by (cbn [c_id]; exact Ec).
    rewrite (js_conns _ _ (killjobs_jstep js s)). reflexivity.
  - cbn [fst]. unfold handletimeouts, preenall. sf. rewrite (js_conns _ _ (timeouts_jstep _ _)). reflexivity.
  - destruct (c_st (get_conn (s_conns s) c')); reflexivity.
  - reflexivity.
  - destruct (is_idle c' s) eqn:EI; [|reflexivity]. pose proof (idle_other _ _ _ _ EI Hst) as Ec.
    destruct (id_lookup (s_ids s) i) as [x|]; [|reflexivity].
    destruct (getjob (s_jobs s) x) as [j|]; [|reflexivity].
    destruct (j_done j).
    + destruct (j_drop j && id_is (s_ids s) (j_id j) x); reflexivity.
    + cbn [fst]. sf. apply get_put_other. cbn [c_id]. exact Ec.
  - reflexivity.
  - destruct (id_lookup (s_ids s) i) as [x|]; reflexivity.
  - reflexivity.
  - reflexivity.
  - cbn [fst]. destruct (dropjobs_eqd js s) as (_&_&C). rewrite C. reflexivity.
  - cbn [fst]. unfold dropdead. destruct (dropdead_eqd (map fst (s_ids s)) s) as (_&_&C). rewrite C. reflexivity.
Qed.

(* one op, seen from a connection c blocked on ser: it stays blocked on ser, or the op is a hub turn that
   hands it the FINISHED record of ser, or the op is a hub turn in which the connection dies *)
Lemma step_track : forall s o c ser, GW s -> c_st (get_conn (s_conns s) c) = BWait ser ->
  c_st (get_conn (s_conns (fst (step s o))) c) = BWait ser \/
  (o = RunLoop /\ exists j, getjob (s_jobs s) ser = Some j /\ j_done j = true /\ In (OReleased c j) (snd (step s o))) \/
  (o = RunLoop /\ In (ODied c) (snd (step s o))).
Proof.
  intros s o c ser [(A&K&I) W] Hst.
  assert (DEC : o = RunLoop \/ o <> RunLoop) by (destruct o; try (right; discriminate); left; reflexivity).
  destruct DEC as [E|NR].
  - subst o. destruct (W c ser Hst) as [Ex _].
    destruct (getjob (s_jobs s) ser) as [j|] eqn:Ej; [|congruence]. cbn [step].
    assert (I0 : Inv (set_hub [] s) [] []) by (eapply inv_same; eauto).
    destruct (run_events_track (s_hub s) (set_hub [] s) c ser j I0 K Hst Ej) as [[St _]|[[R Rin]|[Dd _]]].
    + left. exact St.
    + right. left. split; [reflexivity|]. exists j. split; [reflexivity|]. split; [|exact R].
      destruct (K ser Rin) as (j'&Ej'&Dj'). sf. congruence.
    + right. right. split; [reflexivity|exact Dd].
  - left. rewrite (step_conn_blocked s o c ser I Hst NR). exact Hst.
Qed.

Fixpoint outs (h : list op) (s : state) : list out :=
  match h with
  | [] => []
  | o :: r => snd (step s o) ++ outs r (fst (step s o))
  end.

Lemma run_app : forall a b s, run (a ++ b) s = run b (run a s).
Proof. intros a b s. unfold run. apply fold_left_app. Qed.

Lemma outs_app : forall a b s, outs (a ++ b) s = outs a s ++ outs b (run a s).
Proof.
  induction a as [|o r IH]; intros b s; [reflexivity|]. cbn [app outs].
  rewrite IH. rewrite app_assoc. reflexivity.
Qed.

(* a finished job stays finished *)
Lemma done_stays : forall h2 s ser j, Good s -> getjob (s_jobs s) ser = Some j -> j_done j = true ->
  is_done (s_jobs (run h2 s)) ser = true.
Proof.
  intros h2 s ser j G Ej Dj. destruct (run_fin_le h2 s G ser j Ej Dj) as (j'&Ej'&Dj'&_).
  unfold is_done. rewrite Ej'. exact Dj'.
Qed.

(* a wait ends only by a release with the finished record or by the death of the connection *)
Lemma trace_track : forall h2 s c ser, GW s -> c_st (get_conn (s_conns s) c) = BWait ser ->
  c_st (get_conn (s_conns (run h2 s)) c) = BWait ser \/
  (exists j, j_serial j = ser /\ j_done j = true /\ In (OReleased c j) (outs h2 s) /\
             is_done (s_jobs (run h2 s)) ser = true) \/
  In (ODied c) (outs h2 s).
Proof.
  induction h2 as [|o r IH]; intros s c ser G Hst; [left; exact Hst|].
  destruct (step_track s o c ser G Hst) as [St|[(_&j&Ej&Dj&R)|(_&Dd)]].
  - change (run (o :: r) s) with (run r (fst (step s o))). cbn [outs].
    destruct (IH (fst (step s o)) c ser (step_gw s o G) St) as [St'|[(j&Sj&Dj&R&Dn)|Dd]].
    + left. exact St'.
    + right. left. exists j. split; [exact Sj|]. split; [exact Dj|]. split; [|exact Dn]. apply in_or_app. right. exact R.
    + right. right. apply in_or_app. right. exact Dd.
  - right. left. exists j. split; [eapply getjob_serial; eauto|]. split; [exact Dj|].
    split; [cbn [outs]; apply in_or_app; left; exact R|]. eapply done_stays; eauto. apply G.
  - right. right. cbn [outs]. apply in_or_app. left. exact Dd.
Qed.

(* (C) a client blocks on job ser (after any history h); whatever happens next (h2: other clients' requests,
   timers, hub turns, disconnects ...), once the job is finished the hub turn that follows leaves the client
   not waiting for it *)
Lemma wait_released_after_finish : forall h c ser h2, let s := run h init in let s2 := run h2 s in
  c_st (get_conn (s_conns s) c) = BWait ser ->
  is_done (s_jobs s2) ser = true ->
  c_st (get_conn (s_conns (fst (step s2 RunLoop))) c) <> BWait ser.
Proof.
  intros h c ser h2 s s2 _ D. apply runloop_no_waiter_gw; [|exact D].
  apply run_gw. apply reachable_gw.
Qed.

(* ... and over the whole trace from the wait to that hub turn, rpc_qwait of this client returned the
   FINISHED record of the job (exactly the job it blocked on), unless the connection died *)
Lemma wait_ends_by_release_or_death : forall h c ser h2, let s := run h init in let s2 := run h2 s in
  c_st (get_conn (s_conns s) c) = BWait ser ->
  is_done (s_jobs s2) ser = true ->
  let tr := outs (h2 ++ [RunLoop]) s in
  (exists j, j_serial j = ser /\ j_done j = true /\ In (OReleased c j) tr) \/ In (ODied c) tr.
Proof.
  intros h c ser h2 s s2 Hst D tr. subst tr. rewrite outs_app. fold s2. cbn [outs]. rewrite app_nil_r.
  assert (G : GW s) by apply reachable_gw.
  assert (G2 : GW s2) by (apply run_gw; exact G).
  destruct (trace_track h2 s c ser G Hst) as [St|[(j&Sj&Dj&R&_)|Dd]].
  - destruct (runloop_outcome_gw s2 c ser G2 St D) as (j&Ej&Dj&[R|[Dd _]]).
    + left. exists j. split; [eapply getjob_serial; eauto|]. split; [exact Dj|]. apply in_or_app. right. exact R.
    + right. apply in_or_app. right. exact Dd.
  - left. exists j. split; [exact Sj|]. split; [exact Dj|]. apply in_or_app. left. exact R.
  - right. apply in_or_app. left. exact Dd.
Qed.

(* until the job is finished the client stays blocked (it can only die): no early release *)
Lemma wait_blocks_until_finish : forall h c ser h2, let s := run h init in let s2 := run h2 s in
  c_st (get_conn (s_conns s) c) = BWait ser ->
  is_done (s_jobs s2) ser = false ->
  c_st (get_conn (s_conns s2) c) = BWait ser \/ In (ODied c) (outs h2 s).
Proof.
  intros h c ser h2 s s2 Hst D.
  assert (G : GW s) by apply reachable_gw.
  destruct (trace_track h2 s c ser G Hst) as [St|[(j&Sj&Dj&R&Dn)|Dd]]; [left; exact St| |right; exact Dd].
  exfalso. fold s2 in Dn. congruence.
Qed.

Definition live_h : list op := [Add 0 0 None None; Wait 1 (JAuto 1)].
Definition live_fin : op := Finish 2 (JAuto 1) (Some 7) ENone.

(* Add; Wait 1 a1 -> blocked; Finish 2 a1 -> notifier queued, still blocked; RunLoop -> released with the
   finished record *)
Example live_released :
  let s := run live_h init in
  let s2 := run [live_fin] s in
  outs live_h init = [OJid (JAuto 1); OBlocked] /\
  c_st (get_conn (s_conns s) 1) = BWait 1 /\ is_done (s_jobs s) 1 = false /\
  c_st (get_conn (s_conns s2) 1) = BWait 1 /\ is_done (s_jobs s2) 1 = true /\ s_hub s2 = [EvDone 1] /\
  c_st (get_conn (s_conns (fst (step s2 RunLoop))) 1) = Idle /\
  exists j, snd (step s2 RunLoop) = [OReleased 1 j] /\ j_serial j = 1 /\ j_done j = true /\ j_res j = Some 7.
Proof. vm_compute. repeat (split; [reflexivity|]). eexists. repeat split; reflexivity. Qed.

(* the other branch of runloop_outcome_gw: the client's disconnect was queued in front of the notification *)
Example live_died :
  let s := run live_h init in
  let s3 := run [Disconnect 1; live_fin] s in
  c_st (get_conn (s_conns s3) 1) = BWait 1 /\ is_done (s_jobs s3) 1 = true /\ s_hub s3 = [EvKill 1; EvDone 1] /\
  c_st (get_conn (s_conns (fst (step s3 RunLoop))) 1) = Dead /\ snd (step s3 RunLoop) = [ODied 1].
Proof. vm_compute. repeat split; reflexivity. Qed.

(* a client that starts waiting on the finished job while the notifier of the earlier waiter is still pending gets the
   job at once (since fix a8ac510: no wait on the event of a finished job - in gevent that wait could lose its wake-up); the hub
   turn then releases the earlier waiter *)
Example live_late_waiter :
  let s3 := run (live_h ++ [live_fin]) init in
  done_pending 1 (s_hub s3) = true /\
  (exists j, snd (step s3 (Wait 3 (JAuto 1))) = [OReleased 3 j] /\ j_done j = true) /\
  let s4 := fst (step s3 (Wait 3 (JAuto 1))) in
  c_st (get_conn (s_conns s4) 3) = Idle /\
  exists j, snd (step s4 RunLoop) = [OReleased 1 j] /\ j_done j = true.
Proof. vm_compute. split; [reflexivity|]. split; [eexists; split; reflexivity|]. split; [reflexivity|]. eexists. split; reflexivity. Qed.

(* the hypotheses of the general lemmas hold on the example *)
Example live_lemmas_apply :
  c_st (get_conn (s_conns (fst (step (run (live_h ++ [live_fin]) init) RunLoop))) 1) <> BWait 1.
Proof.
  apply (wait_released_after_finish live_h 1 1 [live_fin]); vm_compute; reflexivity.
Qed.
