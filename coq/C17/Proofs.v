(* C17 — what the ops output (good_delivery), finality of outcomes (fin_le), immediate release of a wait on a finished job. *)
From Coq Require Import List NArith Bool Lia Arith.
From MW Require Import C16.Model C16.Proofs.
Import ListNotations.
Open Scope N_scope.

Definition good_delivery (o : out) : Prop :=
  match o with
  | ODeliver c chs j => j_done j = false /\ eligible (j_chan j) chs
  | OReleased c j => j_done j = true              (* released from a wait: the job record is finished *)
  | _ => True
  end.

Lemma mem_true_iff : forall x l, mem x l = true <-> In x l.
Proof.
  intros x l. induction l as [|y r IH]; cbn [mem In]; [split; [discriminate|intros []]|].
  rewrite orb_true_iff, N.eqb_eq, IH. reflexivity.
Qed.

Lemma deliver_out : forall c chs x s o, In o (snd (deliver c chs x s)) ->
  exists j, o = ODeliver c chs j /\ getjob (s_jobs s) x = Some j.
Proof.
  intros c chs x s o. unfold deliver. destruct (getjob (s_jobs s) x) as [j|]; cbn [snd]; intro H; [|destruct H].
  destruct H as [H|[]]. exists j. auto.
Qed.

Lemma pop_out : forall c chs s o, Inv s [] [] -> In o (snd (pop_or_block c chs s)) -> good_delivery o.
Proof.
  intros c chs s o I. unfold pop_or_block. cbv zeta.
  pose proof (preenall_inv _ _ _ I) as I1. destruct (preenall_fields s) as (Hj&Hc&Hw&Hi&Hn).
  set (s1 := preenall s) in *.
  destruct (heads (s_queues s1) _) as [[p x]|] eqn:EH.
  - destruct (pop_head _ _ _ _ _ _ I EH) as (k&rest&j&Hk&_&Ej&Dj&Hch&_). rewrite <- Hj in Ej. cbn [snd].
    rewrite Ej. intro H. apply deliver_out in H. destruct H as (j'&Ho&Ej'). sf. rewrite Ej in Ej'. inversion Ej'; subst j' o.
    cbn [good_delivery]. split; [exact Dj|].
    destruct chs as [|c0 r]; [left; reflexivity|right]. rewrite Hch. apply mem_true_iff. exact Hk.
  - cbn [snd]. intros [H|[]]. subst o. exact Logic.I.
Qed.

Lemma release_out : forall ser js cs o, In o (snd (release ser js cs)) -> exists c j, o = OReleased c j /\ getjob js ser = Some j.
Proof.
  intros ser js cs o. induction cs as [|y r IH]; cbn [release]; [intros []|].
  destruct (release ser js r) as [r' o']. cbn [snd] in *.
  destruct (c_st y) as [| |w|]; cbn [snd]; auto.
  destruct (w =? ser); cbn [snd]; auto.
  destruct (getjob js ser) as [j|] eqn:E; auto.
  intros [H|H]; [exists (c_id y), j; auto|auto].
Qed.

Lemma evdone_out : forall s ser o, In o (snd (run_event (EvDone ser) s)) ->
  exists c j, o = OReleased c j /\ getjob (s_jobs s) ser = Some j.
Proof.
  intros s ser o. cbn [run_event]. destruct (release ser (s_jobs s) (s_conns s)) as [cs o'] eqn:ER.
  pose proof (release_out ser (s_jobs s) (s_conns s) o) as R. rewrite ER in R. cbn [snd] in R.
  destruct (getjob (s_jobs s) ser) as [j|] eqn:Ej; [|cbn [snd]; intro H; exact (R H)].
  destruct (j_drop j && has_waiter ser (s_conns s) && id_is (s_ids s) (j_id j) ser); cbn [snd]; intro H; exact (R H).
Qed.

Lemma run_event_out : forall e s o, Inv s [] [] -> (forall ser, e = EvDone ser -> really_done (s_jobs s) ser) ->
  In o (snd (run_event e s)) -> good_delivery o.
Proof.
  intros e s o I HD. destruct e as [c|c|ser]; cbn [run_event].
  - destruct (c_st (get_conn (s_conns s) c)) as [|chs [x|]|w|] eqn:ES; try (intros []).
    destruct (is_done (s_jobs s) x) eqn:D.
    + apply pop_out; auto.
    + intro H. apply deliver_out in H. destruct H as (j&Ho&Ej). subst o. cbn [good_delivery].
      destruct (inv_mb _ _ _ I _ _ _ ES) as (j'&Ej'&He). rewrite Ej in Ej'. inversion Ej'; subst j'.
      split; [|exact He]. unfold is_done in D. rewrite Ej in D. exact D.
  - destruct (c_st (get_conn (s_conns s) c)) as [|chs mb|w|]; unfold die; cbn [snd];
      try (intros [H|[]]; subst o; exact Logic.I); intros [].
  - intro H. destruct (evdone_out s ser o H) as (c&j&Ho&Ej). subst o. cbn [good_delivery].
    destruct (HD ser eq_refl) as (j'&Ej'&Dj'). congruence.
Qed.

Lemma run_events_out : forall es s o, Inv s [] [] -> hub_ok (s_jobs s) es -> In o (snd (run_events es s)) -> good_delivery o.
Proof.
  induction es as [|e r IH]; intros s o I HD; [intros []|]. rewrite run_events_cons. cbn [snd].
  assert (HDe : forall ser, e = EvDone ser -> really_done (s_jobs s) ser) by (intros ser E; apply HD; left; exact E).
  intro H. apply in_app_or in H. destruct H as [H|H]; [exact (run_event_out e s o I HDe H)|].
  apply (IH (fst (run_event e s))); [apply run_event_inv; assumption| |exact H].
  rewrite run_event_jobs. intros ser Hin. apply HD. right. exact Hin.
Qed.

(* an output that is neither a delivery nor a release *)
Definition plain (o : out) : Prop :=
  match o with ODeliver _ _ _ | OReleased _ _ => False | _ => True end.

Lemma plain_good : forall o x, plain o -> In x [o] -> good_delivery x.
Proof. intros o x P [H|[]]. subst x. destruct o; try exact Logic.I; destruct P. Qed.

(* only StartPull, RunLoop and Wait deliver or release; every other op answers with one plain output *)
Lemma step_out : forall s o x, HubOK s -> Inv s [] [] -> In x (snd (step s o)) -> good_delivery x.
Proof.
  intros s o x K I. destruct o as [ch prio name tmo|c chs| |c i res e|c js|dt|c|k|c i|i|i v| |dt|js|]; cbn [step].
  - (* Add *) destruct (push ch prio name tmo s). apply plain_good. exact Logic.I.
  - (* StartPull *) destruct (is_idle c s); [apply pop_out; exact I|]. apply plain_good. exact Logic.I.
  - (* RunLoop *) apply run_events_out; [eapply inv_same; eauto|exact K].
  - (* Finish *) destruct (is_idle c s); [destruct (id_lookup (s_ids s) i)|]; apply plain_good; exact Logic.I.
  - (* Kill *) destruct (is_idle c s); apply plain_good; exact Logic.I.
  - (* Tick *) apply plain_good. exact Logic.I.
  - (* Disconnect *) destruct (c_st (get_conn (s_conns s) c)); apply plain_good; exact Logic.I.
  - (* Choice *) apply plain_good. exact Logic.I.
  - (* Wait: a finished job is released at once *)
    destruct (is_idle c s); [|apply plain_good; exact Logic.I].
    destruct (id_lookup (s_ids s) i) as [ser|]; [|apply plain_good; exact Logic.I].
    destruct (getjob (s_jobs s) ser) as [j|]; [|apply plain_good; exact Logic.I].
    destruct (j_done j) eqn:ED; [|apply plain_good; exact Logic.I].
    cbn [snd]. intros [H|[]]. subst x. exact ED.
  - (* Info *) apply plain_good. exact Logic.I.
  - (* SetInfo *) destruct (id_lookup (s_ids s) i); apply plain_good; exact Logic.I.
  - (* Stats *) apply plain_good. exact Logic.I.
  - (* Advance *) apply plain_good. exact Logic.I.
  - (* Drop *) apply plain_good. exact Logic.I.
  - (* Watchdog *) apply plain_good. exact Logic.I.
Qed.

Definition fin_le (js js' : list job) : Prop :=
  forall x j, getjob js x = Some j -> j_done j = true ->
  exists j', getjob js' x = Some j' /\ j_done j' = true /\ j_err j' = j_err j /\ j_res j' = j_res j.

Lemma fin_le_refl : forall js, fin_le js js.
Proof. intros js x j E D. exists j. auto. Qed.

Lemma fin_le_eq : forall js js', js' = js -> fin_le js js'.
Proof. intros; subst; apply fin_le_refl. Qed.

Lemma fin_le_trans : forall a b c, fin_le a b -> fin_le b c -> fin_le a c.
Proof.
  intros a b c H1 H2 x j E D. destruct (H1 _ _ E D) as (j1&E1&D1&He1&Hr1).
  destruct (H2 _ _ E1 D1) as (j2&E2&D2&He2&Hr2). exists j2. repeat split; congruence.
Qed.

Lemma mark_fin_le : forall ser u s, fin_le (s_jobs s) (s_jobs (mark_finished ser u s)).
Proof.
  intros ser u s. unfold mark_finished. destruct (getjob (s_jobs s) ser) as [j0|] eqn:E0; [|apply fin_le_refl].
  destruct (j_done j0) eqn:D0; [apply fin_le_refl|]. sf. intros x j E D.
  rewrite getjob_setjob by (intros; cbn; eapply getjob_serial; eauto).
  destruct (x =? ser) eqn:Ex.
  - apply N.eqb_eq in Ex. subst x. rewrite E in E0. inversion E0; subst. congruence.
  - exists j. auto.
Qed.

Lemma timeouts_fin_le : forall q s, fin_le (s_jobs s) (s_jobs (timeouts_loop q s)).
Proof.
  intros q s. apply (timeouts_loop_ind (fun s' => fin_le (s_jobs s) (s_jobs s'))); [|auto|apply fin_le_refl].
  intros x e s0 H. eapply fin_le_trans; [exact H|apply mark_fin_le].
Qed.

Lemma setjob_fin_le : forall js ser f, field_edit f -> fin_le js (setjob ser f js).
Proof.
  intros js ser f Hf x j E D. rewrite getjob_edit by exact Hf.
  destruct (x =? ser) eqn:Ex.
  - apply N.eqb_eq in Ex. subst x. rewrite E. cbn. exists (f j). destruct (Hf j) as (_&_&_&_&H1&H2&H3&_).
    repeat split; congruence.
  - exists j. auto.
Qed.

Lemma prim_fin_le : forall s s', prim s s' -> fin_le (s_jobs s) (s_jobs s').
Proof.
  intros s s' [s0 s1 S|s0 j0 _ N _ _|s0 x j _|s0 x u|s0 ser f Hf _|s0 i|s0 l tq _ _]; try apply fin_le_refl.
  - apply fin_le_eq, side_jobs, S.
  - intros x j Ej D. exists j. repeat split; auto. unfold register. sf. apply getjob_cons_old; [exact Ej|congruence].
  - apply mark_fin_le.
  - apply setjob_fin_le, Hf.
Qed.

Lemma step_fin_le : forall s o, Inv s [] [] -> fin_le (s_jobs s) (s_jobs (fst (step s o))).
Proof.
  intros s o I. apply (prims_inv (fun s' => fin_le (s_jobs s) (s_jobs s'))) with (s := s);
    [|apply step_prims, (inv_tab _ _ _ I)|apply fin_le_refl].
  intros a b Q H. eapply fin_le_trans; [exact H|apply prim_fin_le; exact Q].
Qed.

Lemma run_fin_le : forall h2 s, Good s -> fin_le (s_jobs s) (s_jobs (run h2 s)).
Proof.
  induction h2 as [|o r IH]; intros s G; [apply fin_le_refl|].
  change (run (o :: r) s) with (run r (fst (step s o))).
  eapply fin_le_trans; [apply step_fin_le; apply G|apply IH; apply step_good; exact G].
Qed.

Lemma wait_done_immediate : forall s c i ser j,
  is_idle c s = true -> id_lookup (s_ids s) i = Some ser -> getjob (s_jobs s) ser = Some j -> j_done j = true ->
  j_drop j = false ->
  step s (Wait c i) = (s, [OReleased c j]).
Proof. intros s c i ser j EI El E D Dr. cbn [step]. rewrite EI, El, E, D, Dr. reflexivity. Qed.

(* the only hub event that releases a waiting client is the finish event of its job; every client it releases gets
   the job record (no KeyError since fix b6f8314), and the record is finished when the notification was queued by
   _mark_finished (HubOK) *)
Lemma released_is_done : forall s ser o, really_done (s_jobs s) ser ->
  In o (snd (run_event (EvDone ser) s)) ->
  exists c j, o = OReleased c j /\ getjob (s_jobs s) ser = Some j /\ j_done j = true.
Proof.
  intros s ser o (j'&Ej'&Dj') H. destruct (evdone_out s ser o H) as (c&j&Ho&Ej). exists c, j. repeat split; auto. congruence.
Qed.
