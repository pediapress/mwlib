(* C17 — per-channel outcome counters add up to the number of finished jobs. *)
From Coq Require Import List NArith Bool Lia Arith.
From MW Require Import C16.Model C16.Proofs C17.Proofs.
Import ListNotations.
Open Scope N_scope.

Definition total (c : counts) : N := n_error c + n_timeout c + n_killed c + n_success c.

(* finished job OBJECTS of channel ch among all objects created since the server (re)started.  A killed id
   that is added again is a new object: the killed one and (once finished) the new one both count. *)
Fixpoint donecount (js : list job) (ch : N) : N :=
  match js with
  | [] => 0
  | j :: r => (if j_done j && (j_chan j =? ch) then 1 else 0) + donecount r ch
  end.

Lemma total_bump : forall e c, total (bump e c) = total c + 1.
Proof.
  intros e c. unfold bump, total.
  repeat match goal with |- context [match ?x with _ => _ end] => destruct x end; cbn [n_error n_timeout n_killed n_success]; lia.
Qed.

Lemma cnt_get_set_same : forall cs c v, cnt_get (cnt_set cs c v) c = v.
Proof.
  induction cs as [|[k w] r IH]; intros c v; cbn [cnt_set cnt_get].
  - rewrite N.eqb_refl. reflexivity.
  - destruct (k =? c) eqn:E; cbn [cnt_get]; rewrite E; [reflexivity|apply IH].
Qed.

Lemma cnt_get_set_other : forall cs c v k, k <> c -> cnt_get (cnt_set cs c v) k = cnt_get cs k.
Proof.
  induction cs as [|[k0 w] r IH]; intros c v k H; cbn [cnt_set cnt_get].
  - destruct (c =? k) eqn:E; [apply N.eqb_eq in E; congruence|reflexivity].
  - destruct (k0 =? c) eqn:E; cbn [cnt_get].
    + apply N.eqb_eq in E. subst k0. destruct (c =? k) eqn:E2; [apply N.eqb_eq in E2; congruence|reflexivity].
    + destruct (k0 =? k); [reflexivity|apply IH; exact H].
Qed.

(* updates that keep done and channel keep the count *)
Lemma donecount_setjob_same : forall js ser f ch, field_edit f ->
  donecount (setjob ser f js) ch = donecount js ch.
Proof.
  intros js ser f ch Hf. unfold setjob. induction js as [|z r IH]; cbn [map donecount]; [reflexivity|].
  rewrite IH. destruct (j_serial z =? ser); [|reflexivity]. destruct (Hf z) as (_&_&H2&_&H1&_). rewrite H1, H2. reflexivity.
Qed.

Lemma setjob_notin : forall js ser f, ~ In ser (map j_serial js) -> setjob ser f js = js.
Proof.
  intros js ser f. unfold setjob. induction js as [|z r IH]; cbn [map]; intro H; [reflexivity|].
  destruct (j_serial z =? ser) eqn:E.
  - apply N.eqb_eq in E. exfalso. apply H. left. exact E.
  - rewrite IH; [reflexivity|]. intro Hin. apply H. right. exact Hin.
Qed.

(* finishing one unfinished object adds one to its channel *)
Lemma donecount_finish : forall js ser j fin ch,
  NoDup (map j_serial js) -> getjob js ser = Some j -> j_done j = false ->
  j_done fin = true -> j_chan fin = j_chan j ->
  donecount (setjob ser (fun _ => fin) js) ch = donecount js ch + (if j_chan j =? ch then 1 else 0).
Proof.
  intros js ser j fin ch. induction js as [|z r IH]; intros ND E D Df Cf; [discriminate|].
  cbn [map] in ND. inversion ND as [|? ? Hnot ND']; subst. cbn [getjob] in E.
  unfold setjob in *. cbn [map donecount]. destruct (j_serial z =? ser) eqn:Ez.
  - inversion E; subst z. apply N.eqb_eq in Ez. rewrite <- Ez in *.
    pose proof (setjob_notin r (j_serial j) (fun _ => fin) Hnot) as Hs. unfold setjob in Hs. rewrite Hs.
    rewrite Df, Cf, D. cbn [andb]. lia.
  - rewrite (IH ND' E D Df Cf). lia.
Qed.

(* the counter invariant, relative to `base` = finished jobs that were already there at the last (re)start *)
Record CI (base : N -> N) (s : state) : Prop := {
  ci_nd : NoDup (map j_serial (s_jobs s));
  ci_le : forall j, In j (s_jobs s) -> j_serial j <= s_count s;
  ci_sum : forall ch, total (cnt_get (s_cnt s) ch) + base ch = donecount (s_jobs s) ch
}.

Lemma ci_same : forall b s s', s_jobs s' = s_jobs s -> s_count s' = s_count s -> s_cnt s' = s_cnt s -> CI b s -> CI b s'.
Proof. intros b s s' H1 H2 H3 [A B C]. constructor; rewrite ?H1, ?H2, ?H3; assumption. Qed.

Lemma setjob_serials : forall js ser f, (forall j, j_serial j = ser -> j_serial (f j) = j_serial j) ->
  map j_serial (setjob ser f js) = map j_serial js.
Proof.
  intros js ser f Hf. unfold setjob. induction js as [|z r IH]; cbn [map]; [reflexivity|]. rewrite IH.
  destruct (j_serial z =? ser) eqn:E; [apply N.eqb_eq in E; rewrite (Hf _ E)|]; reflexivity.
Qed.

Lemma setjob_In : forall js ser f j, In j (setjob ser f js) -> exists j0, In j0 js /\ (j = j0 \/ j = f j0).
Proof.
  intros js ser f j H. unfold setjob in H. apply in_map_iff in H. destruct H as (j0&He&Hin). exists j0. split; [exact Hin|].
  destruct (j_serial j0 =? ser); auto.
Qed.

Lemma ci_setjob_same : forall b s ser f, field_edit f -> CI b s -> CI b (set_jobs (setjob ser f (s_jobs s)) s).
Proof.
  intros b s ser f Hf [A B C]. constructor; sf.
  - rewrite setjob_serials by (intros j _; apply Hf). exact A.
  - intros j Hin. apply setjob_In in Hin. destruct Hin as (j0&Hin&[He|He]); subst j; [|rewrite (proj1 (Hf j0))]; apply B; exact Hin.
  - intro ch. rewrite donecount_setjob_same by exact Hf. apply C.
Qed.

Lemma getjob_In : forall js x j, getjob js x = Some j -> In j js.
Proof.
  induction js as [|z r IH]; intros x j H; [discriminate|]. cbn [getjob] in H.
  destruct (j_serial z =? x); [inversion H; left; reflexivity|right; eapply IH; eauto].
Qed.

Lemma ci_mark : forall b x u s, CI b s -> CI b (mark_finished x u s).
Proof.
  intros b x u s [A B C]. unfold mark_finished. destruct (getjob (s_jobs s) x) as [j|] eqn:E; [|constructor; assumption].
  destruct (j_done j) eqn:D; [constructor; assumption|].
  set (fin := mkJob (j_serial j) (j_id j) (j_chan j) (j_prio j) (j_timeout j) true (j_err (u j)) (j_res (u j)) (j_info j) (j_ttl (u j)) (j_dl j) (j_drop j)).
  pose proof (getjob_serial _ _ _ E) as Hs.
  constructor; sf.
  - rewrite setjob_serials; [exact A|]. intros j0 H0. cbn [j_serial fin]. congruence.
  - intros j0 Hin. unfold setjob in Hin. apply in_map_iff in Hin. destruct Hin as (j1&He&Hin).
    destruct (j_serial j1 =? x) eqn:E1; [|subst j0; apply B; exact Hin].
    subst j0. cbn [j_serial fin]. apply B. eapply getjob_In; eauto.
  - intro ch. rewrite (donecount_finish (s_jobs s) x j fin ch A E D eq_refl eq_refl).
    cbn [j_err fin]. destruct (N.eq_dec ch (j_chan j)) as [Ec|Ec].
    + subst ch. rewrite cnt_get_set_same, total_bump, N.eqb_refl. specialize (C (j_chan j)). lia.
    + rewrite cnt_get_set_other by exact Ec. destruct (j_chan j =? ch) eqn:E2; [apply N.eqb_eq in E2; congruence|].
      specialize (C ch). lia.
Qed.

Lemma ci_ledger : forall b s s', ledger s' = ledger s -> CI b s -> CI b s'.
Proof. intros b s s' H. unfold ledger in H. inversion H. apply ci_same; assumption. Qed.

Lemma pushjob_ledger : forall x s, ledger (pushjob x s) = ledger s.
Proof. intros. apply pushjob_qmove. Qed.

Lemma pop_ledger : forall c chs s, ledger (fst (pop_or_block c chs s)) = ledger s.
Proof. intros. apply pop_qmove. Qed.

Lemma run_events_ledger : forall es s, ledger (fst (run_events es s)) = ledger s.
Proof. intros. apply run_events_qmove. Qed.

Lemma ci_prim : forall b s s', prim s s' -> CI b s -> CI b s'.
Proof.
  intros b s s' [s0 s1 S|s0 j0 Hs _ Hd _|s0 x j _|s0 x u|s0 ser f Hf _|s0 i|s0 l tq _ _] H;
    try (eapply ci_same; [| | |exact H]; reflexivity).
  - eapply ci_ledger; [apply S|exact H].
  - destruct H as [A B C]. constructor; unfold register; sf.
    + cbn [map]. constructor; [|exact A]. intro Hin. apply in_map_iff in Hin. destruct Hin as (j1&He&Hin).
      specialize (B j1 Hin). lia.
    + intros j [Hj|Hj]; [subst j; lia|]. specialize (B j Hj). lia.
    + intro ch. cbn [donecount]. rewrite Hd. cbn [andb]. apply C.
  - apply ci_mark. exact H.
  - apply ci_setjob_same; assumption.
Qed.

Lemma step_ci : forall b s o, CI b s -> CI b (fst (step s o)).
Proof.
  intros b s o H. apply (prims_inv (CI b) (ci_prim b) s); [apply step_prims|exact H].
  intros x j E. rewrite <- (getjob_serial _ _ _ E). exact (ci_le _ _ H j (getjob_In _ _ _ E)).
Qed.

Lemma run_ci : forall b h s, CI b s -> CI b (run h s).
Proof. intros b h s. apply (invariant_reachable (CI b)). intros s0 o. apply step_ci. Qed.

Lemma ci_init : CI (fun _ => 0) init.
Proof. constructor; cbn; [constructor|intros j []|intro ch; reflexivity]. Qed.

(* since the server started: counters of channel ch add up to the number of finished job objects of ch *)
Lemma counters : forall h ch,
  let s := run h init in
  total (cnt_get (s_cnt s) ch) = donecount (s_jobs s) ch.
Proof. intros h ch s. unfold s. pose proof (ci_sum _ _ (run_ci _ h init ci_init) ch) as H. cbv beta in H. lia. Qed.
