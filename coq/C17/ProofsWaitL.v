(* C17 — rpc_qwait with SEVERAL ids (coq/C16/ModelWaitL.v): the invariant Good over every history of the
   extended state machine (all ops of Model.v + WaitL), and what a WaitL does in a single state. *)
From Coq Require Import List NArith Bool Lia.
From MW Require Import C16.Model C16.ModelWaitL C16.Proofs C17.Proofs C17.ProofsLive.
Import ListNotations.
Open Scope N_scope.

Lemma forget_fields : forall j s,
  s_jobs (forget_dropped j s) = s_jobs s /\ s_conns (forget_dropped j s) = s_conns s /\ s_hub (forget_dropped j s) = s_hub s.
Proof. intros j s. unfold forget_dropped. destruct (j_drop j && id_is (s_ids s) (j_id j) (j_serial j)); sf; auto. Qed.

Lemma forget_idle : forall j s c, is_idle c (forget_dropped j s) = is_idle c s.
Proof. intros j s c. unfold is_idle. destruct (forget_fields j s) as (_&E&_). rewrite E. reflexivity. Qed.

(* what the loop does with a finished job is what a one-id Wait on its id does (or nothing) *)
Lemma forget_as_step : forall s c ser j, is_idle c s = true -> getjob (s_jobs s) ser = Some j -> j_done j = true ->
  forget_dropped j s = s \/ forget_dropped j s = fst (step s (Wait c (j_id j))).
Proof.
  intros s c ser j EI Ej Dj. unfold forget_dropped.
  pose proof (getjob_serial _ _ _ Ej) as Es. rewrite Es.
  destruct (j_drop j && id_is (s_ids s) (j_id j) ser) eqn:E; [right|left; reflexivity].
  apply andb_prop in E. destruct E as [E1 E2]. pose proof (id_is_spec _ _ _ E2) as El.
  cbn [step]. rewrite EI, El, Ej, Dj, E1, E2. reflexivity.
Qed.

(* ... and blocking on an unfinished job is a one-id Wait on its id *)
Lemma block_as_step : forall s c ser j, is_idle c s = true -> getjob (s_jobs s) ser = Some j -> j_done j = false ->
  id_lookup (s_ids s) (j_id j) = Some ser ->
  set_conns (put_conn (s_conns s) (mkConn c (BWait ser) (c_run (get_conn (s_conns s) c)))) s = fst (step s (Wait c (j_id j))).
Proof. intros s c ser j EI Ej Dj El. cbn [step]. rewrite EI, El, Ej, Dj. reflexivity. Qed.

Lemma wait_from_jobs : forall c all rest s, s_jobs (fst (fst (wait_from c all rest s))) = s_jobs s /\
                                             s_hub (fst (fst (wait_from c all rest s))) = s_hub s.
Proof.
  intros c all rest. induction rest as [|ser r IH]; intros s; cbn [wait_from]; [auto|].
  destruct (getjob (s_jobs s) ser) as [j|]; [|apply IH].
  destruct (j_done j).
  - destruct (IH (forget_dropped j s)) as [A B]. destruct (forget_fields j s) as (E1&_&E3). rewrite A, B. auto.
  - sf. auto.
Qed.

(* the state the loop leaves is reached from s by one-id Waits of the same connection: every invariant of Model.v's
   reachable states carries over *)
Lemma wait_from_run : forall c all rest s, Good s -> is_idle c s = true ->
  exists h, fst (fst (wait_from c all rest s)) = run h s.
Proof.
  intros c all rest. induction rest as [|ser r IH]; intros s G EI; cbn [wait_from].
  - exists []. reflexivity.
  - destruct (getjob (s_jobs s) ser) as [j|] eqn:Ej; [|apply IH; auto].
    destruct (j_done j) eqn:Dj.
    + destruct (forget_as_step s c ser j EI Ej Dj) as [E|E]; rewrite E.
      * apply IH; auto.
      * destruct (IH (fst (step s (Wait c (j_id j))))) as [h Hh].
        { apply step_good; exact G. }
        { rewrite <- E. rewrite forget_idle. exact EI. }
        exists (Wait c (j_id j) :: h). rewrite Hh. reflexivity.
    + destruct G as (A&K&I).
      pose proof (inv_addr _ _ _ I ser j Ej Dj eq_refl) as El.
      exists [Wait c (j_id j)]. cbn [fst]. rewrite (block_as_step s c ser j EI Ej Dj El). reflexivity.
Qed.

Lemma wait_from_good : forall c all rest s, Good s -> is_idle c s = true -> Good (fst (fst (wait_from c all rest s))).
Proof. intros c all rest s G EI. destruct (wait_from_run c all rest s G EI) as [h Hh]. rewrite Hh. apply run_good. exact G. Qed.

Lemma hub_ok_jobs : forall js js' es, js' = js -> hub_ok js es -> hub_ok js' es.
Proof. intros; subst; auto. Qed.

Lemma resume_good : forall ser ws s k es, Good s -> hub_ok (s_jobs s) es ->
  Good (fst (fst (resume ser ws (s, k)))) /\ hub_ok (s_jobs (fst (fst (resume ser ws (s, k))))) es.
Proof.
  intros ser ws. induction ws as [|c r IH]; intros s k es G H; cbn [resume]; [split; assumption|].
  destruct (is_idle c s) eqn:EI; [|apply IH; assumption].
  destruct (match k_get k c with Some (cur, v) => if cur =? ser then v else ([], [ser]) | None => ([], [ser]) end) as [rest all].
  pose proof (wait_from_good c all rest s G EI) as G1.
  destruct (wait_from_jobs c all rest s) as [J1 _].
  destruct (wait_from c all rest s) as [[s1 [[ser' r']|]] o]; cbn [fst] in G1, J1.
  - destruct (IH s1 (k_set k c (ser', (r', all))) es G1 (hub_ok_jobs _ _ _ J1 H)) as [A B].
    destruct (resume ser r (s1, k_set k c (ser', (r', all)))) as [x2 o2]. split; assumption.
  - destruct (IH s1 (k_del k c) es G1 (hub_ok_jobs _ _ _ J1 H)) as [A B].
    destruct (resume ser r (s1, k_del k c)) as [x2 o2]. split; assumption.
Qed.

Lemma run_event_good : forall e s es, Good s -> hub_ok (s_jobs s) (e :: es) ->
  Good (fst (run_event e s)) /\ hub_ok (s_jobs (fst (run_event e s))) es.
Proof.
  intros e s es (A&K&I) H. split; [split; [|split]|].
  - eapply aux_same; [apply run_event_jobs|exact A].
  - eapply hub_nnd; [apply qmove_nnd, run_event_qmove|exact K].
  - apply run_event_inv; [exact I|]. intros ser E. apply H. left. exact E.
  - rewrite run_event_jobs. intros ser Hin. apply H. right. exact Hin.
Qed.

Lemma xrun_event_good : forall e s k es, Good s -> hub_ok (s_jobs s) (e :: es) ->
  Good (fst (fst (xrun_event e (s, k)))) /\ hub_ok (s_jobs (fst (fst (xrun_event e (s, k))))) es.
Proof.
  intros e s k es G H. destruct (run_event_good e s es G H) as [G1 H1].
  destruct e as [c|c|ser]; cbn [xrun_event].
  - destruct (run_event (EvNotify c) s) as [s1 o]; cbn [fst] in *. split; assumption.
  - destruct (run_event (EvKill c) s) as [s1 o]; cbn [fst] in *. split; assumption.
  - destruct (run_event (EvDone ser) s) as [s1 o]; cbn [fst] in *. apply resume_good; assumption.
Qed.

Lemma xrun_events_good : forall es s k, Good s -> hub_ok (s_jobs s) es -> Good (fst (fst (xrun_events es (s, k)))).
Proof.
  induction es as [|e r IH]; intros s k G H; cbn [xrun_events]; [exact G|].
  destruct (xrun_event_good e s k r G H) as [G1 H1].
  destruct (xrun_event e (s, k)) as [[s1 k1] o1]; cbn [fst] in *.
  specialize (IH s1 k1 G1 H1). destruct (xrun_events r (s1, k1)) as [x2 o2]. exact IH.
Qed.

Lemma wait_start_good : forall c is s k, Good s -> Good (fst (fst (wait_start c is (s, k)))).
Proof.
  intros c is s k G. unfold wait_start. destruct (is_idle c s) eqn:EI; [|exact G].
  destruct (resolve s is) as [all|]; [|exact G].
  pose proof (wait_from_good c all all s G EI) as G1.
  destruct (wait_from c all all s) as [[s1 [[ser r]|]] o]; exact G1.
Qed.

Lemma base_step_good : forall s (k : conts) b, Good s ->
  Good (fst (fst (let (s1, out) := step s b in ((s1, k), out)))).
Proof. intros s k b G. pose proof (step_good s b G) as H. destruct (step s b) as [s1 out]. exact H. Qed.

Lemma xstep_good : forall x o, Good (fst x) -> Good (fst (fst (xstep x o))).
Proof.
  intros [s k] o G. cbn [fst] in G. destruct o as [b|c is]; [|apply wait_start_good; exact G].
  destruct b; cbn [xstep]; try (apply base_step_good; exact G).
  - (* RunLoop *)
    destruct G as (A&K&I). apply xrun_events_good.
    + split; [|split].
      * eapply aux_same; [|exact A]. reflexivity.
      * intros ser [].
      * eapply inv_same; eauto.
    + exact K.
  - (* Wait *) apply wait_start_good; exact G.
Qed.

Lemma xrun_good : forall h x, Good (fst x) -> Good (fst (xrun h x)).
Proof. induction h as [|o r IH]; intros x G; [exact G|]. cbn [xrun fold_left]. apply IH. apply xstep_good. exact G. Qed.

Lemma x_reachable_good : forall h, Good (fst (xrun h xinit)).
Proof. intros h. apply xrun_good. exact good_init. Qed.

Definition all_done (s : state) (l : list N) : Prop := forall x, In x l -> really_done (s_jobs s) x.

Lemma all_done_jobs : forall s s' l, s_jobs s' = s_jobs s -> all_done s l -> all_done s' l.
Proof. intros s s' l E H x Hx. unfold really_done. rewrite E. apply H. exact Hx. Qed.

(* every job of the rest finished: the loop runs through (forgetting the ids of dropped jobs) and returns all records *)
Lemma wait_from_all_done : forall c all rest s, all_done s rest ->
  exists s', wait_from c all rest s = (s', None, records s' c all) /\
             s_jobs s' = s_jobs s /\ s_conns s' = s_conns s /\ s_hub s' = s_hub s.
Proof.
  intros c all rest. induction rest as [|ser r IH]; intros s H; cbn [wait_from].
  - exists s. auto.
  - destruct (H ser (or_introl eq_refl)) as (j&Ej&Dj). rewrite Ej, Dj.
    destruct (forget_fields j s) as (F1&F2&F3).
    destruct (IH (forget_dropped j s)) as (s'&E&A&B&C).
    { eapply all_done_jobs; [exact F1|]. intros x Hx. apply H. right. exact Hx. }
    exists s'. rewrite E. repeat split; congruence.
Qed.

(* ... and blocks on the FIRST unfinished one, keeping what follows for later *)
Lemma wait_from_blocks : forall c all pre ser post s j, all_done s pre ->
  getjob (s_jobs s) ser = Some j -> j_done j = false ->
  exists s', wait_from c all (pre ++ ser :: post) s = (s', Some (ser, post), []) /\
             s_jobs s' = s_jobs s /\ c_st (get_conn (s_conns s') c) = BWait ser.
Proof.
  intros c all pre. induction pre as [|p r IH]; intros ser post s j H Ej Dj; cbn [app wait_from].
  - rewrite Ej, Dj. eexists. split; [reflexivity|]. sf. split; [reflexivity|].
    pose proof (get_put_same (s_conns s) (mkConn c (BWait ser) (c_run (get_conn (s_conns s) c)))) as G.
    cbn [c_id] in G. rewrite G. reflexivity.
  - destruct (H p (or_introl eq_refl)) as (jp&Ep&Dp). rewrite Ep, Dp.
    destruct (forget_fields jp s) as (F1&F2&F3).
    destruct (IH ser post (forget_dropped jp s) j) as (s'&E&A&B).
    { eapply all_done_jobs; [exact F1|]. intros x Hx. apply H. right. exact Hx. }
    { rewrite F1. exact Ej. } { exact Dj. }
    exists s'. rewrite E. repeat split; congruence.
Qed.

Lemma k_get_set : forall k c v, k_get (k_set k c v) c = Some v.
Proof. intros k c v. unfold k_set. cbn [k_get]. rewrite N.eqb_refl. reflexivity. Qed.

(* "released exactly when ALL are finished", the immediate half: every id names a finished job -> the request returns at
   once with all records in request order; nothing but the id table (ids of dropped jobs) changes *)
Lemma waitl_all_done_immediate : forall s k c is all,
  is_idle c s = true -> resolve s is = Some all -> all_done s all ->
  exists s', xstep (s, k) (WaitL c is) = ((s', k_del k c), records s' c all) /\
             s_jobs s' = s_jobs s /\ s_conns s' = s_conns s /\ s_hub s' = s_hub s.
Proof.
  intros s k c is all EI ER H. cbn [xstep]. unfold wait_start. rewrite EI, ER.
  destruct (wait_from_all_done c all all s H) as (s'&E&A&B&C). rewrite E. exists s'. auto.
Qed.

(* the blocking half: the client blocks on the first unfinished job object of its list; the continuation remembers the
   OBJECTS (serials) that follow and the whole request - the ids are never looked up again *)
Lemma waitl_blocks_on_first_unfinished : forall s k c is pre ser post j,
  is_idle c s = true -> resolve s is = Some (pre ++ ser :: post) -> all_done s pre ->
  getjob (s_jobs s) ser = Some j -> j_done j = false ->
  let r := xstep (s, k) (WaitL c is) in
  snd r = [OBlocked] /\ c_st (get_conn (s_conns (fst (fst r))) c) = BWait ser /\
  k_get (snd (fst r)) c = Some (ser, (post, pre ++ ser :: post)) /\ s_jobs (fst (fst r)) = s_jobs s.
Proof.
  intros s k c is pre ser post j EI ER H Ej Dj. cbn [xstep]. unfold wait_start. rewrite EI, ER.
  destruct (wait_from_blocks c (pre ++ ser :: post) pre ser post s j H Ej Dj) as (s'&E&A&B). rewrite E.
  cbn [fst snd]. repeat split; auto. apply k_get_set.
Qed.

(* one id: the extended machine does exactly what Model.v's Wait does *)
Lemma xwait_single_agrees : forall s k c i,
  fst (fst (xstep (s, k) (Base (Wait c i)))) = fst (step s (Wait c i)) /\
  snd (xstep (s, k) (Base (Wait c i))) = snd (step s (Wait c i)).
Proof.
  intros s k c i. cbn [xstep step]. unfold wait_start. destruct (is_idle c s); [|split; reflexivity].
  cbn [resolve]. destruct (id_lookup (s_ids s) i) as [ser|]; [|split; reflexivity].
  destruct (getjob (s_jobs s) ser) as [j|] eqn:Ej; [|split; reflexivity].
  cbn [wait_from]. rewrite Ej. pose proof (getjob_serial _ _ _ Ej) as Es.
  destruct (j_done j) eqn:Dj.
  - cbn [wait_from fst snd]. unfold records. cbn [flat_map]. destruct (forget_fields j s) as (F1&_&_). rewrite F1, Ej.
    unfold forget_dropped. rewrite Es. split; reflexivity.
  - cbn [fst snd]. split; reflexivity.
Qed.

(* the continuation invariant: every job object of the request is finished, or is the one the client is blocked on,
   or is still to come *)
Definition entry_ok (js : list job) (e : cont) : Prop :=
  forall x j, In x (snd (snd e)) -> getjob js x = Some j -> j_done j = true \/ x = fst e \/ In x (fst (snd e)).

Lemma records_done : forall s c all c' j,
  (forall x j0, In x all -> getjob (s_jobs s) x = Some j0 -> j_done j0 = true) ->
  In (OReleased c' j) (records s c all) -> j_done j = true.
Proof.
  intros s c all c' j H Hin. unfold records in Hin. apply in_flat_map in Hin. destruct Hin as (x&Hx&Ho).
  destruct (getjob (s_jobs s) x) as [j0|] eqn:E; [|destruct Ho].
  destruct Ho as [Ho|[]]. inversion Ho; subst. eapply H; eauto.
Qed.

(* one run of the loop, from a point where every job of the request is finished or still in `rest`:
   either it returns, and every record it returns is finished; or it blocks, with a continuation that is ok again *)
Lemma wait_from_spec : forall c all rest s,
  (forall x j, In x all -> getjob (s_jobs s) x = Some j -> j_done j = true \/ In x rest) ->
  match wait_from c all rest s with
  | (s', None, o) => forall c' j, In (OReleased c' j) o -> j_done j = true
  | (s', Some (ser', r'), o) => o = [] /\ entry_ok (s_jobs s') (ser', (r', all))
  end.
Proof.
  intros c all rest. induction rest as [|ser r IH]; intros s H; cbn [wait_from].
  - intros c' j Hin. eapply records_done; [|exact Hin]. intros x j0 Hx E. destruct (H x j0 Hx E) as [D|[]]. exact D.
  - destruct (getjob (s_jobs s) ser) as [j|] eqn:Ej.
    + destruct (j_done j) eqn:Dj.
      * apply IH. destruct (forget_fields j s) as (F1&_&_). rewrite F1. intros x j0 Hx E.
        destruct (H x j0 Hx E) as [D|[Q|Q]]; auto. subst x. left. congruence.
      * split; [reflexivity|]. unfold entry_ok. cbn [fst snd]. sf. intros x j0 Hx E.
        destruct (H x j0 Hx E) as [D|[Q|Q]]; auto.
    + apply IH. intros x j0 Hx E. destruct (H x j0 Hx E) as [D|[Q|Q]]; auto. subst x. congruence.
Qed.

(* a wait that returns at once - in ANY state - returns finished records only *)
Lemma waitl_immediate_release_finished : forall s k c is c' j,
  In (OReleased c' j) (snd (xstep (s, k) (WaitL c is))) -> j_done j = true.
Proof.
  intros s k c is c' j. cbn [xstep]. unfold wait_start. destruct (is_idle c s); [|intros [H|[]]; discriminate H].
  destruct (resolve s is) as [all|]; [|intros [H|[]]; discriminate H].
  pose proof (wait_from_spec c all all s) as SP.
  destruct (wait_from c all all s) as [[s1 [[ser r]|]] o]; cbn [snd].
  - intros [H|[]]; discriminate H.
  - apply SP. intros x j0 Hx _. right. exact Hx.
Qed.

(* a wait that blocks stores a continuation that is ok *)
Lemma waitl_block_entry_ok : forall s k c is all s1 ser r o,
  is_idle c s = true -> resolve s is = Some all -> wait_from c all all s = (s1, Some (ser, r), o) ->
  xstep (s, k) (WaitL c is) = ((s1, k_set k c (ser, (r, all))), [OBlocked]) /\ entry_ok (s_jobs s1) (ser, (r, all)).
Proof.
  intros s k c is all s1 ser r o EI ER EW. cbn [xstep]. unfold wait_start. rewrite EI, ER, EW. split; [reflexivity|].
  pose proof (wait_from_spec c all all s) as SP. rewrite EW in SP. apply SP. intros x j0 Hx _. right. exact Hx.
Qed.

(* the finish notifier of job ser resumes a client whose continuation is ok and blocked on ser (now finished): it returns
   finished records only, or blocks again with a continuation that is ok *)
Lemma resume_one_ok : forall c ser rest all s,
  entry_ok (s_jobs s) (ser, (rest, all)) -> really_done (s_jobs s) ser ->
  match wait_from c all rest s with
  | (s', None, o) => forall c' j, In (OReleased c' j) o -> j_done j = true
  | (s', Some (ser', r'), o) => o = [] /\ entry_ok (s_jobs s') (ser', (r', all))
  end.
Proof.
  intros c ser rest all s H (js&Es&Ds). apply wait_from_spec. intros x j Hx E.
  destruct (H x j Hx E) as [D|[Q|Q]]; cbn [fst snd] in *; auto. subst x. left. congruence.
Qed.

(* jobs n0 (serial 1) and n1 (serial 2); client 5 waits for [n0; n1] and blocks on n0; n1 is killed and RE-ADDED (serial 3
   now owns the id n1); n0 is finished; the event loop runs: client 5 is released with the records of serials 1 and 2 -
   the objects it named - although the id n1 names the unfinished serial 3 by then. *)
Definition wl_h : list xop :=
  [Base (Add 0 0 (Some 0) None); Base (Add 0 0 (Some 1) None); WaitL 5 [JName 0; JName 1];
   Base (Kill 7 [JName 1]); Base (Add 0 0 (Some 1) None); Base (Finish 7 (JName 0) (Some 7) ENone)].

Lemma wl_example :
  let x := xrun wl_h xinit in
  c_st (get_conn (s_conns (fst x)) 5) = BWait 1 /\ k_get (snd x) 5 = Some (1, ([2], [1; 2])) /\
  id_lookup (s_ids (fst x)) (JName 1) = Some 3 /\ is_done (s_jobs (fst x)) 3 = false /\
  map (fun o => match o with OReleased c j => (c, j_serial j, j_done j) | _ => (0, 0, false) end)
      (snd (xstep x (Base RunLoop))) = [(5, 1, true); (5, 2, true)] /\
  c_st (get_conn (s_conns (fst (fst (xstep x (Base RunLoop))))) 5) = Idle.
Proof. vm_compute. repeat split; reflexivity. Qed.
