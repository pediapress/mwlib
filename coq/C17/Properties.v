(* C17 — the property theorems, each followed by Print Assumptions; what they rest on is in C16/Proofs.v and
   the Proofs*.v files of this directory. *)
From Coq Require Import List NArith Bool.
From MW Require Import C16.Model C16.ModelWaitL C16.Proofs C17.Proofs C17.ProofsOrder C17.ProofsCount C17.ProofsLive C17.ProofsWaitL.
Import ListNotations.
Open Scope N_scope.

(* Eligibility and "never a finished job": whatever any op of any history delivers to a puller
   (immediately from StartPull, or at RunLoop through a hand-off, a retry or after re-queues) is
   not done at delivery time and belongs to a requested channel (or none was requested). *)
Theorem C17_delivered_eligible_and_unfinished : forall h o c chs j,
  In (ODeliver c chs j) (snd (step (run h init) o)) ->
  j_done j = false /\ (chs = [] \/ mem (j_chan j) chs = true).
Proof. intros h o c chs j H. apply (step_out _ _ _ (reachable_hub h) (reachable_inv h) H). Qed.
Print Assumptions C17_delivered_eligible_and_unfinished.

(* Finality: once a job is done in a reachable state, no continuation (finish, kill, timeout,
   re-add, disconnects, ...) changes done / error / result. *)
Theorem C17_first_outcome_wins : forall h1 h2 x j,
  getjob (s_jobs (run h1 init)) x = Some j -> j_done j = true ->
  exists j', getjob (s_jobs (run h2 (run h1 init))) x = Some j' /\
             j_done j' = true /\ j_err j' = j_err j /\ j_res j' = j_res j.
Proof. intros h1 h2 x j. apply run_fin_le, reachable_good. Qed.
Print Assumptions C17_first_outcome_wins.

(* Re-add under an existing id whose job was not killed: nothing changes, the id is returned. *)
Theorem C17_readd_idempotent : forall s ch prio n tmo ser j,
  id_lookup (s_ids s) (JName n) = Some ser -> getjob (s_jobs s) ser = Some j ->
  err_is_killed (j_err j) = false ->
  step s (Add ch prio (Some n) tmo) = (s, [OJid (JName n)]).
Proof. intros s ch prio n tmo ser j El E K. cbn [step]. unfold push. rewrite El, E, K. reflexivity. Qed.
Print Assumptions C17_readd_idempotent.

Theorem C17_readd_after_kill_is_new : forall s ch prio n tmo ser j,
  id_lookup (s_ids s) (JName n) = Some ser -> getjob (s_jobs s) ser = Some j ->
  err_is_killed (j_err j) = true ->
  s_count (fst (step s (Add ch prio (Some n) tmo))) = s_count s + 1 /\
  snd (step s (Add ch prio (Some n) tmo)) = [OJid (JName n)].
Proof.
  intros s ch prio n tmo ser j El E K. cbn [step]. unfold push. rewrite El, E, K. cbn [fst snd].
  split; [apply pushjob_jobs|reflexivity].
Qed.
Print Assumptions C17_readd_after_kill_is_new.

(* Waits: a wait on a finished job returns at once with it - in EVERY state, also while the finish notifier of
   earlier waiters is still pending in the hub (before fix a8ac510 such a late client blocked on gevent's pending
   notifier and was never released when the earlier waiters' connections dropped first:
   A 0 0 - -;W 1 a1;D 1;K 7 a1;W 5 a1;L); a wait on an unfinished job blocks; the only event that releases a
   blocked client is the finish event of its job. *)
Theorem C17_wait_done_immediate : forall s c i ser j,
  is_idle c s = true -> id_lookup (s_ids s) i = Some ser -> getjob (s_jobs s) ser = Some j -> j_done j = true ->
  j_drop j = false ->                       (* nobody called rpc_qdrop on it (then its id is forgotten as well: C17_wait_done_dropped) *)
  step s (Wait c i) = (s, [OReleased c j]).
Proof. exact wait_done_immediate. Qed.
Print Assumptions C17_wait_done_immediate.

(* a dropped finished job is handed over and its id is forgotten - while the id still names this very job object *)
Theorem C17_wait_done_dropped : forall s c i ser j,
  is_idle c s = true -> id_lookup (s_ids s) i = Some ser -> getjob (s_jobs s) ser = Some j -> j_done j = true ->
  j_drop j = true -> id_is (s_ids s) (j_id j) ser = true ->
  step s (Wait c i) = (set_ids (id_del (s_ids s) (j_id j)) s, [OReleased c j]).
Proof. intros s c i ser j EI El E D Dr Is. cbn [step]. rewrite EI, El, E, D, Dr, Is. reflexivity. Qed.
Print Assumptions C17_wait_done_dropped.

(* "released exactly when finished", safety half, over all histories: whatever op releases a waiting client (Wait
   at once, or RunLoop through the job's finish event), the job record it returns is finished. *)
Theorem C17_released_only_finished : forall h o c j,
  In (OReleased c j) (snd (step (run h init) o)) -> j_done j = true.
Proof. intros h o c j H. apply (step_out _ _ _ (reachable_hub h) (reachable_inv h) H). Qed.
Print Assumptions C17_released_only_finished.

Theorem C17_wait_undone_blocks : forall s c i ser j,
  is_idle c s = true -> id_lookup (s_ids s) i = Some ser -> getjob (s_jobs s) ser = Some j -> j_done j = false ->
  snd (step s (Wait c i)) = [OBlocked] /\ c_st (get_conn (s_conns (fst (step s (Wait c i)))) c) = BWait ser.
Proof.
  intros s c i ser j EI El E D. cbn [step]. rewrite EI, El, E, D. cbn [fst snd]. split; [reflexivity|].
  exact (f_equal c_st (get_put_same (s_conns s) (mkConn c (BWait ser) (c_run (get_conn (s_conns s) c))))).
Qed.
Print Assumptions C17_wait_undone_blocks.

(* Priority/FIFO order.  For every history h and every pull: the job StartPull hands over at once
   is the minimum, in the order (priority, serial) of jobs.py:45-52 (serial = arrival order), among ALL unfinished
   jobs queued on a requested channel (on any channel when none was named): no such job (p, x) is smaller.
   `q_get (s_queues s) k = Some q` is the dict lookup channel2q[k].  Rests on: every channel queue is sorted (the
   heap-as-sorted-list contract of Model.v, proved as invariant QS for every op incl. Drop), _preenall leaves an
   unfinished job at every non-empty queue's head, heads = min of the heads. *)
Theorem C17_min_first : forall h c chs j,
  let s := run h init in
  In (ODeliver c chs j) (snd (step s (StartPull c chs))) ->
  forall k q p x, q_get (s_queues s) k = Some q -> (chs = [] \/ mem k chs = true) -> In (p, x) q ->
  is_done (s_jobs s) x = false -> key_lt (p, x) (j_prio j, j_serial j) = false.
Proof. exact min_first. Qed.
Print Assumptions C17_min_first.

(* ... read as the two rules a client relies on: priority first (numerically smaller wins), FIFO (arrival serial)
   within one priority. *)
Theorem C17_priority_then_fifo : forall h c chs j,
  let s := run h init in
  In (ODeliver c chs j) (snd (step s (StartPull c chs))) ->
  forall k q p x, q_get (s_queues s) k = Some q -> (chs = [] \/ mem k chs = true) -> In (p, x) q ->
  is_done (s_jobs s) x = false -> j_prio j <= p /\ (p = j_prio j -> j_serial j <= x).
Proof.
  intros h c chs j s Hd k q p x Hq Hc Hin Hu. apply key_not_lt_prio_fifo.
  exact (min_first h c chs j Hd k q p x Hq Hc Hin Hu).
Qed.
Print Assumptions C17_priority_then_fifo.

(* ... and a pull blocks only when every job queued on the requested channels is finished (stale heap entries) *)
Theorem C17_pull_blocks_only_when_nothing_is_queued : forall h c chs,
  let s := run h init in
  is_idle c s = true -> In OBlocked (snd (step s (StartPull c chs))) ->
  forall k q p x, q_get (s_queues s) k = Some q -> (chs = [] \/ mem k chs = true) -> In (p, x) q ->
  is_done (s_jobs s) x = true.
Proof. intros h c chs s. apply blocks_only_when_empty_state, reachable_qs. Qed.
Print Assumptions C17_pull_blocks_only_when_nothing_is_queued.

(* Counters.  For EVERY history: for each channel, error + timeout + killed +
   success of _channel2count equals the number of finished job OBJECTS of that channel among all objects created
   since the server started (s_jobs never forgets an object, also when dropdead/waitjobs forget its id).  "Since
   start" for an id that was killed and added again: the killed object and the new object are two objects, each
   counted once when it finishes.  (True of the code since fix f2b0ce6: a falsy error counts as success.)  After a
   restart the counters start from zero (restore_state: s_cnt = []) while finished jobs are kept; the same proof
   gives  total + base = donecount  for base = the finished jobs restored (invariant CI, lemma run_ci). *)
Theorem C17_counters : forall h ch,
  let s := run h init in
  total (cnt_get (s_cnt s) ch) = donecount (s_jobs s) ch.
Proof. exact counters. Qed.
Print Assumptions C17_counters.

(* "Clients waiting for a job are released exactly when it is finished", liveness half.
   Hub invariant, for EVERY history: a connection blocked in a wait either waits for an unfinished job, or the wake-up
   (the notifier of its job's finish event, EvDone) is queued in the hub. *)
Theorem C17_waiter_has_wakeup : forall h c ser, let s := run h init in
  c_st (get_conn (s_conns s) c) = BWait ser ->
  is_done (s_jobs s) ser = false \/ done_pending ser (s_hub s) = true.
Proof. exact waiter_has_wakeup. Qed.
Print Assumptions C17_waiter_has_wakeup.

(* The event-loop turn that follows the finish ends the wait: connection c blocked on job ser, ser finished; after
   RunLoop c has received the finished job record - or c's own disconnect was queued in front of the notification and
   c died in this very turn. *)
Theorem C17_runloop_releases : forall h c ser, let s := run h init in
  c_st (get_conn (s_conns s) c) = BWait ser -> is_done (s_jobs s) ser = true ->
  exists j, getjob (s_jobs s) ser = Some j /\ j_done j = true /\
    (In (OReleased c j) (snd (step s RunLoop)) \/
     (In (ODied c) (snd (step s RunLoop)) /\
      exists a b, s_hub s = a ++ EvKill c :: b /\ ~ In (EvDone ser) a)).
Proof. intros h c ser s. apply runloop_outcome_gw, reachable_gw. Qed.
Print Assumptions C17_runloop_releases.

Theorem C17_no_waiter_of_finished_job_after_loop : forall h c ser, let s := run h init in
  is_done (s_jobs s) ser = true -> c_st (get_conn (s_conns (fst (step s RunLoop))) c) <> BWait ser.
Proof. intros h c ser s. apply runloop_no_waiter_gw, reachable_gw. Qed.
Print Assumptions C17_no_waiter_of_finished_job_after_loop.

(* From the wait to its end, over any continuation h2: c blocks on ser after h; if ser is finished after h2, then in
   the outputs of h2 followed by one RunLoop c was released with the finished record of ser, or c died; and as long as
   ser is unfinished, c is still blocked (or died): released exactly when finished. *)
Theorem C17_wait_ends_by_release_or_death : forall h c ser h2, let s := run h init in let s2 := run h2 s in
  c_st (get_conn (s_conns s) c) = BWait ser ->
  is_done (s_jobs s2) ser = true ->
  let tr := outs (h2 ++ [RunLoop]) s in
  (exists j, j_serial j = ser /\ j_done j = true /\ In (OReleased c j) tr) \/ In (ODied c) tr.
Proof. exact wait_ends_by_release_or_death. Qed.
Print Assumptions C17_wait_ends_by_release_or_death.

Theorem C17_wait_blocks_until_finish : forall h c ser h2, let s := run h init in let s2 := run h2 s in
  c_st (get_conn (s_conns s) c) = BWait ser ->
  is_done (s_jobs s2) ser = false ->
  c_st (get_conn (s_conns s2) c) = BWait ser \/ In (ODied c) (outs h2 s).
Proof. exact wait_blocks_until_finish. Qed.
Print Assumptions C17_wait_blocks_until_finish.

(* Non-vacuity: Add; Wait 1 a1 blocks; Finish 2 a1 queues the notifier; RunLoop releases connection 1 with result 7. *)
Example C17_wait_example :
  let s := run live_h init in
  let s2 := run [live_fin] s in
  outs live_h init = [OJid (JAuto 1); OBlocked] /\
  c_st (get_conn (s_conns s) 1) = BWait 1 /\ is_done (s_jobs s) 1 = false /\
  c_st (get_conn (s_conns s2) 1) = BWait 1 /\ is_done (s_jobs s2) 1 = true /\ s_hub s2 = [EvDone 1] /\
  c_st (get_conn (s_conns (fst (step s2 RunLoop))) 1) = Idle /\
  exists j, snd (step s2 RunLoop) = [OReleased 1 j] /\ j_serial j = 1 /\ j_done j = true /\ j_res j = Some 7.
Proof. exact live_released. Qed.
Print Assumptions C17_wait_example.

(* rpc_qwait with SEVERAL ids (coq/C16/ModelWaitL.v: xstep = Model.step + WaitL c [i1; ..; in] + the continuation of the
   waitjobs loop at the finish notifier).  "A client is released exactly when ALL the job objects its ids named when the
   request arrived are finished; it receives their records."

   Every state of the extended machine satisfies Model.v's invariant Good (the loop of waitjobs is a sequence of one-id
   Waits of the same connection: wait_from_run), so the state invariants proved for Model.v carry over. *)
Theorem C17_waitl_invariant : forall h, Good (fst (xrun h xinit)).
Proof. exact x_reachable_good. Qed.
Print Assumptions C17_waitl_invariant.

Theorem C17_waitl_conservation : forall h x j,
  let s := fst (xrun h xinit) in
  getjob (s_jobs s) x = Some j -> j_done j = false ->
  (in_queues s x + with_workers s x = 1)%nat /\ id_lookup (s_ids s) (j_id j) = Some x.
Proof.
  intros h x j s E D. destruct (conservation_inv s x j (proj2 (proj2 (x_reachable_good h))) E D) as (H1&H2&_). auto.
Qed.
Print Assumptions C17_waitl_conservation.

(* one id: exactly Model.v's Wait (state and outputs) *)
Theorem C17_waitl_one_id_is_wait : forall s k c i,
  fst (fst (xstep (s, k) (Base (Wait c i)))) = fst (step s (Wait c i)) /\
  snd (xstep (s, k) (Base (Wait c i))) = snd (step s (Wait c i)).
Proof. exact xwait_single_agrees. Qed.
Print Assumptions C17_waitl_one_id_is_wait.

(* in EVERY state: all named jobs finished -> the request returns at once with all records, in request order *)
Theorem C17_waitl_all_done_immediate : forall s k c is all,
  is_idle c s = true -> resolve s is = Some all -> all_done s all ->
  exists s', xstep (s, k) (WaitL c is) = ((s', k_del k c), records s' c all) /\
             s_jobs s' = s_jobs s /\ s_conns s' = s_conns s /\ s_hub s' = s_hub s.
Proof. exact waitl_all_done_immediate. Qed.
Print Assumptions C17_waitl_all_done_immediate.

(* in EVERY state: the client blocks on the first unfinished job OBJECT; the continuation keeps the objects (serials)
   that follow and the whole request - ids are resolved once, when the request arrives *)
Theorem C17_waitl_blocks_on_first_unfinished : forall s k c is pre ser post j,
  is_idle c s = true -> resolve s is = Some (pre ++ ser :: post) -> all_done s pre ->
  getjob (s_jobs s) ser = Some j -> j_done j = false ->
  let r := xstep (s, k) (WaitL c is) in
  snd r = [OBlocked] /\ c_st (get_conn (s_conns (fst (fst r))) c) = BWait ser /\
  k_get (snd (fst r)) c = Some (ser, (post, pre ++ ser :: post)) /\ s_jobs (fst (fst r)) = s_jobs s.
Proof. exact waitl_blocks_on_first_unfinished. Qed.
Print Assumptions C17_waitl_blocks_on_first_unfinished.

(* in EVERY state: what a wait that returns at once hands over is finished *)
Theorem C17_waitl_immediate_release_finished : forall s k c is c' j,
  In (OReleased c' j) (snd (xstep (s, k) (WaitL c is))) -> j_done j = true.
Proof. exact waitl_immediate_release_finished. Qed.
Print Assumptions C17_waitl_immediate_release_finished.

(* PARTIAL (one link of the chain, in every state): a client whose continuation is ok (every job object of its request is
   finished, or the one it is blocked on, or still to come) and whose current job is finished, when resumed by the finish
   notifier, returns finished records only - or blocks again with a continuation that is ok again; and a WaitL that blocks
   stores a continuation that is ok.
   NOT PROVED (full statement):
     Theorem C17_waitl_released_only_finished : forall h o c j,
       In (OReleased c j) (snd (xstep (xrun h xinit) o)) -> j_done j = true.
     Theorem C17_waitl_runloop_releases : forall h c ser rest all, let x := xrun h xinit in
       c_st (get_conn (s_conns (fst x)) c) = BWait ser -> k_get (snd x) c = Some (ser, (rest, all)) ->
       (forall y, In y all -> is_done (s_jobs (fst x)) y = true) ->
       (forall y, In y all -> exists j, In (OReleased c j) (snd (xstep x (Base RunLoop))) /\ j_serial j = y /\ j_done j = true)
       \/ In (ODied c) (snd (xstep x (Base RunLoop))).
   Missing: that entry_ok of every stored continuation is preserved by every op (needs: job objects are never removed from
   s_jobs and stay finished once finished, at the granularity of single ops - step_fin_le gives the second half only for
   finished jobs - and that the continuation of a connection in BWait ser has cur = ser), and the lift of
   ProofsLive.run_events_track to xrun_events.  For ONE id both are C17_released_only_finished / C17_runloop_releases above
   (C17_waitl_one_id_is_wait).  On the real code the list statements are checked by the monitor `wait` on every history. *)
Theorem C17_waitl_continuation_ok_partial : forall c ser rest all s,
  entry_ok (s_jobs s) (ser, (rest, all)) -> really_done (s_jobs s) ser ->
  match wait_from c all rest s with
  | (s', None, o) => forall c' j, In (OReleased c' j) o -> j_done j = true
  | (s', Some (ser', r'), o) => o = [] /\ entry_ok (s_jobs s') (ser', (r', all))
  end.
Proof. exact resume_one_ok. Qed.
Print Assumptions C17_waitl_continuation_ok_partial.

Theorem C17_waitl_block_stores_ok_continuation : forall s k c is all s1 ser r o,
  is_idle c s = true -> resolve s is = Some all -> wait_from c all all s = (s1, Some (ser, r), o) ->
  xstep (s, k) (WaitL c is) = ((s1, k_set k c (ser, (r, all))), [OBlocked]) /\ entry_ok (s_jobs s1) (ser, (r, all)).
Proof. exact waitl_block_entry_ok. Qed.
Print Assumptions C17_waitl_block_stores_ok_continuation.

(* Non-vacuity = the regression this guards against: client 5 waits for [n0; n1]; while it is blocked on n0, n1 is killed
   and re-added (the id n1 now names the unfinished serial 3); n0 finishes; the loop turn releases client 5 with the
   records of serials 1 and 2. *)
Example C17_waitl_example :
  let x := xrun wl_h xinit in
  c_st (get_conn (s_conns (fst x)) 5) = BWait 1 /\ k_get (snd x) 5 = Some (1, ([2], [1; 2])) /\
  id_lookup (s_ids (fst x)) (JName 1) = Some 3 /\ is_done (s_jobs (fst x)) 3 = false /\
  map (fun o => match o with OReleased c j => (c, j_serial j, j_done j) | _ => (0, 0, false) end)
      (snd (xstep x (Base RunLoop))) = [(5, 1, true); (5, 2, true)] /\
  c_st (get_conn (s_conns (fst (fst (xstep x (Base RunLoop))))) 5) = Idle.
Proof. exact wl_example. Qed.
Print Assumptions C17_waitl_example.
