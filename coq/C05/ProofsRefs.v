(* C05 — fix_reference_nodes' hand-over of a footnote's nodes (C05/Refs.v) on the heap model:
   with the definition emptied afterwards the document stays a proper tree (for every heap / tree / pair of references);
   without it (the two bookkeeping tables keyed differently) it never does. *)
From Coq Require Import List NArith Bool Arith Lia.
From MW Require Import C05.Heap C05.TreeOps C05.ProofsApi C05.Refs.
From MW Require C05.ProofsWf.
Import ListNotations.

Lemma append_all_spec : forall cs h u, ~ In u cs -> NoDup cs ->
  get (append_all h u cs) u = option_map (wk (kids h u ++ cs)) (get h u) /\
  (forall c, In c cs -> get (append_all h u cs) c = option_map (wp (Some u)) (get h c)) /\
  (forall j, j <> u -> ~ In j cs -> get (append_all h u cs) j = get h j).
Proof.
  induction cs as [|c r IH]; intros h u Hu Hnd.
  - simpl. repeat split.
    + rewrite app_nil_r. unfold kids. destruct (get h u) as [[k q l t]|]; reflexivity.
    + intros c [].
  - simpl in Hu. assert (Huc : u <> c) by (intro F; apply Hu; left; congruence). assert (Hur : ~ In u r) by tauto.
    inversion Hnd as [|? ? Hcr Hnd']; subst.
    destruct (append_child_spec h u c Huc) as (Gu & Gc & Go).
    destruct (IH (append_child h u c) u Hur Hnd') as (A & B & C).
    unfold append_all in *. simpl. repeat split.
    + rewrite A. rewrite Gu. unfold kids at 1. rewrite Gu. unfold kids. destruct (get h u) as [nd|]; simpl; [|reflexivity].
      unfold wk. simpl. rewrite <- app_assoc. reflexivity.
    + intros c' [->|Hc'].
      * rewrite C; auto.
      * rewrite B; auto. f_equal. apply Go; intro; subst; tauto.
    + intros j Hj Hjn. simpl in Hjn. rewrite C; [|auto|tauto]. apply Go; auto.
Qed.

Lemma handover_spec : forall h d u,
  d <> u -> ~ In u (kids h d) -> ~ In d (kids h d) -> NoDup (kids h d) ->
  get (handover h d u) d = option_map (wk []) (get h d) /\
  get (handover h d u) u = option_map (wk (kids h u ++ kids h d)) (get h u) /\
  (forall c, In c (kids h d) -> get (handover h d u) c = option_map (wp (Some u)) (get h c)) /\
  (forall j, j <> d -> j <> u -> ~ In j (kids h d) -> get (handover h d u) j = get h j).
Proof.
  intros h d u Hdu Hu Hd Hnd. destruct (append_all_spec (kids h d) h u Hu Hnd) as (A & B & C).
  unfold handover, handover_noclear. repeat split; intros; rewrite get_set_kids.
  - rewrite N.eqb_refl. rewrite C; auto.
  - destruct (N.eqb_spec u d); [congruence|]. exact A.
  - destruct (N.eqb_spec c d); [subst; contradiction|]. apply B; auto.
  - destruct (N.eqb_spec j d); [contradiction|]. apply C; auto.
Qed.

(* d loses its subtrees, the (childless) node u gets them *)
Fixpoint t_hand (d u : N) (ks : list tree) (t : tree) : tree :=
  let 'T i ts := t in
  if N.eqb i d then T i [] else if N.eqb i u then T i ks else T i (map (t_hand d u ks) ts).

Lemma tid_t_hand : forall d u ks t, tid (t_hand d u ks t) = tid t.
Proof. intros d u ks [i ts]. simpl. destruct (N.eqb i d); [reflexivity|]. destruct (N.eqb i u); reflexivity. Qed.

Lemma hand_repr : forall h h' d u ks,
  d <> u ->
  get h' d = option_map (wk []) (get h d) ->
  get h' u = option_map (wk (map tid ks)) (get h u) ->
  (forall j, j <> d -> j <> u -> ~ In j (map tid ks) -> get h' j = get h j) ->
  Forall (repr h' (Some u)) ks ->
  clsof h u <> c_Text ->
  (forall j, In j (map tid ks) -> par h j = Some d) ->
  forall t q, repr h q t -> ~ In (tid t) (map tid ks) -> repr h' q (t_hand d u ks t).
Proof.
  intros h h' d u ks Hdu Gd Gu Go Hks Hcls Hpar.
  induction t as [i ts IH] using tree_ind'. intros q Hr Hin. simpl in Hin.
  assert (Hch : forall x, In x ts -> par h (tid x) = Some i).
  { intros x Hx. apply repr_root_par. eapply repr_child; eauto. }
  apply repr_inv in Hr. destruct Hr as (nd & Hg & Hp & Hcd & Htx & Hf).
  rewrite Forall_forall in Hf, IH. simpl.
  destruct (N.eqb_spec i d) as [E|E].
  - subst i. rewrite Hg in Gd. simpl in Gd.
    eapply repr_T with (nd := wk [] nd); [exact Gd | exact Hp | reflexivity | auto | constructor].
  - destruct (N.eqb_spec i u) as [F|F].
    + subst i. rewrite Hg in Gu. simpl in Gu.
      eapply repr_T with (nd := wk (map tid ks) nd); [exact Gu | exact Hp | reflexivity | | exact Hks].
      simpl. intro Hc. exfalso. apply Hcls. unfold clsof. rewrite Hg. exact Hc.
    + eapply repr_T with (nd := nd); auto.
      * rewrite Go; auto.
      * rewrite map_map. rewrite Hcd. apply map_ext. intros. rewrite tid_t_hand. reflexivity.
      * intro Hc. apply Htx in Hc. subst ts. reflexivity.
      * rewrite Forall_forall. intros x' Hx'. apply in_map_iff in Hx'. destruct Hx' as (x & <- & Hx).
        apply IH; auto. intro Hxin. apply Hpar in Hxin. rewrite (Hch x Hx) in Hxin. congruence.
Qed.

Lemma t_hand_as_replace : forall d u ks, d <> u -> forall t, tid t <> d -> tid t <> u ->
  t_hand d u ks t = t_replace u [T u ks] (t_replace d [T d []] t).
Proof.
  intros d u ks Hdu. induction t as [i ts IH] using tree_ind'. intros Hd Hu. simpl in Hd, Hu. simpl.
  destruct (N.eqb_spec i d); [contradiction|]. destruct (N.eqb_spec i u); [contradiction|]. f_equal.
  clear Hd Hu n n0. induction ts as [|x r IHr]; [reflexivity|].
  inversion IH as [|? ? Px Pr]; subst. simpl. rewrite flat_map_app. rewrite <- IHr by auto. clear IHr.
  replace (flat_map (fun x0 => if N.eqb (tid x0) u then [T u ks] else [t_replace u [T u ks] x0])
                    (if N.eqb (tid x) d then [T d []] else [t_replace d [T d []] x]))
    with [t_hand d u ks x]; [reflexivity|].
  destruct x as [j js]. simpl tid. destruct (N.eqb_spec j d) as [E|E].
  - subst j. simpl. rewrite N.eqb_refl. destruct (N.eqb_spec d u); [contradiction|]. reflexivity.
  - simpl flat_map. rewrite app_nil_r. destruct (N.eqb_spec j u) as [F|F].
    + subst j. simpl. destruct (N.eqb_spec u d); [congruence|]. rewrite N.eqb_refl. reflexivity.
    + f_equal. apply Px; auto.
Qed.

Theorem handover_preserves_WF : forall h r t d u sd,
  tid t = r -> repr h None t -> NoDup (ids t) ->
  d <> r -> u <> r -> d <> u ->
  t_find d t = Some sd -> In u (ids t) -> ~ In u (ids sd) ->
  kids h u = [] -> clsof h u <> c_Text ->
  WF (handover h d u) r.
Proof.
  intros h r t d u sd Er Hr Hnd Hdr Hur Hdu Hfd Hu Husd Hku Hcls.
  destruct (t_find_some _ _ _ Hfd) as [Esd Bsd].
  destruct sd as [d' ks]. simpl in Esd. subst d'.
  destruct (t_find_repr _ _ _ _ _ Hr Hfd) as [qd Hrd].
  pose proof (repr_kids _ _ _ _ Hrd) as Hkd.
  pose proof (t_find_NoDup _ _ _ Hnd Hfd) as Hndsd. simpl in Hndsd.
  apply NoDup_cons_iff in Hndsd. destruct Hndsd as [Hdk Hndk].
  assert (Hdk' : ~ In d (map tid ks)) by (intro F; apply Hdk; apply tids_incl; exact F).
  assert (Huk : ~ In u (map tid ks)) by (intro F; apply Husd; simpl; right; apply tids_incl; exact F).
  destruct (handover_spec h d u Hdu) as (Gd & Gu & Gc & Go); try (rewrite Hkd; auto).
  { apply NoDup_tids; auto. }
  rewrite Hku, Hkd in Gu. simpl in Gu. rewrite Hkd in Gc, Go.
  assert (Hpk : forall j, In j (map tid ks) -> par h j = Some d).
  { intros j Hj. apply in_map_iff in Hj. destruct Hj as (x & <- & Hx). apply repr_root_par. eapply repr_child; eauto. }
  assert (Hks : Forall (repr (handover h d u) (Some u)) ks).
  { rewrite Forall_forall. intros x Hx. pose proof (repr_child _ _ _ _ _ Hrd Hx) as Hrx.
    destruct x as [c xs]. eapply repr_reroot; [exact Hrx | | ].
    - apply Gc. apply in_map_iff. exists (T c xs). auto.
    - intros j Hj.
      assert (Hjk : In j (flat_map (fun y => flat_map ids (tkids y)) ks)) by (apply in_flat_map; exists (T c xs); auto).
      assert (Hjf : In j (flat_map ids ks)) by (apply in_flat_map; exists (T c xs); split; [auto | simpl; auto]).
      apply Go.
      + intro F. subst j. contradiction.
      + intro F. subst j. apply Husd. simpl. auto.
      + intro F. apply In_cnt in F. apply In_cnt in Hjk. rewrite NoDup_cnt in Hndk. specialize (Hndk j).
        rewrite cnt_tids_below in Hndk. lia. }
  assert (Hrn : ~ In (tid t) (map tid ks)).
  { intro F. apply Hpk in F. rewrite (repr_root_par _ _ _ Hr) in F. discriminate. }
  exists (t_hand d u ks t). split; [rewrite tid_t_hand; exact Er|]. split.
  - eapply hand_repr; eauto.
  - rewrite t_hand_as_replace by (auto; congruence).
    assert (Htd : tid t <> d) by congruence. assert (Htu : tid t <> u) by congruence.
    pose proof (cnt_replace d [T d []] t (T d ks) Hnd Htd Hfd) as E1.
    set (t1 := t_replace d [T d []] t) in *.
    assert (F1 : forall x, cnt x (ids t1) + cnt x (flat_map ids ks) = cnt x (ids t)).
    { intro x. specialize (E1 x). change (flat_map ids [T d []]) with [d] in E1.
      change (ids (T d ks)) with (d :: flat_map ids ks) in E1. rewrite !cnt_cons, cnt_nil in E1. lia. }
    clear E1.
    assert (Hnd1 : NoDup (ids t1)).
    { apply NoDup_cnt. intro x. specialize (F1 x). rewrite NoDup_cnt in Hnd. specialize (Hnd x). lia. }
    assert (Huks : ~ In u (flat_map ids ks)) by (intro F; apply Husd; simpl; auto).
    assert (Hu1 : In u (ids t1)).
    { apply In_cnt. specialize (F1 u). apply In_cnt in Hu. apply notIn_cnt in Huks. lia. }
    destruct (t_find_ex _ _ Hu1) as [su Hsu].
    assert (Ht1u : tid t1 <> u) by (unfold t1; rewrite tid_t_replace; exact Htu).
    pose proof (cnt_replace u [T u ks] t1 su Hnd1 Ht1u Hsu) as E2.
    destruct (t_find_some _ _ _ Hsu) as [Esu _].
    apply NoDup_cnt. intro x. specialize (F1 x). specialize (E2 x).
    rewrite NoDup_cnt in Hnd. specialize (Hnd x).
    pose proof (cnt_ids_root x su) as E3. rewrite Esu in E3.
    change (flat_map ids [T u ks]) with ((u :: flat_map ids ks) ++ []) in E2.
    rewrite app_nil_r, cnt_cons in E2.
    destruct (N.eqb u x); lia.
Qed.

Lemma reach_mono : forall h h', (forall j, incl (kids h j) (kids h' j)) ->
  forall a b, reach h a b -> reach h' a b.
Proof.
  intros h h' Hk a b H. induction H as [a|a b c Hab IH Hc].
  - apply reach_refl.
  - eapply reach_step; [exact IH | apply Hk; exact Hc].
Qed.

Lemma kids_wp : forall h h' j p, get h' j = option_map (wp p) (get h j) -> kids h' j = kids h j.
Proof. intros h h' j p H. unfold kids. rewrite H. destruct (get h j); reflexivity. Qed.

Theorem handover_noclear_breaks_WF : forall h r t d u c,
  tid t = r -> repr h None t -> NoDup (ids t) ->
  In d (ids t) -> In u (ids t) -> d <> u -> ~ In u (kids h d) -> In c (kids h d) ->
  ~ WF (handover_noclear h d u) r.
Proof.
  intros h r t d u c Er Hr Hnd Hd Hu Hdu Hukd Hc Hwf.
  assert (W0 : WF h r) by (exists t; auto).
  destruct (ProofsWf.WF_first_order h r W0) as (_ & _ & Nk & _ & _ & Nc & _).
  assert (Rd : reach h r d) by (rewrite <- Er; eapply ProofsWf.ids_reach; eauto).
  assert (Ru : reach h r u) by (rewrite <- Er; eapply ProofsWf.ids_reach; eauto).
  assert (Hdd : ~ In d (kids h d)).
  { intro F. apply (Nc d Rd). eapply reach1_intro; [apply reach_refl | exact F]. }
  destruct (append_all_spec (kids h d) h u Hukd (Nk d Rd)) as (A & B & C).
  fold (handover_noclear h d u) in A, B, C.
  destruct (repr_get _ _ _ _ Hr Hu) as [ndu Gu].
  assert (Ku : kids (handover_noclear h d u) u = kids h u ++ kids h d).
  { unfold kids at 1. rewrite A, Gu. reflexivity. }
  assert (Kd : kids (handover_noclear h d u) d = kids h d).
  { unfold kids at 1. rewrite C; auto. }
  assert (Hinc : forall j, incl (kids h j) (kids (handover_noclear h d u) j)).
  { intros j. destruct (N.eq_dec j u) as [->|Hju].
    - rewrite Ku. apply incl_appl, incl_refl.
    - destruct (in_dec N.eq_dec j (kids h d)) as [I|I].
      + rewrite (kids_wp _ _ _ _ (B j I)). apply incl_refl.
      + unfold kids at 2. rewrite C; auto. apply incl_refl. }
  destruct (ProofsWf.WF_first_order _ r Hwf) as (_ & _ & _ & Uq & _).
  apply Hdu. apply (Uq d u c).
  - eapply reach_mono; eauto.
  - eapply reach_mono; eauto.
  - rewrite Kd. exact Hc.
  - rewrite Ku. apply in_or_app. right. exact Hc.
Qed.

(* Section 1 lists <ref name=x/> (2, no content) and <ref name=x>w10 w11</ref> (3) *)
Definition h_ref : heap :=
  [ (1, mkNode c_Section None [2; 3] []);
    (2, mkNode c_Reference (Some 1) [] []);
    (3, mkNode c_Reference (Some 1) [4; 5] []);
    (4, mkNode c_Text (Some 3) [] [10]);
    (5, mkNode c_Text (Some 3) [] [11]) ]%N.
Definition t_ref : tree := (T 1 [T 2 []; T 3 [T 4 []; T 5 []]])%N.

Example handover_example :
  (tid t_ref = 1 /\ repr h_ref None t_ref /\ NoDup (ids t_ref) /\ 3 <> 1 /\ 2 <> 1 /\ 3 <> 2 /\
   t_find 3 t_ref = Some (T 3 [T 4 []; T 5 []]) /\ In 2 (ids t_ref) /\ ~ In 2 (ids (T 3 [T 4 []; T 5 []])) /\
   kids h_ref 2 = [] /\ clsof h_ref 2 <> c_Text /\ ~ In 2 (kids h_ref 3) /\ In 4 (kids h_ref 3))%N /\
  (wfb (handover h_ref 3 2) 1 = true /\ words (handover h_ref 3 2) 1 = [10; 11] /\
   wfb (handover_noclear h_ref 3 2) 1 = false)%N.
Proof.
  split.
  - split; [reflexivity|]. split; [unfold t_ref, h_ref; prove_repr|]. split; [prove_nodup|].
    repeat split; try discriminate; try reflexivity; try (simpl; tauto); try (simpl; intuition discriminate).
  - vm_compute. repeat split.
Qed.
