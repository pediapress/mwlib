(* C05 — property theorems only.  Each is closed by `exact <lemma>` and followed by Print Assumptions.
   Model: C05/Heap.v (node heap + the AdvancedNode tree API of advtree.py:94-150).
   NOT proved here: that each of the ~58 cleaner passes preserves WF / establishes the contract - that is
   decided by the verified monitor (wfb / contractb, extracted in C05/Extract.v, run on the real tree). *)
From Coq Require Import List NArith Bool.
From MW Require Import C05.Heap C05.TreeOps.
From MW Require C05.ProofsWf C05.ProofsApi C05.ProofsExtra C05.Refs C05.ProofsRefs.
Import ListNotations.

(* The executable checker run by the monitor decides the declarative notion "the heap read from r is a
   finite tree with pairwise distinct nodes, every child's parent link pointing to the node that lists
   it, a parentless root, childless text leaves". *)
Theorem C05_wfb_spec : forall h r, wfb h r = true <-> WF h r.
Proof. exact ProofsWf.wfb_spec. Qed.
Print Assumptions C05_wfb_spec.

(* What WF says in first-order terms over reachability along children lists: the root has no parent;
   every listed child exists and its parent link is the lister; no node is listed twice by one node, nor
   by two nodes, nor is the root listed (every node occurs exactly once); no node reaches itself (no
   cycles); text nodes are childless. *)
Theorem C05_WF_first_order : forall h r, WF h r ->
  par h r = None /\
  (forall n c, reach h r n -> In c (kids h n) -> get h c <> None /\ par h c = Some n) /\
  (forall n, reach h r n -> NoDup (kids h n)) /\
  (forall n1 n2 c, reach h r n1 -> reach h r n2 -> In c (kids h n1) -> In c (kids h n2) -> n1 = n2) /\
  (forall n, reach h r n -> ~ In r (kids h n)) /\
  (forall n, reach h r n -> ~ reach1 h n n) /\
  (forall n, reach h r n -> clsof h n = c_Text -> kids h n = []).
Proof. exact ProofsWf.WF_first_order. Qed.
Print Assumptions C05_WF_first_order.

(* The writers' contract checker decides: tables list only rows/captions, rows only cells, lists only
   items, and cells/rows/items are listed only by rows/tables/lists (and are not the root). *)
Theorem C05_contract_spec : forall h r, WF h r -> (contractb h r = true <-> contract h r).
Proof. exact ProofsWf.contract_spec. Qed.
Print Assumptions C05_contract_spec.

(* the tree API preserves well-formedness under its stated preconditions (all heaps) *)
(* append_child(p, c) does NOT detach c: c must be the root of a detached proper tree disjoint from the
   document, and p a non-text node of the document. *)
Theorem C05_append_child_preserves_WF : forall h r t p s,
  tid t = r -> repr h None t -> NoDup (ids t) -> In p (ids t) -> clsof h p <> c_Text ->
  repr h None s -> NoDup (ids s) -> ProofsApi.disj (ids t) (ids s) ->
  WF (append_child h p (tid s)) r.
Proof. exact ProofsApi.append_child_preserves_WF. Qed.
Print Assumptions C05_append_child_preserves_WF.

Theorem C05_remove_child_preserves_WF : forall h r t p c,
  tid t = r -> repr h None t -> NoDup (ids t) -> In p (ids t) -> In c (kids h p) ->
  exists h', remove_child h p c = Ok h' /\ WF h' r /\ WFsub h' None c.
Proof. exact ProofsApi.remove_child_preserves_WF. Qed.
Print Assumptions C05_remove_child_preserves_WF.

(* replace_child(c, news) with detached, pairwise disjoint new subtrees *)
Theorem C05_replace_child_preserves_WF : forall h r t p c ns,
  tid t = r -> repr h None t -> NoDup (ids t) -> In p (ids t) -> In c (kids h p) ->
  Forall (repr h None) ns -> NoDup (flat_map ids ns) -> ProofsApi.disj (ids t) (flat_map ids ns) ->
  exists h', replace_child h p c (map tid ns) = Ok h' /\ WF h' r /\ WFsub h' None c.
Proof. exact ProofsApi.replace_child_preserves_WF. Qed.
Print Assumptions C05_replace_child_preserves_WF.

(* the cleaner's idiom node.parent.replace_child(node, node.children): the children are re-parented *)
Theorem C05_dissolve_preserves_WF : forall h r t p c,
  tid t = r -> repr h None t -> NoDup (ids t) -> In p (ids t) -> In c (kids h p) ->
  exists h', replace_child h p c (kids h c) = Ok h' /\ WF h' r.
Proof. exact ProofsApi.dissolve_preserves_WF. Qed.
Print Assumptions C05_dissolve_preserves_WF.

(* move_to(n, tgt): neither is the root, and tgt does not lie inside the moved subtree *)
Theorem C05_move_to_preserves_WF : forall h r t n tgt b s,
  tid t = r -> repr h None t -> NoDup (ids t) -> In n (ids t) -> n <> r ->
  In tgt (ids t) -> tgt <> r -> t_find n t = Some s -> ~ In tgt (ids s) ->
  exists h', move_to h n tgt b = Ok h' /\ WF h' r.
Proof. exact ProofsApi.move_to_preserves_WF. Qed.
Print Assumptions C05_move_to_preserves_WF.

(* copy(): the document is untouched, the copy is a detached proper tree with the same words *)
Theorem C05_copy_preserves_WF : forall h r t n,
  tid t = r -> repr h None t -> NoDup (ids t) -> In n (ids t) ->
  exists h' k, copy h n = Some (h', k) /\ WF h' r /\ WFsub h' None k /\ words h' k = words h n.
Proof. exact ProofsApi.copy_preserves_WF. Qed.
Print Assumptions C05_copy_preserves_WF.

(* ... and for every sequence of API calls each of which meets its precondition in the heap it is
   applied to (ProofsApi.pre), no call raises and the document stays a proper tree. *)
Theorem C05_api_preserves_WF : forall ops h r,
  WF h r -> ProofsApi.pre_all h r ops ->
  exists h', fold_left ProofsApi.step ops (Ok h) = Ok h' /\ WF h' r.
Proof. exact ProofsApi.api_preserves_WF_seq. Qed.
Print Assumptions C05_api_preserves_WF.

Theorem C05_api_preserves_WF_every_prefix : forall ops1 ops2 h r,
  WF h r -> ProofsApi.pre_all h r (ops1 ++ ops2) ->
  exists h1, fold_left ProofsApi.step ops1 (Ok h) = Ok h1 /\ WF h1 r /\ ProofsApi.pre_all h1 r ops2.
Proof. exact ProofsApi.api_preserves_WF_prefix. Qed.
Print Assumptions C05_api_preserves_WF_every_prefix.

(* Non-vacuity: a concrete heap and op sequence meeting all preconditions. *)
Example C05_api_example :
  WF ProofsApi.h0 1 /\ ProofsApi.pre_all ProofsApi.h0 1 ProofsApi.ops0 /\
  exists h1, fold_left ProofsApi.step ProofsApi.ops0 (Ok ProofsApi.h0) = Ok h1 /\ wfb h1 1 = true /\ words h1 1 = [11; 12]%N.
Proof. exact (conj ProofsApi.api_example_WF0 (conj ProofsApi.api_example_pre ProofsApi.api_example_run)). Qed.
Print Assumptions C05_api_example.

(* append_child on an ATTACHED node breaks the tree (why the precondition matters): node 3 listed twice *)
Example C05_append_attached_refuted :
  exists h, WF h 1 /\ wfb (append_child h 2 3) 1 = false.
Proof. exact ProofsExtra.append_attached_refuted. Qed.
Print Assumptions C05_append_attached_refuted.

(* fix_reference_nodes (treecleaner.py:1375-1423): the content-less <ref name=x/> u receives the nodes of the defining
   <ref name=x>..</ref> d by append_child (which does not detach), then d is emptied - C05/Refs.v.  For every heap that is a
   proper tree, every pair of distinct non-root nodes d, u with u childless, not a text leaf and outside d's subtree: the
   document is a proper tree again. *)
Theorem C05_refs_handover_preserves_WF : forall h r t d u sd,
  tid t = r -> repr h None t -> NoDup (ids t) ->
  d <> r -> u <> r -> d <> u ->
  TreeOps.t_find d t = Some sd -> In u (ids t) -> ~ In u (ids sd) ->
  kids h u = [] -> clsof h u <> c_Text ->
  WF (Refs.handover h d u) r.
Proof. exact ProofsRefs.handover_preserves_WF. Qed.
Print Assumptions C05_refs_handover_preserves_WF.

(* ... and when the definition is NOT emptied (the two bookkeeping tables of the pass indexed by different keys) the document
   is never a proper tree, whatever non-empty definition d and other node u *)
Theorem C05_refs_handover_without_emptying_breaks_WF : forall h r t d u c,
  tid t = r -> repr h None t -> NoDup (ids t) ->
  In d (ids t) -> In u (ids t) -> d <> u -> ~ In u (kids h d) -> In c (kids h d) ->
  ~ WF (Refs.handover_noclear h d u) r.
Proof. exact ProofsRefs.handover_noclear_breaks_WF. Qed.
Print Assumptions C05_refs_handover_without_emptying_breaks_WF.

(* non-vacuity: the hypotheses of both theorems hold of a section with <ref name=x/> and <ref name=x>w10 w11</ref> *)
Example C05_refs_example :
  (tid ProofsRefs.t_ref = 1 /\ repr ProofsRefs.h_ref None ProofsRefs.t_ref /\ NoDup (ids ProofsRefs.t_ref) /\
   3 <> 1 /\ 2 <> 1 /\ 3 <> 2 /\
   TreeOps.t_find 3 ProofsRefs.t_ref = Some (T 3 [T 4 []; T 5 []]) /\ In 2 (ids ProofsRefs.t_ref) /\
   ~ In 2 (ids (T 3 [T 4 []; T 5 []])) /\
   kids ProofsRefs.h_ref 2 = [] /\ clsof ProofsRefs.h_ref 2 <> c_Text /\ ~ In 2 (kids ProofsRefs.h_ref 3) /\
   In 4 (kids ProofsRefs.h_ref 3))%N /\
  (wfb (Refs.handover ProofsRefs.h_ref 3 2) 1 = true /\ words (Refs.handover ProofsRefs.h_ref 3 2) 1 = [10; 11] /\
   wfb (Refs.handover_noclear ProofsRefs.h_ref 3 2) 1 = false)%N.
Proof. exact ProofsRefs.handover_example. Qed.
Print Assumptions C05_refs_example.
