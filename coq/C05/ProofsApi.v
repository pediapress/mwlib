(* C05 — trees represented by a heap, and the tree API of mwlib.parser.advtree (advtree.py:94-150) on them.
   In order: lists (cnt, disj); heap cells under set, set_parent, set_kids; trees; repr (frame, re-rooting);
   t_find; a child c of a node p of a represented tree (child_*: c is in the children list of p's cell);
   build and the checkers on a represented tree; the tree functions t_replace (rep), t_append, t_insert
   (ins); then for replace_child (with remove_child and the dissolve idiom), append_child, move_to and copy: the
   cells the call writes, the tree the heap represents afterwards, WF; sequences of calls (op, pre, step);
   last, a worked sequence ops0 on the heap h0, its preconditions shown call by call. *)
From Coq Require Import List NArith Bool Arith Lia.
From MW Require Import C05.Heap C05.TreeOps.
Import ListNotations.

Lemma memb_In : forall x l, memb x l = true <-> In x l.
Proof.
  induction l as [|y r IH]; simpl.
  - split; [discriminate | tauto].
  - rewrite orb_true_iff, IH. destruct (N.eqb_spec x y); intuition congruence.
Qed.

Lemma memb_false : forall x l, ~ In x l -> memb x l = false.
Proof. intros. destruct (memb x l) eqn:E; auto. apply memb_In in E. contradiction. Qed.

Lemma nodupb_true : forall l, NoDup l -> nodupb l = true.
Proof.
  induction 1 as [|x l Hx Hl IH]; [reflexivity|]. simpl. rewrite IH, (memb_false _ _ Hx). reflexivity.
Qed.

Lemma nodupb_NoDup : forall l, nodupb l = true -> NoDup l.
Proof.
  induction l as [|x l IH]; intros H; constructor; simpl in H; apply andb_true_iff in H; destruct H as [A B].
  - intro F. apply memb_In in F. rewrite F in A. discriminate.
  - auto.
Qed.

Lemma NoDup_app_iff {A} (l1 l2 : list A) :
  NoDup (l1 ++ l2) <-> NoDup l1 /\ NoDup l2 /\ (forall x, In x l1 -> ~ In x l2).
Proof.
  induction l1 as [|a l1 IH]; simpl.
  - split.
    + intro H. repeat split; auto. constructor.
    + intros (_ & H & _). exact H.
  - split.
    + intro H. inversion H as [|? ? Hnin Hnd]; subst. apply IH in Hnd.
      destruct Hnd as (Ha & Hb & Hc). rewrite in_app_iff in Hnin. split.
      * constructor; auto.
      * split; auto. intros x [Hx|Hx]; subst; auto.
    + intros (Ha & Hb & Hc). inversion Ha as [|? ? Hnin Hnd]; subst. constructor.
      * rewrite in_app_iff. intros [H|H]; auto. apply (Hc a); auto.
      * apply IH. repeat split; auto.
Qed.

Lemma NoDup_app_l {A} : forall (a b : list A), NoDup (a ++ b) -> NoDup a.
Proof. intros a b H. apply NoDup_app_iff in H. apply H. Qed.

Lemma NoDup_app_r {A} : forall (a b : list A), NoDup (a ++ b) -> NoDup b.
Proof. intros a b H. apply NoDup_app_iff in H. apply H. Qed.

Lemma NoDup_app_disj {A} : forall (a b : list A) x, NoDup (a ++ b) -> In x a -> ~ In x b.
Proof. intros a b x H. apply NoDup_app_iff in H. apply H. Qed.

Lemma NoDup_map_inj_in : forall (f : N -> N) l, NoDup l ->
  (forall a b, In a l -> In b l -> f a = f b -> a = b) -> NoDup (map f l).
Proof.
  induction 1 as [|x l Hx Hl IH]; intros Hinj; simpl; constructor.
  - intro F. apply in_map_iff in F. destruct F as (y & E & Hy).
    assert (y = x) by (apply Hinj; simpl; auto). subst y. contradiction.
  - apply IH. intros; apply Hinj; simpl; auto.
Qed.

Lemma flat_map_single : forall {A B} (f : A -> list B) (g : A -> B) l,
  (forall x, In x l -> f x = [g x]) -> flat_map f l = map g l.
Proof.
  induction l as [|a l IH]; intros H; simpl; auto.
  rewrite H by (simpl; auto). simpl. f_equal. apply IH. intros. apply H. simpl; auto.
Qed.

Lemma flat_map_id : forall {A} (f : A -> list A) l, (forall x, In x l -> f x = [x]) -> flat_map f l = l.
Proof. intros A f l H. rewrite (flat_map_single f (fun x => x) l H). apply map_id. Qed.

Lemma flat_map_ext_in : forall {A B} (f g : A -> list B) l,
  (forall x, In x l -> f x = g x) -> flat_map f l = flat_map g l.
Proof.
  induction l as [|a l IH]; intros H; simpl; auto.
  rewrite H by (simpl; auto). f_equal. apply IH. intros. apply H. simpl; auto.
Qed.

Lemma flat_map_map : forall {A B C} (f : B -> list C) (g : A -> B) l,
  flat_map f (map g l) = flat_map (fun x => f (g x)) l.
Proof. induction l as [|a l IH]; simpl; auto. rewrite IH. reflexivity. Qed.

Lemma Forall_flat_map_intro : forall {A B} (P : B -> Prop) (f : A -> list B) l,
  (forall x, In x l -> Forall P (f x)) -> Forall P (flat_map f l).
Proof.
  intros. rewrite Forall_forall. intros y Hy. apply in_flat_map in Hy. destruct Hy as (x & Hx & Hy).
  specialize (H x Hx). rewrite Forall_forall in H. auto.
Qed.

Lemma index_of_In : forall c l, In c l -> exists k, index_of c l = Some k.
Proof.
  induction l as [|x r IH]; intros H; [destruct H|]. simpl.
  destruct (N.eqb_spec c x); eauto.
  destruct H as [H|H]; [congruence|]. destruct (IH H) as [k ->]. eauto.
Qed.

Lemma index_of_Some_In : forall c l k, index_of c l = Some k -> In c l.
Proof.
  induction l as [|x r IH]; intros k H; simpl in *; [discriminate|].
  destruct (N.eqb_spec c x); auto. destruct (index_of c r); [|discriminate]. eauto.
Qed.

Lemma index_of_split : forall c l k, index_of c l = Some k ->
  firstn (S k) l = firstn k l ++ [c] /\ skipn k l = c :: skipn (S k) l.
Proof.
  induction l as [|x r IH]; intros k H; simpl in H; [discriminate|].
  destruct (N.eqb_spec c x) as [->|E].
  - inversion H; subst. simpl. auto.
  - destruct (index_of c r) eqn:Ei; [|discriminate]. inversion H; subst.
    destruct (IH _ eq_refl) as [A B]. split.
    + change (firstn (S (S n)) (x :: r)) with (x :: firstn (S n) r). rewrite A. reflexivity.
    + exact B.
Qed.

Lemma index_of_inj : forall l a b k, index_of a l = Some k -> index_of b l = Some k -> a = b.
Proof.
  induction l as [|x r IH]; intros a b k Ha Hb; simpl in *; [discriminate|].
  destruct (N.eqb_spec a x), (N.eqb_spec b x); subst; auto.
  - destruct (index_of b r); inversion Ha; subst; discriminate.
  - destruct (index_of a r); inversion Hb; subst; discriminate.
  - destruct (index_of a r) eqn:Ea, (index_of b r) eqn:Eb; try discriminate.
    inversion Ha; inversion Hb; subst. inversion H1; subst. eauto.
Qed.

Lemma find_hit : forall (r : N -> N) l' i0, In i0 l' ->
  (forall a b, In a l' -> In b l' -> r a = r b -> a = b) ->
  find (fun i => N.eqb (r i0) (r i)) l' = Some i0.
Proof.
  induction l' as [|a l' IH]; intros i0 Hi Hinj; [destruct Hi|]. simpl.
  destruct (N.eqb_spec (r i0) (r a)) as [E|E].
  - f_equal. symmetry. apply Hinj; simpl; auto.
  - destruct Hi as [->|Hi]; [congruence|]. apply IH; auto.
    intros; apply Hinj; simpl; auto.
Qed.

Lemma find_miss : forall (r : N -> N) l' j, (forall i, In i l' -> r i <> j) ->
  find (fun i => N.eqb j (r i)) l' = None.
Proof.
  induction l' as [|a l' IH]; intros j H; [reflexivity|]. simpl.
  destruct (N.eqb_spec j (r a)) as [E|E].
  - exfalso. apply (H a); simpl; auto.
  - apply IH. intros; apply H; simpl; auto.
Qed.

Lemma fold_max_ge : forall l a,
  (a <= fold_left N.max l a)%N /\ forall x, In x l -> (x <= fold_left N.max l a)%N.
Proof.
  induction l as [|b l IH]; intros a; simpl.
  - split; [lia | tauto].
  - destruct (IH (N.max a b)) as [A B]. split; [lia|]. intros x [<-|H]; [lia | auto].
Qed.

Lemma map_opt_cons : forall {A B} (f : A -> option B) x r,
  map_opt f (x :: r) = match f x with
                       | Some y => match map_opt f r with Some ys => Some (y :: ys) | None => None end
                       | None => None
                       end.
Proof. reflexivity. Qed.

Definition cnt (x : N) (l : list N) : nat := count_occ N.eq_dec l x.

Lemma cnt_nil : forall x, cnt x [] = 0.
Proof. reflexivity. Qed.

Lemma cnt_cons : forall x y l, cnt x (y :: l) = (if N.eqb y x then 1 else 0) + cnt x l.
Proof.
  intros. unfold cnt. simpl.
  destruct (N.eq_dec y x); destruct (N.eqb_spec y x); try congruence; reflexivity.
Qed.

Lemma cnt_app : forall x l1 l2, cnt x (l1 ++ l2) = cnt x l1 + cnt x l2.
Proof.
  induction l1 as [|a l1 IH]; intros; [reflexivity|].
  change ((a :: l1) ++ l2) with (a :: (l1 ++ l2)). rewrite !cnt_cons, IH. lia.
Qed.

Arguments cnt : simpl never.

Lemma NoDup_cnt : forall l, NoDup l <-> forall x, cnt x l <= 1.
Proof. intros. apply (NoDup_count_occ N.eq_dec). Qed.

Lemma In_cnt : forall x l, In x l <-> cnt x l >= 1.
Proof. intros. unfold cnt. rewrite (count_occ_In N.eq_dec). lia. Qed.

Lemma notIn_cnt : forall x l, ~ In x l <-> cnt x l = 0.
Proof. intros. apply (count_occ_not_In N.eq_dec). Qed.

Lemma cnt_flat_map_cons : forall {A} (f : A -> list N) x a l,
  cnt x (flat_map f (a :: l)) = cnt x (f a) + cnt x (flat_map f l).
Proof. intros. simpl. apply cnt_app. Qed.

Lemma cnt_flat_map_in : forall {A} (f : A -> list N) x a l,
  In a l -> cnt x (f a) <= cnt x (flat_map f l).
Proof.
  induction l as [|b l IH]; intros H; [destruct H|].
  rewrite cnt_flat_map_cons. destruct H as [->|H]; [lia|]. apply IH in H. lia.
Qed.

Lemma cnt_flat_map_app : forall {A} (f : A -> list N) x l1 l2,
  cnt x (flat_map f (l1 ++ l2)) = cnt x (flat_map f l1) + cnt x (flat_map f l2).
Proof. intros. rewrite flat_map_app. apply cnt_app. Qed.

Definition disj (l1 l2 : list N) : Prop := forall x, In x l1 -> ~ In x l2.

Lemma disj_cnt : forall l1 l2, NoDup l1 -> NoDup l2 -> disj l1 l2 ->
  forall x, cnt x l1 + cnt x l2 <= 1.
Proof.
  intros l1 l2 H1 H2 D x. rewrite NoDup_cnt in H1, H2. specialize (H1 x). specialize (H2 x).
  destruct (in_dec N.eq_dec x l1) as [I|I].
  - apply D in I. apply notIn_cnt in I. lia.
  - apply notIn_cnt in I. lia.
Qed.

Lemma cnt_disj : forall l1 l2, (forall x, cnt x l1 + cnt x l2 <= 1) -> disj l1 l2.
Proof.
  intros l1 l2 H x I1 I2. apply In_cnt in I1. apply In_cnt in I2. specialize (H x). lia.
Qed.

Definition wp (p : option N) (nd : node) : node := mkNode (cls nd) p (children nd) (text nd).

Definition wk (l : list N) (nd : node) : node := mkNode (cls nd) (parent nd) l (text nd).

Lemma get_set : forall h i nd j, get (set h i nd) j = if N.eqb j i then Some nd else get h j.
Proof. reflexivity. Qed.

Lemma get_set_same : forall h i nd, get (set h i nd) i = Some nd.
Proof. intros. rewrite get_set, N.eqb_refl. reflexivity. Qed.

Lemma get_set_other : forall h i nd j, j <> i -> get (set h i nd) j = get h j.
Proof. intros. rewrite get_set. destruct (N.eqb_spec j i); congruence. Qed.

Lemma get_set_parent : forall h i p j,
  get (set_parent h i p) j = if N.eqb j i then option_map (wp p) (get h i) else get h j.
Proof.
  intros. unfold set_parent. destruct (get h i) eqn:E.
  - rewrite get_set. reflexivity.
  - destruct (N.eqb_spec j i); subst; auto.
Qed.

Lemma get_set_kids : forall h i l j,
  get (set_kids h i l) j = if N.eqb j i then option_map (wk l) (get h i) else get h j.
Proof.
  intros. unfold set_kids. destruct (get h i) eqn:E.
  - rewrite get_set. reflexivity.
  - destruct (N.eqb_spec j i); subst; auto.
Qed.

Lemma get_set_parent_other : forall h i q j, j <> i -> get (set_parent h i q) j = get h j.
Proof.
  intros h i q j Hn. rewrite get_set_parent. apply N.eqb_neq in Hn. rewrite Hn. reflexivity.
Qed.

Lemma get_set_kids_other : forall h i l j, j <> i -> get (set_kids h i l) j = get h j.
Proof.
  intros h i l j Hn. rewrite get_set_kids. apply N.eqb_neq in Hn. rewrite Hn. reflexivity.
Qed.

Lemma par_set_kids : forall h i l x, par (set_kids h i l) x = par h x.
Proof.
  intros h i l x. unfold par. rewrite get_set_kids.
  destruct (N.eqb_spec x i) as [->|]; [destruct (get h i)|]; reflexivity.
Qed.

Lemma par_set_parent_other : forall h i q x, x <> i -> par (set_parent h i q) x = par h x.
Proof. intros h i q x Hn. unfold par. rewrite get_set_parent_other by exact Hn. reflexivity. Qed.

Lemma kids_set_parent : forall h i q x, kids (set_parent h i q) x = kids h x.
Proof.
  intros h i q x. unfold kids. rewrite get_set_parent.
  destruct (N.eqb_spec x i) as [->|]; [destruct (get h i)|]; reflexivity.
Qed.

Lemma kids_set_kids_other : forall h i l x, x <> i -> kids (set_kids h i l) x = kids h x.
Proof. intros h i l x Hn. unfold kids. rewrite get_set_kids_other by exact Hn. reflexivity. Qed.

Lemma wp_wp : forall p q o, option_map (wp p) (option_map (wp q) o) = option_map (wp p) o.
Proof. intros. destruct o; reflexivity. Qed.

Lemma wp_id : forall nd p, parent nd = p -> wp p nd = nd.
Proof. intros [c q k t] p H. simpl in H. subst. reflexivity. Qed.

Lemma get_fold_set_parent : forall p news h j,
  get (fold_left (fun hh n => set_parent hh n (Some p)) news h) j =
  if memb j news then option_map (wp (Some p)) (get h j) else get h j.
Proof.
  intros p. induction news as [|n r IH]; intros h j; simpl.
  - reflexivity.
  - rewrite IH. rewrite get_set_parent.
    destruct (N.eqb_spec j n) as [->|Hn]; simpl.
    + rewrite wp_wp. destruct (memb n r); reflexivity.
    + reflexivity.
Qed.

Lemma get_In_keys : forall h j nd, get h j = Some nd -> In j (map fst h).
Proof.
  induction h as [|[k v] h IH]; intros j nd H; simpl in *; [discriminate|].
  destruct (N.eqb_spec j k); eauto.
Qed.

Lemma fresh_gt : forall h j nd, get h j = Some nd -> (j < fresh h)%N.
Proof.
  intros h j nd H. apply get_In_keys in H. unfold fresh.
  destruct (fold_max_ge (map fst h) 0%N) as [_ B]. specialize (B _ H). lia.
Qed.

Lemma tree_ind' (P : tree -> Prop) :
  (forall i ts, Forall P ts -> P (T i ts)) -> forall t, P t.
Proof.
  intros H. fix IH 1. intros [i ts]. apply H.
  induction ts as [|x r IHr]; constructor; [apply IH | apply IHr].
Qed.

Lemma tid_in_ids : forall t, In (tid t) (ids t).
Proof. intros [i ts]. simpl. auto. Qed.

Lemma tids_incl : forall j ns, In j (map tid ns) -> In j (flat_map ids ns).
Proof.
  intros j ns H. apply in_map_iff in H. destruct H as (n & <- & Hn).
  apply in_flat_map. exists n. split; auto. destruct n; simpl; auto.
Qed.

Lemma notin_root : forall c ts x, ~ In c (flat_map ids ts) -> In x ts ->
  N.eqb (tid x) c = false /\ ~ In c (ids x).
Proof.
  intros c ts x H Hx.
  assert (Hc : ~ In c (ids x)) by (intro K; apply H; apply in_flat_map; eauto).
  split; [|exact Hc]. apply N.eqb_neq. intro K. apply Hc. subst c. apply tid_in_ids.
Qed.

Lemma cnt_ids_root : forall x t, cnt x (ids t) = (if N.eqb (tid t) x then 1 else 0) + cnt x (flat_map ids (tkids t)).
Proof. intros x [i ts]. simpl. apply cnt_cons. Qed.

Lemma cnt_tids_le : forall x ts, cnt x (map tid ts) <= cnt x (flat_map ids ts).
Proof.
  induction ts as [|y r IH]; [apply Nat.le_refl|].
  rewrite cnt_flat_map_cons. simpl map. rewrite cnt_cons, cnt_ids_root. lia.
Qed.

Lemma cnt_tids_below : forall x ts,
  cnt x (flat_map ids ts) = cnt x (map tid ts) + cnt x (flat_map (fun y => flat_map ids (tkids y)) ts).
Proof.
  intros x. induction ts as [|y r IH]; [reflexivity|].
  simpl map. rewrite !cnt_flat_map_cons, cnt_cons, IH, cnt_ids_root. lia.
Qed.

Lemma NoDup_tids : forall ts, NoDup (flat_map ids ts) -> NoDup (map tid ts).
Proof.
  intros ts H. rewrite NoDup_cnt in *. intro x. specialize (H x).
  pose proof (cnt_tids_le x ts). lia.
Qed.

Lemma NoDup_flat_map_in : forall (ts : list tree) x, NoDup (flat_map ids ts) -> In x ts -> NoDup (ids x).
Proof.
  intros ts x H Hx. rewrite NoDup_cnt in *. intro z. specialize (H z).
  pose proof (cnt_flat_map_in ids z _ _ Hx). lia.
Qed.

Lemma tsize_ids : forall t, tsize t = length (ids t).
Proof.
  induction t as [i ts IH] using tree_ind'. simpl. f_equal.
  induction ts as [|y r IHr]; [reflexivity|]. inversion IH as [|? ? Py Pr]; subst.
  simpl. rewrite app_length, Py, (IHr Pr). reflexivity.
Qed.

Lemma tid_t_map : forall f t, tid (t_map f t) = f (tid t).
Proof. intros f [i ts]. reflexivity. Qed.

Lemma ids_t_map : forall f t, ids (t_map f t) = map f (ids t).
Proof.
  intros f. induction t as [i ts IH] using tree_ind'. simpl. f_equal.
  induction ts as [|y r IHr]; [reflexivity|]. inversion IH as [|? ? Py Pr]; subst.
  simpl. rewrite map_app, Py, (IHr Pr). reflexivity.
Qed.

Lemma repr_inv : forall h p i ts, repr h p (T i ts) ->
  exists nd, get h i = Some nd /\ parent nd = p /\ children nd = map tid ts /\
             (cls nd = c_Text -> ts = []) /\ Forall (repr h (Some i)) ts.
Proof. intros h p i ts H. inversion H; subst. eauto 10. Qed.

Lemma repr_ind' (h : heap) (P : option N -> tree -> Prop) :
  (forall p i ts nd, get h i = Some nd -> parent nd = p -> children nd = map tid ts ->
                     (cls nd = c_Text -> ts = []) -> Forall (repr h (Some i)) ts ->
                     Forall (P (Some i)) ts -> P p (T i ts)) ->
  forall p t, repr h p t -> P p t.
Proof.
  intros H p t. revert p. induction t as [i ts IH] using tree_ind'. intros p Hr.
  apply repr_inv in Hr. destruct Hr as (nd & Hg & Hp & Hc & Ht & Hf).
  eapply H; eauto. rewrite Forall_forall in *. intros x Hx. apply IH; auto.
Qed.

Lemma repr_root_par : forall h q t, repr h q t -> par h (tid t) = q.
Proof. intros h q [i ts] H. apply repr_inv in H. destruct H as (nd & Hg & Hp & _). simpl. unfold par. rewrite Hg. auto. Qed.

Lemma repr_kids : forall h q i ts, repr h q (T i ts) -> kids h i = map tid ts.
Proof. intros h q i ts H. apply repr_inv in H. destruct H as (nd & Hg & _ & Hc & _). unfold kids. rewrite Hg. auto. Qed.

Lemma repr_child : forall h q i ts x, repr h q (T i ts) -> In x ts -> repr h (Some i) x.
Proof. intros h q i ts x H Hx. apply repr_inv in H. destruct H as (nd & _ & _ & _ & _ & Hf). rewrite Forall_forall in Hf. auto. Qed.

Lemma repr_get : forall h q t j, repr h q t -> In j (ids t) -> exists nd, get h j = Some nd.
Proof.
  intros h q t j Hr. revert j. induction Hr as [p i ts nd Hg Hp Hc Ht Hf IH] using repr_ind'.
  intros j [<-|Hj]; eauto. apply in_flat_map in Hj. destruct Hj as (x & Hx & Hj).
  rewrite Forall_forall in IH. eauto.
Qed.

Lemma repr_frame : forall h h' t p,
  (forall i, In i (ids t) -> get h' i = get h i) -> repr h p t -> repr h' p t.
Proof.
  intros h h'. induction t as [i ts IH] using tree_ind'. intros p Hag Hr.
  apply repr_inv in Hr. destruct Hr as (nd & Hg & Hp & Hc & Ht & Hf).
  eapply repr_T with (nd := nd); auto.
  - rewrite Hag; auto. simpl. auto.
  - rewrite Forall_forall in *. intros x Hx. apply IH; auto.
    intros j Hj. apply Hag. simpl. right. apply in_flat_map. eauto.
Qed.

Lemma repr_frame_all : forall h h' q l,
  (forall j, In j (flat_map ids l) -> get h' j = get h j) -> Forall (repr h q) l -> Forall (repr h' q) l.
Proof.
  intros h h' q l Hag H. rewrite Forall_forall in *. intros x Hx. apply repr_frame with (h := h); [|auto].
  intros j Hj. apply Hag. apply in_flat_map. eauto.
Qed.

(* h' keeps every cell of h (it may have more) *)
Definition stable (h h' : heap) : Prop := forall j nd, get h j = Some nd -> get h' j = Some nd.

Lemma repr_stable : forall h h' p t, stable h h' -> repr h p t -> repr h' p t.
Proof.
  intros h h' p t Hs Hr. apply repr_frame with (h := h); auto.
  intros j Hj. destruct (repr_get _ _ _ _ Hr Hj) as [nd Hg]. rewrite Hg. apply Hs. exact Hg.
Qed.

Lemma repr_new_disj : forall h p u (l : list N),
  repr h p u -> (forall j, In j l -> get h j = None) -> disj (ids u) l.
Proof.
  intros h p u l Hr Hn j Hj Fj. destruct (repr_get _ _ _ _ Hr Hj) as [nd Hg].
  rewrite (Hn j Fj) in Hg. discriminate.
Qed.

Lemma repr_reroot : forall h h' q q' i ts,
  repr h q (T i ts) ->
  get h' i = option_map (wp q') (get h i) ->
  (forall j, In j (flat_map ids ts) -> get h' j = get h j) ->
  repr h' q' (T i ts).
Proof.
  intros h h' q q' i ts Hr Hi Hb.
  apply repr_inv in Hr. destruct Hr as (nd & Hg & Hp & Hc & Ht & Hf).
  rewrite Hg in Hi. simpl in Hi.
  eapply repr_T with (nd := wp q' nd); auto.
  apply (repr_frame_all h); assumption.
Qed.

Lemma repr_par_in : forall h q t n, repr h q t -> In n (ids t) -> n <> tid t ->
  exists pn, par h n = Some pn /\ In pn (ids t) /\ In n (kids h pn).
Proof.
  intros h q t n Hr. revert n. induction Hr as [p i ts nd Hg Hp Hc Ht Hf IH] using repr_ind'.
  intros n Hn Hne. simpl in Hn, Hne. destruct Hn as [Hn|Hn]; [congruence|].
  apply in_flat_map in Hn. destruct Hn as (x & Hx & Hn).
  rewrite Forall_forall in *. destruct (N.eq_dec n (tid x)) as [->|Hd].
  - exists i. split; [apply (repr_root_par h (Some i) x); auto|]. split; [simpl; auto|].
    unfold kids. rewrite Hg, Hc. apply in_map. auto.
  - destruct (IH _ Hx n Hn Hd) as (pn & H1 & H2 & H3). exists pn. split; auto. split; auto.
    simpl. right. apply in_flat_map. eauto.
Qed.

Lemma repr_inj : forall h t q t' q', repr h q t -> repr h q' t' -> tid t = tid t' -> t = t'.
Proof.
  intros h. induction t as [i ts IH] using tree_ind'. intros q [i' ts'] q' H1 H2 E. simpl in E. subst i'.
  apply repr_inv in H1. apply repr_inv in H2.
  destruct H1 as (nd & Hg & _ & Hc & _ & Hf). destruct H2 as (nd' & Hg' & _ & Hc' & _ & Hf').
  rewrite Hg in Hg'. inversion Hg'; subst nd'. rewrite Hc in Hc'. clear Hg Hg' Hc.
  f_equal. revert ts' Hc' Hf'. induction ts as [|x r IHr]; intros [|x' r'] Hm Hf'; simpl in Hm; try discriminate; auto.
  inversion Hm. inversion IH; subst. inversion Hf; subst. inversion Hf'; subst.
  f_equal; eauto.
Qed.

Lemma ids_le_heap : forall h q t, repr h q t -> NoDup (ids t) -> length (ids t) <= length h.
Proof.
  intros h q t Hr Hnd. rewrite <- (map_length fst h). apply NoDup_incl_length; [exact Hnd|].
  intros j Hj. destruct (repr_get _ _ _ _ Hr Hj) as [nd Hg]. eapply get_In_keys; eauto.
Qed.

Fixpoint f_find (c : N) (l : list tree) : option tree :=
  match l with
  | [] => None
  | x :: r => match t_find c x with Some s => Some s | None => f_find c r end
  end.

Lemma t_find_eq : forall c i ts,
  t_find c (T i ts) = if N.eqb i c then Some (T i ts) else f_find c ts.
Proof.
  intros. simpl. destruct (N.eqb i c); auto.
  induction ts as [|a r IH]; simpl; auto. destruct (t_find c a); auto.
Qed.

Lemma t_find_root : forall t, t_find (tid t) t = Some t.
Proof. intros [i ts]. rewrite t_find_eq. simpl. rewrite N.eqb_refl. auto. Qed.

Lemma t_find_some : forall c t s, t_find c t = Some s ->
  tid s = c /\ forall x, cnt x (ids s) <= cnt x (ids t).
Proof.
  intros c. induction t as [i ts IH] using tree_ind'. intros s H. rewrite t_find_eq in H.
  destruct (N.eqb_spec i c) as [E|E].
  - inversion H; subst. split; auto.
  - assert (tid s = c /\ forall x, cnt x (ids s) <= cnt x (flat_map ids ts)) as [A B].
    { clear E. induction ts as [|y r IHr]; simpl in H; [discriminate|].
      inversion IH; subst. destruct (t_find c y) eqn:Ey.
      - inversion H; subst. destruct (H2 _ eq_refl) as [A B]. split; auto.
        intro x. rewrite cnt_flat_map_cons. specialize (B x). lia.
      - destruct (IHr H3 H) as [A B]. split; auto.
        intro x. rewrite cnt_flat_map_cons. specialize (B x). lia. }
    split; auto. intro x. simpl. rewrite cnt_cons. specialize (B x). lia.
Qed.

Lemma t_find_none_inv : forall c t, t_find c t = None -> ~ In c (ids t).
Proof.
  intros c. induction t as [i ts IH] using tree_ind'. intros H. rewrite t_find_eq in H.
  destruct (N.eqb_spec i c) as [E|E]; [discriminate|].
  simpl. intros [F|F]; [congruence|].
  induction ts as [|y r IHr]; simpl in *; auto.
  inversion IH; subst. destruct (t_find c y) eqn:Ey; [discriminate|].
  apply in_app_or in F. destruct F as [F|F]; [apply (H2 eq_refl F) | apply (IHr H3 H F)].
Qed.

Lemma t_find_ex : forall c t, In c (ids t) -> exists s, t_find c t = Some s.
Proof. intros c t H. destruct (t_find c t) eqn:E; eauto. apply t_find_none_inv in E. contradiction. Qed.

Lemma t_find_repr : forall h c t q s, repr h q t -> t_find c t = Some s -> exists q', repr h q' s.
Proof.
  intros h c. induction t as [i ts IH] using tree_ind'. intros q s Hr H. rewrite t_find_eq in H.
  destruct (N.eqb_spec i c) as [E|E].
  - inversion H; subst. eauto.
  - apply repr_inv in Hr. destruct Hr as (nd & _ & _ & _ & _ & Hf). clear E.
    induction ts as [|y r IHr]; simpl in H; [discriminate|].
    inversion IH; subst. inversion Hf; subst. destruct (t_find c y) eqn:Ey.
    + inversion H; subst. eauto.
    + eauto.
Qed.

Lemma t_find_NoDup : forall c t s, NoDup (ids t) -> t_find c t = Some s -> NoDup (ids s).
Proof.
  intros c t s Hn H. apply t_find_some in H. destruct H as [_ B].
  rewrite NoDup_cnt in *. intro x. specialize (Hn x). specialize (B x). lia.
Qed.

Lemma t_find_incl : forall c t s, t_find c t = Some s -> incl (ids s) (ids t).
Proof.
  intros c t s H x Hx. apply t_find_some in H. destruct H as [_ B].
  apply In_cnt. apply In_cnt in Hx. specialize (B x). lia.
Qed.

Lemma t_find_in : forall c t s, t_find c t = Some s -> In c (ids t).
Proof.
  intros c t s H. apply (t_find_incl _ _ _ H). destruct (t_find_some _ _ _ H) as [<- _]. apply tid_in_ids.
Qed.

Lemma t_find_none : forall c t, ~ In c (ids t) -> t_find c t = None.
Proof.
  intros c t H. destruct (t_find c t) as [s|] eqn:E; [|reflexivity]. destruct (H (t_find_in _ _ _ E)).
Qed.

Lemma f_find_child : forall c ts x, NoDup (flat_map ids ts) -> In x ts -> In c (ids x) ->
  f_find c ts = t_find c x.
Proof.
  induction ts as [|y r IH]; intros x Hnd Hx Hc; [destruct Hx|].
  simpl in Hnd. apply NoDup_app_iff in Hnd. destruct Hnd as (_ & Nr & D). simpl.
  destruct Hx as [->|Hx].
  - destruct (t_find_ex _ _ Hc) as [s ->]. reflexivity.
  - rewrite t_find_none; [apply IH; assumption|]. intro K. apply (D c K). apply in_flat_map. eauto.
Qed.

Lemma find_node : forall h q t p, repr h q t -> In p (ids t) ->
  exists q' ts, t_find p t = Some (T p ts) /\ repr h q' (T p ts).
Proof.
  intros h q t p Hr Hp. destruct (t_find_ex _ _ Hp) as [s Hs].
  destruct (t_find_repr _ _ _ _ _ Hr Hs) as [q' Hq'].
  destruct (t_find_some _ _ _ Hs) as [E _]. destruct s as [i ts]. simpl in E. subst i. eauto.
Qed.

Lemma find_by_repr : forall h t x q q', repr h q t -> In (tid x) (ids t) -> repr h q' x ->
  t_find (tid x) t = Some x.
Proof.
  intros h t x q q' Hr Hin Hx.
  destruct (t_find_ex _ _ Hin) as [s Hs].
  destruct (t_find_repr _ _ _ _ _ Hr Hs) as [q'' Hq''].
  destruct (t_find_some _ _ _ Hs) as [E _].
  rewrite Hs. f_equal. eapply repr_inj; eassumption.
Qed.

Lemma child_in_ids : forall h q t p c, repr h q t -> In p (ids t) -> In c (kids h p) -> In c (ids t).
Proof.
  intros h q t p c Hr Hp Hc. destruct (find_node _ _ _ _ Hr Hp) as (q' & ts & Hfp & Hrp).
  rewrite (repr_kids _ _ _ _ Hrp) in Hc.
  apply (t_find_incl _ _ _ Hfp). right. apply tids_incl. exact Hc.
Qed.

Lemma child_subtree : forall h q t p c s, repr h q t -> In p (ids t) -> In c (kids h p) ->
  t_find c t = Some s -> exists ts, t_find p t = Some (T p ts) /\ In s ts /\ repr h (Some p) s.
Proof.
  intros h q t p c s Hr Hp Hc Hs. destruct (find_node _ _ _ _ Hr Hp) as (q' & ts & Hfp & Hrp).
  rewrite (repr_kids _ _ _ _ Hrp) in Hc. apply in_map_iff in Hc. destruct Hc as (x & <- & Hx).
  pose proof (repr_child _ _ _ _ _ Hrp Hx) as Hrx.
  rewrite (find_by_repr _ _ _ _ _ Hr (t_find_in _ _ _ Hs) Hrx) in Hs. inversion Hs; subst s. eauto.
Qed.

Lemma child_repr : forall h q t p c s, repr h q t -> In p (ids t) -> In c (kids h p) ->
  t_find c t = Some s -> repr h (Some p) s.
Proof. intros h q t p c s Hr Hp Hc Hs. destruct (child_subtree _ _ _ _ _ _ Hr Hp Hc Hs) as (ts & _ & _ & R). exact R. Qed.

Lemma child_par : forall h q t p c, repr h q t -> In p (ids t) -> In c (kids h p) -> par h c = Some p.
Proof.
  intros h q t p c Hr Hp Hc. destruct (t_find_ex _ _ (child_in_ids _ _ _ _ _ Hr Hp Hc)) as [s Hs].
  destruct (t_find_some _ _ _ Hs) as [<- _]. exact (repr_root_par _ _ _ (child_repr _ _ _ _ _ _ Hr Hp Hc Hs)).
Qed.

Lemma par_in_tree : forall h t n p, repr h None t -> In n (ids t) -> par h n = Some p ->
  In p (ids t) /\ In n (kids h p).
Proof.
  intros h t n p Hr Hn Hp. destruct (N.eq_dec n (tid t)) as [E|E].
  - subst n. rewrite (repr_root_par _ _ _ Hr) in Hp. discriminate.
  - destruct (repr_par_in _ _ _ _ Hr Hn E) as (p' & P1 & P2 & P3).
    rewrite Hp in P1. inversion P1; subst p'. auto.
Qed.

Lemma child_not_root : forall h t p c, repr h None t -> In p (ids t) -> In c (kids h p) -> tid t <> c.
Proof.
  intros h t p c Hr Hp Hc E. pose proof (child_par _ _ _ _ _ Hr Hp Hc) as Hpar.
  rewrite <- E, (repr_root_par _ _ _ Hr) in Hpar. discriminate.
Qed.

Lemma parent_outside : forall h q t p c s, repr h q t -> NoDup (ids t) -> In p (ids t) -> In c (kids h p) ->
  t_find c t = Some s -> ~ In p (ids s).
Proof.
  intros h q t p c s Hr Hnd Hp Hc Hs. destruct (child_subtree _ _ _ _ _ _ Hr Hp Hc Hs) as (ts & Hfp & Hx & _).
  pose proof (t_find_NoDup _ _ _ Hnd Hfp) as Hndp. simpl in Hndp. apply NoDup_cons_iff in Hndp.
  intro F. apply Hndp. apply in_flat_map. eauto.
Qed.

Lemma child_neq : forall h q t p c, repr h q t -> NoDup (ids t) -> In p (ids t) -> In c (kids h p) -> p <> c.
Proof.
  intros h q t p c Hr Hnd Hp Hc E. destruct (t_find_ex _ _ (child_in_ids _ _ _ _ _ Hr Hp Hc)) as [s Hs].
  apply (parent_outside _ _ _ _ _ _ Hr Hnd Hp Hc Hs). destruct (t_find_some _ _ _ Hs) as [Es _].
  rewrite E, <- Es. apply tid_in_ids.
Qed.

Lemma kids_NoDup : forall h q t p, repr h q t -> NoDup (ids t) -> In p (ids t) -> NoDup (kids h p).
Proof.
  intros h q t p Hr Hnd Hp. destruct (find_node _ _ _ _ Hr Hp) as (q' & ts & Hfp & Hrp).
  rewrite (repr_kids _ _ _ _ Hrp). apply NoDup_tids.
  pose proof (t_find_NoDup _ _ _ Hnd Hfp) as Hndp. simpl in Hndp. apply NoDup_cons_iff in Hndp. apply Hndp.
Qed.

Lemma build_S : forall f h i,
  build (S f) h i = match get h i with
                    | None => None
                    | Some nd => match map_opt (build f h) (children nd) with
                                 | Some ts => Some (T i ts)
                                 | None => None
                                 end
                    end.
Proof. reflexivity. Qed.

Lemma build_complete_fuel : forall h t p, repr h p t ->
  forall fuel, tsize t <= fuel -> build fuel h (tid t) = Some t.
Proof.
  intros h. induction t as [i ts IH] using tree_ind'. intros p Hr fuel Hf.
  destruct fuel as [|f]; [simpl in Hf; lia|].
  apply repr_inv in Hr. destruct Hr as (nd & Hg & _ & Hc & _ & Hfa).
  simpl tid. rewrite build_S, Hg, Hc.
  assert (map_opt (build f h) (map tid ts) = Some ts) as ->; [|reflexivity].
  simpl in Hf. assert (Hs : list_sum (map tsize ts) <= f) by lia. clear Hf Hg Hc.
  induction ts as [|y r IHr]; [reflexivity|].
  inversion IH as [|? ? Py Pr]; subst. inversion Hfa as [|? ? Ry Rr]; subst. simpl in Hs.
  simpl map. rewrite map_opt_cons. rewrite (Py _ Ry) by lia. rewrite IHr; auto. lia.
Qed.

Lemma build_complete : forall h p s, repr h p s -> NoDup (ids s) ->
  build (S (length h)) h (tid s) = Some s.
Proof.
  intros h p s Hr Hnd. apply build_complete_fuel with (p := p); auto.
  rewrite tsize_ids. pose proof (ids_le_heap h p s Hr Hnd). lia.
Qed.

Lemma opt_eqb_refl : forall a, opt_eqb a a = true.
Proof. intros [x|]; simpl; auto. apply N.eqb_refl. Qed.

Lemma checkp_true : forall h p s, repr h p s -> checkp h p s = true.
Proof.
  intros h p s Hr. induction Hr as [p i ts nd Hg Hp Hc Ht Hf IH] using repr_ind'.
  simpl. rewrite Hg, Hp, opt_eqb_refl. simpl.
  assert (negb (N.eqb (cls nd) c_Text) || is_nil ts = true) as ->.
  { destruct (N.eqb_spec (cls nd) c_Text) as [E|E]; [rewrite (Ht E)|]; reflexivity. }
  simpl. apply forallb_forall. rewrite Forall_forall in IH. auto.
Qed.

Lemma WF_wfb : forall h r, WF h r -> wfb h r = true.
Proof.
  intros h r (t & E & Hr & Hnd). unfold wfb.
  rewrite <- E, (build_complete _ _ _ Hr Hnd), (nodupb_true _ Hnd), (checkp_true _ _ _ Hr). reflexivity.
Qed.

Definition rep (c : N) (news : list tree) (ts : list tree) : list tree :=
  flat_map (fun x => if N.eqb (tid x) c then news else [t_replace c news x]) ts.

Lemma t_replace_eq : forall c news i ts, t_replace c news (T i ts) = T i (rep c news ts).
Proof. reflexivity. Qed.

Lemma rep_cons : forall c news x r,
  rep c news (x :: r) = (if N.eqb (tid x) c then news else [t_replace c news x]) ++ rep c news r.
Proof. reflexivity. Qed.

Lemma rep_app : forall c news a b, rep c news (a ++ b) = rep c news a ++ rep c news b.
Proof. intros. unfold rep. apply flat_map_app. Qed.

Lemma tid_t_replace : forall c ns t, tid (t_replace c ns t) = tid t.
Proof. intros c ns [i ts]. reflexivity. Qed.

Lemma t_replace_notin : forall c ns t, ~ In c (ids t) -> t_replace c ns t = t.
Proof.
  intros c ns. induction t as [i ts IH] using tree_ind'. intros H. simpl in H.
  simpl. f_equal. rewrite Forall_forall in IH. apply flat_map_id. intros x Hx.
  destruct (notin_root c ts x (fun K => H (or_intror K)) Hx) as [-> Hc]. rewrite (IH x Hx Hc). reflexivity.
Qed.

Lemma rep_notin : forall c news ts, ~ In c (flat_map ids ts) -> rep c news ts = ts.
Proof.
  intros c ns ts H. apply flat_map_id. intros x Hx.
  destruct (notin_root c ts x H Hx) as [-> Hc]. rewrite (t_replace_notin _ _ _ Hc). reflexivity.
Qed.

Lemma cnt_replace : forall c ns t s, NoDup (ids t) -> tid t <> c -> t_find c t = Some s ->
  forall x, cnt x (ids (t_replace c ns t)) + cnt x (ids s) = cnt x (ids t) + cnt x (flat_map ids ns).
Proof.
  intros c ns. induction t as [i ts IH] using tree_ind'. intros s Hnd Hic Hf x.
  rewrite t_find_eq in Hf. simpl in Hic. destruct (N.eqb_spec i c); [congruence|].
  rewrite t_replace_eq. simpl ids. rewrite !cnt_cons. simpl in Hnd. inversion Hnd as [|? ? _ Hnd']; subst.
  enough (cnt x (flat_map ids (rep c ns ts)) + cnt x (ids s)
          = cnt x (flat_map ids ts) + cnt x (flat_map ids ns)) by lia.
  clear Hnd Hic n. induction ts as [|y r IHr]; simpl in Hf; [discriminate|].
  inversion IH as [|? ? Py Pr]; subst.
  assert (Hy : NoDup (ids y) /\ NoDup (flat_map ids r) /\ forall z, cnt z (ids y) + cnt z (flat_map ids r) <= 1).
  { rewrite !NoDup_cnt. rewrite NoDup_cnt in Hnd'. repeat split; intro z; specialize (Hnd' z);
      rewrite cnt_flat_map_cons in Hnd'; lia. }
  destruct Hy as (Ny & Nr & D).
  rewrite rep_cons, cnt_flat_map_app, !cnt_flat_map_cons.
  destruct (t_find c y) eqn:Ey.
  - inversion Hf; subst t. destruct (t_find_some _ _ _ Ey) as [Es Bs].
    assert (Hcr : ~ In c (flat_map ids r)).
    { apply notIn_cnt. specialize (D c). specialize (Bs c).
      assert (cnt c (ids s) >= 1). { apply In_cnt. destruct s; simpl in *; auto. } lia. }
    rewrite (rep_notin c ns r Hcr).
    destruct (N.eqb_spec (tid y) c) as [E|E].
    + assert (s = y). { destruct y as [j js]. rewrite t_find_eq in Ey. simpl in E. subst j. rewrite N.eqb_refl in Ey. congruence. }
      subst s. lia.
    + simpl flat_map. rewrite app_nil_r. specialize (Py s Ny E eq_refl x). lia.
  - assert (Hcy : ~ In c (ids y)) by (apply t_find_none_inv; auto).
    destruct (N.eqb_spec (tid y) c) as [E|E].
    + exfalso. apply Hcy. destruct y; simpl in *; auto.
    + rewrite (t_replace_notin c ns y Hcy). simpl flat_map. rewrite app_nil_r.
      specialize (IHr Pr Hf Nr). lia.
Qed.

Lemma tid_t_append : forall p s t, tid (t_append p s t) = tid t.
Proof. intros p s [i ts]. simpl. destruct (N.eqb i p); reflexivity. Qed.

Lemma t_append_notin : forall p s t, ~ In p (ids t) -> t_append p s t = t.
Proof.
  intros p s. induction t as [i ts IH] using tree_ind'. intros H. simpl in H. simpl.
  destruct (N.eqb_spec i p) as [E|E]; [tauto|]. f_equal. rewrite Forall_forall in IH.
  rewrite <- (map_id ts) at 2. apply map_ext_in. intros x Hx.
  apply IH; [exact Hx|]. apply (notin_root p ts x); tauto.
Qed.

Lemma cnt_append : forall p s t, NoDup (ids t) -> In p (ids t) ->
  forall x, cnt x (ids (t_append p s t)) = cnt x (ids t) + cnt x (ids s).
Proof.
  intros p s. induction t as [i ts IH] using tree_ind'. intros Hnd Hp x. simpl.
  destruct (N.eqb_spec i p) as [E|E].
  - simpl. rewrite !cnt_cons, cnt_flat_map_app. simpl. rewrite app_nil_r. lia.
  - simpl. rewrite !cnt_cons. simpl in Hp. destruct Hp as [Hp|Hp]; [congruence|].
    simpl in Hnd. inversion Hnd as [|? ? _ Hnd']; subst.
    enough (cnt x (flat_map ids (map (t_append p s) ts)) = cnt x (flat_map ids ts) + cnt x (ids s)) by lia.
    clear Hnd E. induction ts as [|y r IHr]; [destruct Hp|].
    inversion IH as [|? ? Py Pr]; subst.
    assert (Hy : NoDup (ids y) /\ NoDup (flat_map ids r) /\ forall z, cnt z (ids y) + cnt z (flat_map ids r) <= 1).
    { rewrite !NoDup_cnt. rewrite NoDup_cnt in Hnd'. repeat split; intro z; specialize (Hnd' z);
        rewrite cnt_flat_map_cons in Hnd'; lia. }
    destruct Hy as (Ny & Nr & D).
    simpl map. rewrite !cnt_flat_map_cons.
    destruct (in_dec N.eq_dec p (ids y)) as [I|I].
    + assert (Hpr : ~ In p (flat_map ids r)).
      { apply notIn_cnt. apply In_cnt in I. specialize (D p). lia. }
      assert (Er : map (t_append p s) r = r).
      { clear - Hpr. induction r as [|z r IHr]; [reflexivity|]. simpl in Hpr. rewrite in_app_iff in Hpr.
        simpl. f_equal; [apply t_append_notin; tauto | apply IHr; tauto]. }
      rewrite Er. rewrite (Py Ny I x). lia.
    + rewrite (t_append_notin p s y I).
      simpl in Hp. rewrite in_app_iff in Hp. destruct Hp as [Hp|Hp]; [contradiction|].
      rewrite (IHr Pr Hp Nr). lia.
Qed.

Definition ins (tgt : N) (b : bool) (s : tree) (ts : list tree) : list tree :=
  flat_map (fun x => if N.eqb (tid x) tgt
                     then (if b then [s; x] else [x; s])
                     else [t_insert tgt b s x]) ts.

Lemma t_insert_eq : forall tgt b s i ts, t_insert tgt b s (T i ts) = T i (ins tgt b s ts).
Proof. reflexivity. Qed.

Lemma ins_cons : forall tgt b s x r,
  ins tgt b s (x :: r) = (if N.eqb (tid x) tgt then (if b then [s; x] else [x; s])
                          else [t_insert tgt b s x]) ++ ins tgt b s r.
Proof. reflexivity. Qed.

Lemma ins_app : forall tgt b s a c, ins tgt b s (a ++ c) = ins tgt b s a ++ ins tgt b s c.
Proof. intros. unfold ins. apply flat_map_app. Qed.

Lemma tid_t_insert : forall tgt b s t, tid (t_insert tgt b s t) = tid t.
Proof. intros tgt b s [i ts]. reflexivity. Qed.

Lemma t_insert_notin : forall tgt b s t, ~ In tgt (ids t) -> t_insert tgt b s t = t.
Proof.
  intros c b s. induction t as [i ts IH] using tree_ind'. intros H. simpl in H.
  simpl. f_equal. rewrite Forall_forall in IH. apply flat_map_id. intros x Hx.
  destruct (notin_root c ts x (fun K => H (or_intror K)) Hx) as [-> Hc]. rewrite (IH x Hx Hc). reflexivity.
Qed.

Lemma ins_notin : forall tgt b s ts, ~ In tgt (flat_map ids ts) -> ins tgt b s ts = ts.
Proof.
  intros c b s ts H. apply flat_map_id. intros x Hx.
  destruct (notin_root c ts x H Hx) as [-> Hc]. rewrite (t_insert_notin _ _ _ _ Hc). reflexivity.
Qed.

Lemma t_insert_as_replace : forall tgt b s l t, NoDup (ids t) -> t_find tgt t = Some l ->
  t_insert tgt b s t = t_replace tgt (if b then [s; l] else [l; s]) t.
Proof.
  intros tgt b s l. induction t as [i ts IH] using tree_ind'. intros Hnd Hf.
  simpl. f_equal. rewrite Forall_forall in IH. apply flat_map_ext_in. intros x Hx.
  simpl in Hnd. apply NoDup_cons_iff in Hnd. destruct Hnd as [Hi Hnd].
  destruct (in_dec N.eq_dec tgt (ids x)) as [Hc|Hc].
  - (* tgt lies in the child x, so it is not i, and l is found in x *)
    assert (Hfx : t_find tgt x = Some l).
    { rewrite t_find_eq in Hf. destruct (N.eqb_spec i tgt) as [E|_].
      - exfalso. apply Hi. rewrite E. apply in_flat_map. eauto.
      - rewrite <- Hf. symmetry. apply f_find_child; assumption. }
    destruct (N.eqb_spec (tid x) tgt) as [E|E].
    + rewrite <- E, t_find_root in Hfx. inversion Hfx; subst l. destruct b; reflexivity.
    + f_equal. apply IH; [exact Hx | eapply NoDup_flat_map_in; eassumption | exact Hfx].
  - assert (E : N.eqb (tid x) tgt = false).
    { apply N.eqb_neq. intro K. apply Hc. rewrite <- K. apply tid_in_ids. }
    rewrite E, (t_insert_notin _ _ _ _ Hc), (t_replace_notin _ _ _ Hc). reflexivity.
Qed.

Lemma replace_child_spec : forall h p c news idx,
  index_of c (kids h p) = Some idx -> p <> c -> ~ In p news -> ~ In c news ->
  exists h', replace_child h p c news = Ok h' /\
    get h' p = option_map (wk (splice (kids h p) idx news)) (get h p) /\
    get h' c = option_map (wp None) (get h c) /\
    (forall j, In j news -> get h' j = option_map (wp (Some p)) (get h j)) /\
    (forall j, j <> p -> j <> c -> ~ In j news -> get h' j = get h j).
Proof.
  intros h p c news idx Hi Hpc Hpn Hcn. unfold replace_child. rewrite Hi.
  eexists. split; [reflexivity|].
  repeat split; intros; rewrite get_fold_set_parent, get_set_parent, !get_set_kids.
  - rewrite (memb_false _ _ Hpn). destruct (N.eqb_spec p c); [congruence|]. rewrite N.eqb_refl. auto.
  - rewrite (memb_false _ _ Hcn). rewrite N.eqb_refl. destruct (N.eqb_spec c p); [congruence|]. auto.
  - pose proof H as H'. apply memb_In in H'. rewrite H'.
    destruct (N.eqb_spec j c); [subst; contradiction|]. destruct (N.eqb_spec j p); [subst; contradiction|]. auto.
  - rewrite (memb_false _ _ H1).
    destruct (N.eqb_spec j c); [contradiction|]. destruct (N.eqb_spec j p); [contradiction|]. auto.
Qed.

Lemma remove_child_frame_get : forall h p c h1, remove_child h p c = Ok h1 ->
  In c (kids h p) /\ forall i, i <> p -> i <> c -> get h1 i = get h i.
Proof.
  intros h p c h1 H. unfold remove_child, replace_child in H.
  destruct (index_of c (kids h p)) as [k|] eqn:E; [|discriminate].
  inversion H; subst h1. split; [eapply index_of_Some_In; eassumption|].
  intros i Hp Hc. simpl.
  rewrite get_set_parent_other by assumption. apply get_set_kids_other. assumption.
Qed.

Lemma par_remove_child : forall h p c h1 x, remove_child h p c = Ok h1 -> x <> c ->
  par h1 x = par h x.
Proof.
  intros h p c h1 x H Hn. unfold remove_child, replace_child in H.
  destruct (index_of c (kids h p)); [|discriminate]. inversion H; subst h1. simpl.
  rewrite par_set_parent_other by exact Hn. apply par_set_kids.
Qed.

Lemma kids_remove_child_other : forall h p c h1 x, remove_child h p c = Ok h1 -> x <> p ->
  kids h1 x = kids h x.
Proof.
  intros h p c h1 x H Hn. unfold remove_child, replace_child in H.
  destruct (index_of c (kids h p)); [|discriminate]. inversion H; subst h1. simpl.
  rewrite kids_set_parent. apply kids_set_kids_other. exact Hn.
Qed.

Lemma tids_rep : forall c ns ts idx, NoDup (map tid ts) -> index_of c (map tid ts) = Some idx ->
  splice (map tid ts) idx (map tid ns) = map tid (rep c ns ts).
Proof.
  intros c ns. unfold rep. induction ts as [|y r IH]; intros idx Hnd Hi; simpl in *; [discriminate|].
  inversion Hnd; subst. destruct (N.eqb_spec c (tid y)) as [E|E].
  - inversion Hi; subst idx. rewrite <- E in *. rewrite N.eqb_refl. unfold splice. simpl.
    rewrite map_app. f_equal.
    rewrite flat_map_single with (g := t_replace c ns).
    + rewrite map_map. apply map_ext. intro. symmetry. apply tid_t_replace.
    + intros x Hx. destruct (N.eqb_spec (tid x) c) as [F|F]; auto.
      exfalso. apply H1. rewrite <- F. apply in_map. auto.
  - destruct (index_of c (map tid r)) eqn:Ei; [|discriminate]. inversion Hi; subst idx.
    destruct (N.eqb_spec (tid y) c); [congruence|]. simpl. rewrite tid_t_replace.
    unfold splice in *. simpl. f_equal. apply IH; auto.
Qed.

(* generic surgery: the heap h' is h where the children list of p has the entry c replaced by the
   roots of ns, and the trees ns hang under p in h'. *)
Lemma surgery_repr :
  forall h h' p c ns idx,
    p <> c ->
    index_of c (kids h p) = Some idx ->
    NoDup (kids h p) ->
    par h c = Some p ->
    get h' p = option_map (wk (splice (kids h p) idx (map tid ns))) (get h p) ->
    (forall j, j <> p -> j <> c -> ~ In j (map tid ns) -> get h' j = get h j) ->
    Forall (repr h' (Some p)) ns ->
    (forall j k, In j (map tid ns) -> j <> c -> par h j = Some k -> k = c) ->
    forall t q, repr h q t -> tid t <> c -> ~ In (tid t) (map tid ns) ->
                repr h' q (t_replace c ns t).
Proof.
  intros h h' p c ns idx Hpc Hidx Hnd Hparc Hp Ho Hns Hnp.
  induction t as [i ts IH] using tree_ind'. intros q Hr Hic Hin. simpl in Hic, Hin.
  pose proof (repr_kids _ _ _ _ Hr) as Hk.
  assert (Hch : forall x, In x ts -> par h (tid x) = Some i).
  { intros x Hx. apply repr_root_par. eapply repr_child; eauto. }
  assert (Hkn : forall x, In x ts -> tid x <> c -> ~ In (tid x) (map tid ns)).
  { intros x Hx Hxc Hxin. pose proof (Hch x Hx) as Hpx. apply (Hnp _ _ Hxin Hxc) in Hpx. congruence. }
  apply repr_inv in Hr. destruct Hr as (nd & Hg & Hpar & Hcd & Htx & Hf).
  rewrite Forall_forall in Hf, IH.
  simpl. destruct (N.eq_dec i p) as [->|Hip].
  - rewrite Hg in Hp. simpl in Hp.
    eapply repr_T with (nd := wk _ nd); [exact Hp | exact Hpar | | | ].
    + simpl. rewrite Hk. apply tids_rep; rewrite <- Hk; assumption.
    + simpl. intro Hc. apply Htx in Hc. subst ts. reflexivity.
    + apply Forall_flat_map_intro. intros x Hx. destruct (N.eqb_spec (tid x) c) as [E|E]; auto.
  - assert (Hnc : forall x, In x ts -> tid x <> c).
    { intros x Hx E. apply Hch in Hx. rewrite E in Hx. congruence. }
    rewrite flat_map_single with (g := t_replace c ns).
    2:{ intros x Hx. destruct (N.eqb_spec (tid x) c) as [E|E]; auto. exfalso. eapply Hnc; eauto. }
    eapply repr_T with (nd := nd); auto.
    + rewrite Ho; auto.
    + rewrite map_map. rewrite Hcd. apply map_ext. intros. rewrite tid_t_replace. auto.
    + intro Hc. apply Htx in Hc. subst ts. reflexivity.
    + rewrite Forall_forall. intros x' Hx'. apply in_map_iff in Hx'. destruct Hx' as (x & <- & Hx).
      apply IH; auto.
Qed.

(* replace_child(c, news) on a child c of a node p of a proper tree, where every new subtree is detached or
   hangs under c itself, the new subtrees are pairwise disjoint and share with the document only nodes of
   the replaced subtree s: the new subtrees hang under p in place of s *)
Lemma replace_child_repr_gen : forall h t p c ns s,
  repr h None t -> NoDup (ids t) -> In p (ids t) -> In c (kids h p) -> t_find c t = Some s ->
  Forall (fun n => repr h None n \/ repr h (Some c) n) ns -> NoDup (flat_map ids ns) ->
  ~ In c (flat_map ids ns) -> (forall x, In x (flat_map ids ns) -> In x (ids t) -> In x (ids s)) ->
  exists h', replace_child h p c (map tid ns) = Ok h' /\
             repr h' None (t_replace c ns t) /\ NoDup (ids (t_replace c ns t)) /\
             Forall (repr h' (Some p)) ns /\
             get h' c = option_map (wp None) (get h c) /\
             (forall j, j <> p -> j <> c -> ~ In j (map tid ns) -> get h' j = get h j).
Proof.
  intros h t p c ns s Hr Hnd Hp Hc Hfs Hns Hndn Hcn Hsh.
  destruct (index_of_In _ _ Hc) as [idx Hidx].
  pose proof (child_neq _ _ _ _ _ Hr Hnd Hp Hc) as Hpc.
  pose proof (parent_outside _ _ _ _ _ _ Hr Hnd Hp Hc Hfs) as Hps.
  pose proof (child_not_root _ _ _ _ Hr Hp Hc) as Htc.
  assert (Hpn : ~ In p (map tid ns)). { intro F. apply tids_incl in F. apply Hps. auto. }
  assert (Hcn' : ~ In c (map tid ns)). { intro F. apply tids_incl in F. contradiction. }
  destruct (replace_child_spec h p c (map tid ns) idx Hidx Hpc Hpn Hcn') as (h' & Hrc & Gp & Gc & Gn & Go).
  rewrite Forall_forall in Hns.
  assert (Hnew : Forall (repr h' (Some p)) ns).
  { rewrite Forall_forall. intros [k ks] Hn.
    assert (exists q, repr h q (T k ks)) as [q Hrn] by (destruct (Hns _ Hn); eauto).
    eapply repr_reroot; [exact Hrn | apply Gn, in_map_iff; exists (T k ks); auto |].
    intros j Hj.
    assert (Hjn : In j (flat_map ids ns)) by (apply in_flat_map; exists (T k ks); simpl; auto).
    apply Go.
    - intro E. subst j. apply Hps. auto.
    - intro E. subst j. contradiction.
    - intro F. apply In_cnt in F.
      assert (Hjb : In j (flat_map (fun y => flat_map ids (tkids y)) ns)) by (apply in_flat_map; exists (T k ks); auto).
      apply In_cnt in Hjb. rewrite NoDup_cnt in Hndn. specialize (Hndn j). rewrite cnt_tids_below in Hndn. lia. }
  exists h'. split; [exact Hrc|]. split; [|split; [|auto]].
  - refine (surgery_repr h h' p c ns idx Hpc Hidx (kids_NoDup _ _ _ _ Hr Hnd Hp) (child_par _ _ _ _ _ Hr Hp Hc)
                          Gp Go Hnew _ t None Hr Htc _).
    + intros j k Hj _ Hk. apply in_map_iff in Hj. destruct Hj as (n & <- & Hn).
      destruct (Hns _ Hn) as [R|R]; apply repr_root_par in R; congruence.
    + (* a new subtree rooted at the root of t would be t itself, which contains c *)
      intro F. apply in_map_iff in F. destruct F as (n & E & Hn).
      destruct (Hns _ Hn) as [R|R].
      * assert (n = t) by (eapply repr_inj; eauto). subst n.
        apply Hcn. apply in_flat_map. exists t. split; [exact Hn | exact (t_find_in _ _ _ Hfs)].
      * apply repr_root_par in R. rewrite E, (repr_root_par _ _ _ Hr) in R. discriminate.
  - apply NoDup_cnt. intro x. pose proof (cnt_replace c ns t s Hnd Htc Hfs x) as E.
    rewrite NoDup_cnt in Hnd, Hndn. specialize (Hnd x). specialize (Hndn x).
    destruct (in_dec N.eq_dec x (flat_map ids ns)) as [I1|I1]; [|apply notIn_cnt in I1; lia].
    destruct (in_dec N.eq_dec x (ids t)) as [I2|I2]; [|apply notIn_cnt in I2; lia].
    specialize (Hsh x I1 I2). apply In_cnt in Hsh. lia.
Qed.

(* detached, pairwise disjoint new subtrees that are disjoint from the document; the replaced subtree is
   detached afterwards *)
Lemma replace_child_repr : forall h t p c ns,
  repr h None t -> NoDup (ids t) -> In p (ids t) -> In c (kids h p) ->
  Forall (repr h None) ns -> NoDup (flat_map ids ns) -> disj (ids t) (flat_map ids ns) ->
  exists h', replace_child h p c (map tid ns) = Ok h' /\
             repr h' None (t_replace c ns t) /\ NoDup (ids (t_replace c ns t)) /\
             (forall s, t_find c t = Some s -> repr h' None s).
Proof.
  intros h t p c ns Hr Hnd Hp Hc Hns Hndn Hd.
  pose proof (child_in_ids _ _ _ _ _ Hr Hp Hc) as Hct. destruct (t_find_ex _ _ Hct) as [s Hfs].
  assert (Hns' : Forall (fun n => repr h None n \/ repr h (Some c) n) ns).
  { rewrite Forall_forall in *. auto. }
  destruct (replace_child_repr_gen h t p c ns s Hr Hnd Hp Hc Hfs Hns' Hndn (Hd _ Hct))
    as (h' & Hrc & R1 & R2 & _ & Gc & Go).
  - intros x I1 I2. destruct (Hd _ I2 I1).
  - exists h'. split; [exact Hrc|]. split; [exact R1|]. split; [exact R2|].
    intros s' Hs'. rewrite Hfs in Hs'. inversion Hs'; subst s'.
    pose proof (child_repr _ _ _ _ _ _ Hr Hp Hc Hfs) as Hrs.
    pose proof (t_find_NoDup _ _ _ Hnd Hfs) as Hnds. destruct (t_find_some _ _ _ Hfs) as [Ets _].
    destruct s as [c' cs]. simpl in Ets. subst c'.
    eapply repr_reroot; eauto.
    intros j Hj. assert (Hjs : In j (ids (T c cs))) by (simpl; auto).
    apply Go.
    + intro E. subst j. exact (parent_outside _ _ _ _ _ _ Hr Hnd Hp Hc Hfs Hjs).
    + intro E. subst j. simpl in Hnds. inversion Hnds; contradiction.
    + intro F. apply tids_incl in F. exact (Hd _ (t_find_incl _ _ _ Hfs _ Hjs) F).
Qed.

(* the cleaner's idiom node.parent.replace_child(node, node.children): the new subtrees are those of c *)
Lemma dissolve_repr : forall h t p c cs,
  repr h None t -> NoDup (ids t) -> In p (ids t) -> In c (kids h p) ->
  t_find c t = Some (T c cs) ->
  exists h', replace_child h p c (kids h c) = Ok h' /\
             repr h' None (t_replace c cs t) /\ NoDup (ids (t_replace c cs t)) /\
             Forall (repr h' (Some p)) cs /\
             get h' c = option_map (wp None) (get h c) /\
             (forall j, j <> p -> j <> c -> ~ In j (map tid cs) -> get h' j = get h j).
Proof.
  intros h t p c cs Hr Hnd Hp Hc Hf.
  destruct (t_find_repr _ _ _ _ _ Hr Hf) as [q Hrs].
  pose proof (t_find_NoDup _ _ _ Hnd Hf) as Hnds. simpl in Hnds. apply NoDup_cons_iff in Hnds.
  rewrite (repr_kids _ _ _ _ Hrs).
  apply (replace_child_repr_gen h t p c cs (T c cs)); auto.
  - rewrite Forall_forall. intros x Hx. right. eapply repr_child; eauto.
  - apply Hnds.
  - apply Hnds.
  - intros x I1 _. simpl. auto.
Qed.

Lemma remove_child_repr : forall h t p c,
  repr h None t -> NoDup (ids t) -> In p (ids t) -> In c (kids h p) ->
  exists h', remove_child h p c = Ok h' /\
             repr h' None (t_replace c [] t) /\ NoDup (ids (t_replace c [] t)) /\
             (forall s, t_find c t = Some s ->
                        repr h' None s /\ disj (ids (t_replace c [] t)) (ids s)).
Proof.
  intros h t p c Hr Hnd Hp Hc.
  destruct (replace_child_repr h t p c [] Hr Hnd Hp Hc) as (h' & H1 & H2 & H3 & H4).
  - constructor.
  - constructor.
  - intros x _ F. exact F.
  - exists h'. unfold remove_child. split; [exact H1|]. split; auto. split; auto.
    intros s Hs. split; auto.
    apply cnt_disj. intro x. pose proof (cnt_replace c [] t s Hnd (child_not_root _ _ _ _ Hr Hp Hc) Hs x) as E.
    rewrite NoDup_cnt in Hnd. specialize (Hnd x). simpl in E. rewrite cnt_nil in E. lia.
Qed.

Theorem replace_child_preserves_WF : forall h r t p c ns,
  tid t = r -> repr h None t -> NoDup (ids t) -> In p (ids t) -> In c (kids h p) ->
  Forall (repr h None) ns -> NoDup (flat_map ids ns) -> disj (ids t) (flat_map ids ns) ->
  exists h', replace_child h p c (map tid ns) = Ok h' /\ WF h' r /\ WFsub h' None c.
Proof.
  intros h r t p c ns Er Hr Hnd Hp Hc Hns Hndn Hd.
  destruct (replace_child_repr h t p c ns Hr Hnd Hp Hc Hns Hndn Hd) as (h' & H1 & H2 & H3 & H4).
  destruct (t_find_ex _ _ (child_in_ids _ _ _ _ _ Hr Hp Hc)) as [s Hfs].
  exists h'. split; auto. split.
  - exists (t_replace c ns t). rewrite tid_t_replace. auto.
  - exists s. destruct (t_find_some _ _ _ Hfs) as [Ets _]. pose proof (t_find_NoDup _ _ _ Hnd Hfs). auto.
Qed.

Theorem remove_child_preserves_WF : forall h r t p c,
  tid t = r -> repr h None t -> NoDup (ids t) -> In p (ids t) -> In c (kids h p) ->
  exists h', remove_child h p c = Ok h' /\ WF h' r /\ WFsub h' None c.
Proof.
  intros h r t p c Er Hr Hnd Hp Hc.
  destruct (replace_child_preserves_WF h r t p c [] Er Hr Hnd Hp Hc) as (h' & H1 & H2).
  - constructor.
  - constructor.
  - intros x _ F. exact F.
  - exists h'. auto.
Qed.

Theorem dissolve_preserves_WF : forall h r t p c,
  tid t = r -> repr h None t -> NoDup (ids t) -> In p (ids t) -> In c (kids h p) ->
  exists h', replace_child h p c (kids h c) = Ok h' /\ WF h' r.
Proof.
  intros h r t p c Er Hr Hnd Hp Hc.
  destruct (t_find_ex _ _ (child_in_ids _ _ _ _ _ Hr Hp Hc)) as [s Hfs].
  destruct (t_find_some _ _ _ Hfs) as [Ets _]. destruct s as [c' cs]. simpl in Ets. subst c'.
  destruct (dissolve_repr h t p c cs Hr Hnd Hp Hc Hfs) as (h' & H1 & H2 & H3 & _).
  exists h'. split; auto. exists (t_replace c cs t). rewrite tid_t_replace. auto.
Qed.

(* the two writes that hang c under p, whose children list becomes l *)
Lemma attach_spec : forall h p l c, p <> c ->
  get (set_parent (set_kids h p l) c (Some p)) p = option_map (wk l) (get h p) /\
  get (set_parent (set_kids h p l) c (Some p)) c = option_map (wp (Some p)) (get h c) /\
  (forall j, j <> p -> j <> c -> get (set_parent (set_kids h p l) c (Some p)) j = get h j).
Proof.
  intros h p l c Hne. repeat split; intros; rewrite get_set_parent, !get_set_kids.
  - destruct (N.eqb_spec p c); [congruence|]. rewrite N.eqb_refl. auto.
  - rewrite N.eqb_refl. destruct (N.eqb_spec c p); [congruence|]. auto.
  - destruct (N.eqb_spec j c); [contradiction|]. destruct (N.eqb_spec j p); [contradiction|]. auto.
Qed.

Lemma append_child_spec : forall h p c, p <> c ->
  get (append_child h p c) p = option_map (wk (kids h p ++ [c])) (get h p) /\
  get (append_child h p c) c = option_map (wp (Some p)) (get h c) /\
  (forall j, j <> p -> j <> c -> get (append_child h p c) j = get h j).
Proof. intros h p c. apply attach_spec. Qed.

Lemma append_repr_gen : forall h s p,
  repr h None s -> NoDup (ids s) -> clsof h p <> c_Text -> p <> tid s ->
  forall t q, repr h q t -> NoDup (ids t) -> disj (ids t) (ids s) ->
              repr (append_child h p (tid s)) q (t_append p s t).
Proof.
  intros h s p Hrs Hnds Hcls Hps.
  induction t as [i ts IH] using tree_ind'. intros q Hr Hnd Hd.
  assert (His : i <> tid s). { intro E. apply (Hd i); [simpl; auto | rewrite E; apply tid_in_ids]. }
  apply repr_inv in Hr. destruct Hr as (nd & Hg & Hpar & Hcd & Htx & Hf).
  rewrite Forall_forall in Hf, IH. simpl in Hnd. apply NoDup_cons_iff in Hnd. destruct Hnd as [Hin Hnd'].
  simpl. destruct (N.eqb_spec i p) as [E|E].
  - subst i. destruct (append_child_spec h p (tid s) His) as (Gp & Gc & Go).
    rewrite Hg in Gp. simpl in Gp.
    eapply repr_T with (nd := wk _ nd); [exact Gp | exact Hpar | | | ].
    + simpl. unfold kids. rewrite Hg, Hcd, map_app. reflexivity.
    + simpl. intro Hc. exfalso. apply Hcls. unfold clsof. rewrite Hg. auto.
    + apply Forall_app. split.
      * rewrite Forall_forall. intros x Hx. apply repr_frame with (h := h); auto.
        intros j Hj. apply Go.
        -- intro F. subst j. apply Hin. apply in_flat_map. eauto.
        -- intro F. subst j. apply (Hd (tid s)); [simpl; right; apply in_flat_map; eauto | apply tid_in_ids].
      * constructor; [|constructor]. destruct s as [k ks]. simpl in *.
        eapply repr_reroot; eauto. intros j Hj. apply Go.
        -- intro F. subst j. apply (Hd p); simpl; auto.
        -- intro F. subst j. inversion Hnds; contradiction.
  - destruct (append_child_spec h p (tid s) Hps) as (Gp & Gc & Go).
    eapply repr_T with (nd := nd); auto.
    + rewrite Go; auto.
    + rewrite map_map. rewrite Hcd. apply map_ext. intros. rewrite tid_t_append. auto.
    + intro Hc. apply Htx in Hc. subst ts. reflexivity.
    + rewrite Forall_forall. intros x' Hx'. apply in_map_iff in Hx'. destruct Hx' as (x & <- & Hx).
      apply IH; auto.
      * eapply NoDup_flat_map_in; eauto.
      * intros j Hj. apply Hd. simpl. right. apply in_flat_map. eauto.
Qed.

Lemma append_child_repr_gen : forall h t s p q,
  repr h q t -> NoDup (ids t) -> In p (ids t) -> clsof h p <> c_Text ->
  repr h None s -> NoDup (ids s) -> disj (ids t) (ids s) ->
  repr (append_child h p (tid s)) q (t_append p s t) /\ NoDup (ids (t_append p s t)).
Proof.
  intros h t s p q Hr Hnd Hp Hcls Hrs Hnds Hd. split.
  - apply append_repr_gen; auto. intro E. apply (Hd p Hp). rewrite E. apply tid_in_ids.
  - apply NoDup_cnt. intro x. rewrite cnt_append by auto. apply disj_cnt; auto.
Qed.

Theorem append_child_preserves_WF : forall h r t p s,
  tid t = r -> repr h None t -> NoDup (ids t) -> In p (ids t) -> clsof h p <> c_Text ->
  repr h None s -> NoDup (ids s) -> disj (ids t) (ids s) ->
  WF (append_child h p (tid s)) r.
Proof.
  intros h r t p s Er Hr Hnd Hp Hc Hrs Hnds Hd.
  destruct (append_child_repr_gen h t s p None Hr Hnd Hp Hc Hrs Hnds Hd) as [A B].
  exists (t_append p s t). rewrite tid_t_append. auto.
Qed.

Lemma insert_repr : forall h t s tgt (b : bool) tp idx,
  repr h None t -> NoDup (ids t) -> In tp (ids t) ->
  repr h None s -> NoDup (ids s) -> disj (ids t) (ids s) ->
  par h tgt = Some tp -> index_of tgt (kids h tp) = Some idx ->
  let h2 := set_parent (set_kids h tp (insert_at (kids h tp) (if b then idx else S idx) (tid s)))
                       (tid s) (Some tp) in
  repr h2 None (t_insert tgt b s t) /\ NoDup (ids (t_insert tgt b s t)).
Proof.
  intros h t s tgt b tp idx Hr Hnd Htp Hrs Hnds Hd Hpar Hidx h2.
  pose proof (index_of_Some_In _ _ _ Hidx) as Hc.
  destruct (t_find_ex _ _ (child_in_ids _ _ _ _ _ Hr Htp Hc)) as [xt Hfx].
  destruct (t_find_some _ _ _ Hfx) as [Etx _].
  pose proof (child_neq _ _ _ _ _ Hr Hnd Htp Hc) as Hpc.
  pose proof (child_not_root _ _ _ _ Hr Htp Hc) as Htc.
  assert (Hns : tp <> tid s). { intro E. apply (Hd tp Htp). rewrite E. apply tid_in_ids. }
  destruct (attach_spec h tp (insert_at (kids h tp) (if b then idx else S idx) (tid s)) (tid s) Hns)
    as (Gp & Gn & Go). fold h2 in Gp, Gn, Go.
  set (ns := if b then [s; xt] else [xt; s]).
  assert (Hmap : forall j, In j (map tid ns) <-> j = tid s \/ j = tgt).
  { intro j. unfold ns. destruct b; simpl; rewrite Etx; intuition. }
  assert (Hfl : forall x, cnt x (flat_map ids ns) = cnt x (ids s) + cnt x (ids xt)).
  { intro x. unfold ns. destruct b; simpl; rewrite app_nil_r, cnt_app; lia. }
  rewrite (t_insert_as_replace tgt b s xt t Hnd Hfx). fold ns.
  split.
  - refine (surgery_repr h h2 tp tgt ns idx Hpc Hidx (kids_NoDup _ _ _ _ Hr Hnd Htp) Hpar _ _ _ _ t None Hr Htc _).
    + rewrite Gp. f_equal. f_equal. destruct (index_of_split _ _ _ Hidx) as [A B].
      unfold ns, insert_at, splice. destruct b.
      * rewrite B. cbn [map app]. rewrite Etx. reflexivity.
      * rewrite A, <- app_assoc. cbn [map app]. rewrite Etx. reflexivity.
    + intros j H1 H2 H3. apply Go; auto. intro E. apply H3. apply Hmap. auto.
    + assert (R1 : repr h2 (Some tp) s).
      { destruct s as [k ks]. simpl in *. eapply repr_reroot; eauto. intros j Hj. apply Go.
        - intro F. subst j. apply (Hd tp Htp). simpl. auto.
        - intro F. subst j. inversion Hnds; contradiction. }
      assert (R2 : repr h2 (Some tp) xt).
      { apply repr_frame with (h := h); [|exact (child_repr _ _ _ _ _ _ Hr Htp Hc Hfx)]. intros j Hj. apply Go.
        - intro F. subst j. exact (parent_outside _ _ _ _ _ _ Hr Hnd Htp Hc Hfx Hj).
        - intro F. subst j. apply (Hd (tid s)); [exact (t_find_incl _ _ _ Hfx _ Hj) | apply tid_in_ids]. }
      unfold ns. destruct b; repeat constructor; auto.
    + intros j k Hj Hjc Hk. apply Hmap in Hj. destruct Hj as [Hj|Hj]; [|contradiction].
      subst j. rewrite (repr_root_par _ _ _ Hrs) in Hk. discriminate.
    + intro F. apply Hmap in F. destruct F as [F|F]; [|contradiction].
      apply (Hd (tid t)); [apply tid_in_ids | rewrite F; apply tid_in_ids].
  - apply NoDup_cnt. intro x. pose proof (cnt_replace tgt ns t xt Hnd Htc Hfx x) as E.
    rewrite Hfl in E. pose proof (disj_cnt _ _ Hnd Hnds Hd x). lia.
Qed.

Lemma move_to_repr : forall h t n tgt b s,
  repr h None t -> NoDup (ids t) -> In n (ids t) -> n <> tid t ->
  In tgt (ids t) -> tgt <> tid t -> t_find n t = Some s -> ~ In tgt (ids s) ->
  exists h', move_to h n tgt b = Ok h' /\
             repr h' None (t_insert tgt b s (t_replace n [] t)) /\
             NoDup (ids (t_insert tgt b s (t_replace n [] t))).
Proof.
  intros h t n tgt b s Hr Hnd Hn Hnr Htg Htr Hfs Hts.
  destruct (repr_par_in _ _ _ _ Hr Hn Hnr) as (pn & Hpar & Hpn & Hnk).
  destruct (remove_child_repr h t pn n Hr Hnd Hpn Hnk) as (h1 & Hrm & Hr1 & Hnd1 & Hs1).
  destruct (Hs1 _ Hfs) as [Hrs1 Hd1].
  destruct (t_find_some _ _ _ Hfs) as [Ets _].
  pose proof (t_find_NoDup _ _ _ Hnd Hfs) as Hnds.
  set (t1 := t_replace n [] t) in *.
  assert (Htg1 : In tgt (ids t1)).
  { apply In_cnt. assert (Hne : tid t <> n) by congruence.
    pose proof (cnt_replace n [] t s Hnd Hne Hfs tgt) as E. fold t1 in E.
    simpl in E. rewrite cnt_nil in E. apply notIn_cnt in Hts. apply In_cnt in Htg. lia. }
  assert (Htr1 : tgt <> tid t1) by (unfold t1; rewrite tid_t_replace; auto).
  destruct (repr_par_in _ _ _ _ Hr1 Htg1 Htr1) as (tp & Hpar1 & Htp1 & Htk1).
  destruct (index_of_In _ _ Htk1) as [idx Hidx].
  unfold move_to. rewrite Hpar, Hrm, Hpar1, Hidx.
  eexists. split; [reflexivity|].
  rewrite <- Ets.
  apply insert_repr; auto.
Qed.

Theorem move_to_preserves_WF : forall h r t n tgt b s,
  tid t = r -> repr h None t -> NoDup (ids t) -> In n (ids t) -> n <> r ->
  In tgt (ids t) -> tgt <> r -> t_find n t = Some s -> ~ In tgt (ids s) ->
  exists h', move_to h n tgt b = Ok h' /\ WF h' r.
Proof.
  intros h r t n tgt b s Er Hr Hnd Hn Hnr Htg Htr Hfs Hts. subst r.
  destruct (move_to_repr h t n tgt b s Hr Hnd Hn Hnr Htg Htr Hfs Hts) as (h' & H1 & H2 & H3).
  exists h'. split; auto. exists (t_insert tgt b s (t_replace n [] t)).
  rewrite tid_t_insert, tid_t_replace. auto.
Qed.

Lemma ren_in : forall l nx i, In i l ->
  exists k, index_of i l = Some k /\ ren l nx i = (nx + N.of_nat k)%N.
Proof.
  intros l nx i H. destruct (index_of_In _ _ H) as [k Hk]. exists k. split; auto.
  unfold ren. rewrite Hk. reflexivity.
Qed.

Lemma ren_ge : forall l nx i, In i l -> (nx <= ren l nx i)%N.
Proof. intros l nx i H. destruct (ren_in l nx i H) as (k & _ & ->). lia. Qed.

Lemma ren_inj : forall l nx a b, In a l -> In b l -> ren l nx a = ren l nx b -> a = b.
Proof.
  intros l nx a b Ha Hb E.
  destruct (ren_in l nx a Ha) as (ka & Ia & Ra). destruct (ren_in l nx b Hb) as (kb & Ib & Rb).
  rewrite Ra, Rb in E. assert (ka = kb) by lia. subst kb. eapply index_of_inj; eauto.
Qed.

Definition ccell (h : heap) (l : list N) (nx root i : N) : node :=
  mkNode (clsof h i) (if N.eqb i root then None else option_map (ren l nx) (par h i))
         (map (ren l nx) (kids h i)) (textof h i).

Lemma get_copy_cells_gen : forall h l nx root l' j,
  get (fold_right (fun i acc => set acc (ren l nx i) (ccell h l nx root i)) h l') j =
  match find (fun i => N.eqb j (ren l nx i)) l' with
  | Some i => Some (ccell h l nx root i)
  | None => get h j
  end.
Proof.
  induction l' as [|a l' IH]; intros j; simpl; [reflexivity|].
  destruct (N.eqb j (ren l nx a)); auto.
Qed.

Lemma copy_cells_get_new : forall h l root i, In i l ->
  get (copy_cells h l (fresh h) root) (ren l (fresh h) i) = Some (ccell h l (fresh h) root i).
Proof.
  intros h l root i Hi. unfold copy_cells.
  change (get (fold_right (fun i acc => set acc (ren l (fresh h) i) (ccell h l (fresh h) root i)) h l)
              (ren l (fresh h) i) = Some (ccell h l (fresh h) root i)).
  rewrite get_copy_cells_gen. rewrite find_hit; auto.
  intros a b Ha Hb. apply ren_inj; auto.
Qed.

Lemma copy_cells_get_old : forall h l root j nd, get h j = Some nd ->
  get (copy_cells h l (fresh h) root) j = get h j.
Proof.
  intros h l root j nd Hj. unfold copy_cells.
  change (get (fold_right (fun i acc => set acc (ren l (fresh h) i) (ccell h l (fresh h) root i)) h l) j
          = get h j).
  rewrite get_copy_cells_gen. rewrite find_miss; auto.
  intros i Hi E. pose proof (ren_ge l (fresh h) i Hi). pose proof (fresh_gt _ _ _ Hj). lia.
Qed.

(* the copied cells of a subtree x of the copied region l: the copy's root (x = the tree below root) is
   detached, every other copied node hangs under the copy of its parent *)
Lemma copy_sub : forall h l root x q,
  repr h q x -> incl (ids x) l -> ~ In root (flat_map ids (tkids x)) ->
  repr (copy_cells h l (fresh h) root)
       (if N.eqb (tid x) root then None else option_map (ren l (fresh h)) q)
       (t_map (ren l (fresh h)) x).
Proof.
  intros h l root. induction x as [i ts IH] using tree_ind'. intros q Hr Hi Hroot.
  pose proof (repr_kids _ _ _ _ Hr) as Hk. pose proof (repr_root_par _ _ _ Hr) as Hp.
  simpl in Hp, Hroot.
  apply repr_inv in Hr. destruct Hr as (nd & Hg & Hpar & Hcd & Htx & Hf).
  rewrite Forall_forall in Hf, IH.
  assert (Hil : In i l) by (apply Hi; simpl; auto).
  simpl. eapply repr_T with (nd := ccell h l (fresh h) root i).
  - apply copy_cells_get_new; auto.
  - simpl. rewrite Hp. reflexivity.
  - simpl. rewrite Hk, !map_map. apply map_ext. intros. rewrite tid_t_map. reflexivity.
  - simpl. intro Hc. unfold clsof in Hc. rewrite Hg in Hc. rewrite (Htx Hc). reflexivity.
  - rewrite Forall_forall. intros x' Hx'. apply in_map_iff in Hx'. destruct Hx' as (x & <- & Hx).
    assert (Hsub : incl (ids x) (flat_map ids ts)) by (intros j Hj; apply in_flat_map; eauto).
    assert (Hx0 : N.eqb (tid x) root = false).
    { apply N.eqb_neq. intros <-. apply Hroot, Hsub, tid_in_ids. }
    specialize (IH x Hx (Some i) (Hf x Hx)). rewrite Hx0 in IH. apply IH.
    + intros j Hj. apply Hi. simpl. right. apply Hsub. exact Hj.
    + intro F. apply Hroot, Hsub. destruct x. simpl. right. exact F.
Qed.

Lemma words_copy : forall h l root x, incl (ids x) l ->
  words_t (copy_cells h l (fresh h) root) (t_map (ren l (fresh h)) x) = words_t h x.
Proof.
  intros h l root. induction x as [i ts IH] using tree_ind'. intros Hi. simpl. f_equal.
  - unfold textof at 1. rewrite copy_cells_get_new by (apply Hi; simpl; auto). reflexivity.
  - rewrite flat_map_map. apply flat_map_ext_in. intros x Hx. rewrite Forall_forall in IH.
    apply IH; auto. intros j Hj. apply Hi. simpl. right. apply in_flat_map. eauto.
Qed.

(* copy(): every old cell stays; the copy of the subtree s is a detached proper tree, made of cells that
   did not exist, with the words of s *)
Lemma copy_spec : forall h t n s, repr h None t -> NoDup (ids t) -> t_find n t = Some s ->
  exists h', copy h n = Some (h', fresh h) /\ stable h h' /\
    let s' := t_map (ren (ids s) (fresh h)) s in
    tid s' = fresh h /\ repr h' None s' /\ NoDup (ids s') /\
    (forall j, In j (ids s') -> get h j = None) /\ words_t h' s' = words_t h s.
Proof.
  intros h t n s Hr Hnd Hfs.
  destruct (t_find_repr _ _ _ _ _ Hr Hfs) as [q Hrs].
  destruct (t_find_some _ _ _ Hfs) as [Ets _].
  pose proof (t_find_NoDup _ _ _ Hnd Hfs) as Hnds.
  pose proof (repr_root_par _ _ _ Hrs) as Hq. rewrite Ets in Hq.
  pose proof (build_complete _ _ _ Hrs Hnds) as Hb. rewrite Ets in Hb.
  exists (copy_cells h (ids s) (fresh h) n).
  split.
  { unfold copy. rewrite Hb, (nodupb_true _ Hnds), Hq, (checkp_true _ _ _ Hrs). reflexivity. }
  split.
  { intros j nd Hg. rewrite (copy_cells_get_old h (ids s) n j nd Hg). exact Hg. }
  cbv zeta. set (l := ids s). set (r := ren l (fresh h)).
  assert (Hnl : In n l) by (unfold l; rewrite <- Ets; apply tid_in_ids).
  split; [|split; [|split; [|split]]].
  - rewrite tid_t_map, Ets. unfold r, ren, l. destruct s as [n' ts]. simpl in Ets. subst n'.
    simpl. rewrite N.eqb_refl. simpl. lia.
  - pose proof (copy_sub h l n s q Hrs (incl_refl _)) as Hc. rewrite Ets, N.eqb_refl in Hc.
    apply Hc. destruct s as [n' ts]. simpl in Ets. subst n'. simpl in Hnds |- *.
    apply NoDup_cons_iff in Hnds. apply Hnds.
  - rewrite ids_t_map. apply NoDup_map_inj_in; auto.
    intros a b Ha Hb'. apply ren_inj; auto.
  - intros j Hj. rewrite ids_t_map in Hj. apply in_map_iff in Hj. destruct Hj as (i & E & Hi).
    destruct (get h j) as [nd|] eqn:Hg; [|reflexivity]. exfalso.
    pose proof (fresh_gt _ _ _ Hg). pose proof (ren_ge l (fresh h) i Hi). unfold r in E. lia.
  - apply words_copy. apply incl_refl.
Qed.

Lemma copy_repr : forall h t n s, repr h None t -> NoDup (ids t) -> t_find n t = Some s ->
  exists h' k, copy h n = Some (h', k) /\ repr h' None t /\
    (exists s', tid s' = k /\ repr h' None s' /\ NoDup (ids s') /\ disj (ids t) (ids s') /\
                words_t h' s' = words_t h s).
Proof.
  intros h t n s Hr Hnd Hfs.
  destruct (copy_spec h t n s Hr Hnd Hfs) as (h' & Hc & Hst & Ek & Rs & Ns & New & Ws).
  exists h', (fresh h). split; [exact Hc|]. split; [exact (repr_stable _ _ _ _ Hst Hr)|].
  eexists. split; [exact Ek|]. split; [exact Rs|]. split; [exact Ns|]. split; [|exact Ws].
  exact (repr_new_disj _ _ _ _ Hr New).
Qed.

Theorem copy_preserves_WF : forall h r t n,
  tid t = r -> repr h None t -> NoDup (ids t) -> In n (ids t) ->
  exists h' k, copy h n = Some (h', k) /\ WF h' r /\ WFsub h' None k /\ words h' k = words h n.
Proof.
  intros h r t n Er Hr Hnd Hn.
  destruct (t_find_ex _ _ Hn) as [s Hfs].
  destruct (copy_repr h t n s Hr Hnd Hfs) as (h' & k & H1 & H2 & s' & E' & R' & N' & D' & W').
  exists h', k. split; auto. split; [exists t; auto|]. split; [exists s'; auto|].
  destruct (t_find_repr _ _ _ _ _ Hr Hfs) as [q Hrs].
  destruct (t_find_some _ _ _ Hfs) as [Ets _].
  pose proof (t_find_NoDup _ _ _ Hnd Hfs) as Hnds.
  unfold words. rewrite <- E', <- Ets.
  rewrite (build_complete _ _ _ R' N'), (build_complete _ _ _ Hrs Hnds). exact W'.
Qed.

Inductive op :=
| OAppend (p c : N)
| ORemove (p c : N)
| OReplace (p c : N) (news : list N)
| ODissolve (p c : N)
| OMove (n tgt : N) (prefix : bool)
| OCopy (n : N).

Definition apply (h : heap) (o : op) : res :=
  match o with
  | OAppend p c => Ok (append_child h p c)
  | ORemove p c => remove_child h p c
  | OReplace p c news => replace_child h p c news
  | ODissolve p c => replace_child h p c (kids h c)
  | OMove n tgt b => move_to h n tgt b
  | OCopy n => match copy h n with Some (h', _) => Ok h' | None => Err end
  end.

(* the stated preconditions of each call, on a heap whose document (root r) is the proper tree t *)
Definition pre (h : heap) (r : N) (o : op) : Prop :=
  exists t, tid t = r /\ repr h None t /\ NoDup (ids t) /\
  match o with
  | OAppend p c =>
      In p (ids t) /\ clsof h p <> c_Text /\
      exists s, tid s = c /\ repr h None s /\ NoDup (ids s) /\ disj (ids t) (ids s)
  | ORemove p c => In p (ids t) /\ In c (kids h p)
  | OReplace p c news =>
      In p (ids t) /\ In c (kids h p) /\
      exists ns, map tid ns = news /\ Forall (repr h None) ns /\ NoDup (flat_map ids ns) /\
                 disj (ids t) (flat_map ids ns)
  | ODissolve p c => In p (ids t) /\ In c (kids h p)
  | OMove n tgt b =>
      In n (ids t) /\ n <> r /\ In tgt (ids t) /\ tgt <> r /\
      exists s, t_find n t = Some s /\ ~ In tgt (ids s)
  | OCopy n => In n (ids t)
  end.

Fixpoint pre_all (h : heap) (r : N) (ops : list op) : Prop :=
  match ops with
  | [] => True
  | o :: rest => pre h r o /\ forall h', apply h o = Ok h' -> pre_all h' r rest
  end.

Definition step (a : res) (o : op) : res := match a with Ok h => apply h o | Err => Err end.

Lemma apply_preserves_WF : forall h r o, pre h r o -> exists h', apply h o = Ok h' /\ WF h' r.
Proof.
  intros h r o (t & Er & Hr & Hnd & Hside). destruct o as [p c|p c|p c news|p c|n tgt b|n]; simpl.
  - destruct Hside as (Hp & Hc & s & Es & Hrs & Hnds & Hd). subst c.
    eexists. split; [reflexivity|]. eapply append_child_preserves_WF; eauto.
  - destruct Hside as (Hp & Hc).
    destruct (remove_child_preserves_WF h r t p c Er Hr Hnd Hp Hc) as (h' & H1 & H2 & _). eauto.
  - destruct Hside as (Hp & Hc & ns & En & Hns & Hndn & Hd). subst news.
    destruct (replace_child_preserves_WF h r t p c ns Er Hr Hnd Hp Hc Hns Hndn Hd) as (h' & H1 & H2 & _). eauto.
  - destruct Hside as (Hp & Hc).
    destruct (dissolve_preserves_WF h r t p c Er Hr Hnd Hp Hc) as (h' & H1 & H2). eauto.
  - destruct Hside as (Hn & Hnr & Htg & Htr & s & Hfs & Hts).
    destruct (move_to_preserves_WF h r t n tgt b s Er Hr Hnd Hn Hnr Htg Htr Hfs Hts) as (h' & H1 & H2). eauto.
  - destruct (copy_preserves_WF h r t n Er Hr Hnd Hside) as (h' & k & H1 & H2 & _).
    rewrite H1. eauto.
Qed.

Lemma fold_step_Err : forall ops, fold_left step ops Err = Err.
Proof. induction ops; simpl; auto. Qed.

Theorem api_preserves_WF_prefix : forall ops1 ops2 h r,
  WF h r -> pre_all h r (ops1 ++ ops2) ->
  exists h1, fold_left step ops1 (Ok h) = Ok h1 /\ WF h1 r /\ pre_all h1 r ops2.
Proof.
  induction ops1 as [|o rest IH]; intros ops2 h r Hwf Hpre; simpl in *.
  - eauto.
  - destruct Hpre as [Hp Hrest].
    destruct (apply_preserves_WF h r o Hp) as (h1 & E & Hwf1).
    rewrite E. apply IH; auto.
Qed.

Corollary api_preserves_WF_seq : forall ops h r,
  WF h r -> pre_all h r ops -> exists h', fold_left step ops (Ok h) = Ok h' /\ WF h' r.
Proof.
  intros ops h r Hwf Hpre. rewrite <- (app_nil_r ops) in Hpre.
  destruct (api_preserves_WF_prefix ops [] h r Hwf Hpre) as (h' & E & W & _). eauto.
Qed.

Corollary C05_api_seq_wfb : forall ops h r,
  WF h r -> pre_all h r ops -> exists h', fold_left step ops (Ok h) = Ok h' /\ wfb h' r = true.
Proof.
  intros ops h r Hwf Hpre.
  destruct (api_preserves_WF_seq ops h r Hwf Hpre) as (h' & E & W).
  exists h'. split; auto. apply WF_wfb; auto.
Qed.

Definition h0 : heap :=
  [ (1, mkNode c_Section None [2; 3] []);
    (2, mkNode c_Paragraph (Some 1) [] [10]);
    (3, mkNode c_Paragraph (Some 1) [4] []);
    (4, mkNode c_Text (Some 3) [] [11; 12]);
    (5, mkNode c_Text None [] [13]) ]%N.

Definition ops0 : list op :=
  [OAppend 2 5; OMove 4 2 false; ODissolve 1 3; OCopy 2; ORemove 1 2]%N.

Lemma pre_all_cons : forall h r o rest h1,
  apply h o = Ok h1 -> pre h r o -> pre_all h1 r rest -> pre_all h r (o :: rest).
Proof.
  intros h r o rest h1 E Hp Hr. simpl. split; auto.
  intros h' E'. rewrite E in E'. inversion E'; subst. auto.
Qed.

Ltac prove_repr :=
  repeat first
    [ eapply repr_T;
      [ reflexivity | reflexivity | reflexivity
      | (let H := fresh in intro H; first [reflexivity | discriminate H]) | ]
    | constructor ].

Ltac prove_nodup := apply nodupb_NoDup; reflexivity.

Ltac prove_in := simpl; tauto.

Ltac prove_disj :=
  let x := fresh in let H1 := fresh in let H2 := fresh in
  intros x H1 H2; simpl in H1, H2; intuition (subst; discriminate).

Example api_example_run :
  exists h1, fold_left step ops0 (Ok h0) = Ok h1 /\ wfb h1 1 = true /\ words h1 1 = [11; 12]%N.
Proof. eexists. vm_compute. repeat split. Qed.

Example api_example_WF0 : WF h0 1.
Proof.
  exists (T 1 [T 2 []; T 3 [T 4 []]])%N. split; [reflexivity|]. split; [prove_repr | prove_nodup].
Qed.

Example api_example_pre : pre_all h0 1 ops0.
Proof.
  unfold ops0.
  eapply pre_all_cons; [vm_compute; reflexivity | | ].
  { exists (T 1 [T 2 []; T 3 [T 4 []]])%N. split; [reflexivity|]. split; [prove_repr|]. split; [prove_nodup|].
    split; [prove_in|]. split; [vm_compute; discriminate|].
    exists (T 5 [])%N. split; [reflexivity|]. split; [prove_repr|]. split; [prove_nodup | prove_disj]. }
  eapply pre_all_cons; [vm_compute; reflexivity | | ].
  { exists (T 1 [T 2 [T 5 []]; T 3 [T 4 []]])%N. split; [reflexivity|]. split; [prove_repr|]. split; [prove_nodup|].
    split; [prove_in|]. split; [discriminate|]. split; [prove_in|]. split; [discriminate|].
    exists (T 4 [])%N. split; [reflexivity|]. simpl. intuition discriminate. }
  eapply pre_all_cons; [vm_compute; reflexivity | | ].
  { exists (T 1 [T 2 [T 5 []]; T 4 []; T 3 []])%N. split; [reflexivity|]. split; [prove_repr|]. split; [prove_nodup|].
    split; [prove_in | vm_compute; tauto]. }
  eapply pre_all_cons; [vm_compute; reflexivity | | ].
  { exists (T 1 [T 2 [T 5 []]; T 4 []])%N. split; [reflexivity|]. split; [prove_repr|]. split; [prove_nodup|].
    prove_in. }
  eapply pre_all_cons; [vm_compute; reflexivity | | ].
  { exists (T 1 [T 2 [T 5 []]; T 4 []])%N. split; [reflexivity|]. split; [prove_repr|]. split; [prove_nodup|].
    split; [prove_in | vm_compute; tauto]. }
  exact I.
Qed.

Example api_example : exists h1, fold_left step ops0 (Ok h0) = Ok h1 /\ WF h1 1.
Proof. apply api_preserves_WF_seq; [exact api_example_WF0 | exact api_example_pre]. Qed.
