(* C05 — the checker wfb decides the declarative well-formedness WF; first-order reading of WF;
   the contract checker contractb decides contract (under WF).  Model and specs: C05/Heap.v; trees
   represented by a heap (repr, t_find, build on a represented tree): C05/ProofsApi.v. *)
From Coq Require Import List NArith Bool Arith Lia.
From MW Require Import C05.Heap C05.TreeOps C05.ProofsApi.
Import ListNotations.

Lemma get_set_same : forall h i nd, get (set h i nd) i = Some nd.
Proof. exact ProofsApi.get_set_same. Qed.

Lemma get_set_other : forall h i j nd, i <> j -> get (set h i nd) j = get h j.
Proof. intros h i j nd Hij. apply ProofsApi.get_set_other. congruence. Qed.

Lemma ids_T : forall i ts, ids (T i ts) = i :: flat_map ids ts.
Proof. reflexivity. Qed.

Lemma opt_eqb_eq : forall a b, opt_eqb a b = true <-> a = b.
Proof.
  intros [x|] [y|]; simpl; try rewrite N.eqb_eq; split; intro H; try congruence; auto.
Qed.

Lemma map_opt_Forall2 {A B} (f : A -> option B) : forall l ys,
  map_opt f l = Some ys <-> Forall2 (fun x y => f x = Some y) l ys.
Proof.
  induction l as [|x r IH]; intros ys.
  - split; intro H.
    + inversion H. constructor.
    + inversion H. reflexivity.
  - rewrite map_opt_cons. split; intro H.
    + destruct (f x) as [y|] eqn:Ef; [|discriminate].
      destruct (map_opt f r) as [ys'|] eqn:Er; [|discriminate].
      inversion H; subst. constructor; auto. apply IH; auto.
    + inversion H as [|? y ? ys' Hfx Hr]; subst. rewrite Hfx.
      apply IH in Hr. rewrite Hr. reflexivity.
Qed.

Lemma Forall2_In_r {A B} (R : A -> B -> Prop) : forall l ys y,
  Forall2 R l ys -> In y ys -> exists x, In x l /\ R x y.
Proof.
  intros l ys y H. induction H as [|a b l ys Hab Hf IH]; simpl; intro Hin.
  - contradiction.
  - destruct Hin as [Hin|Hin].
    + subst. exists a. auto.
    + destruct (IH Hin) as (x & Hx & Hr). exists x. auto.
Qed.

Lemma checkp_T : forall h p i ts,
  checkp h p (T i ts) =
  match get h i with
  | None => false
  | Some nd => opt_eqb (parent nd) p
               && (negb (N.eqb (cls nd) c_Text) || is_nil ts)
               && forallb (checkp h (Some i)) ts
  end.
Proof. reflexivity. Qed.

Lemma build_tid : forall f h i t, build f h i = Some t -> tid t = i.
Proof.
  intros [|f] h i t H.
  - discriminate.
  - rewrite build_S in H. destruct (get h i) as [nd|]; [|discriminate].
    destruct (map_opt (build f h) (children nd)) as [ts|]; [|discriminate].
    inversion H. reflexivity.
Qed.

Lemma build_kids_tid : forall f h l ts,
  Forall2 (fun x y => build f h x = Some y) l ts -> map tid ts = l.
Proof.
  intros f h l ts H. induction H as [|a b l ts Hab Hf IH]; simpl.
  - reflexivity.
  - rewrite IH. apply build_tid in Hab. rewrite Hab. reflexivity.
Qed.

Lemma build_sound : forall f h i t,
  build f h i = Some t -> forall p, checkp h p t = true -> repr h p t.
Proof.
  induction f as [|f IH]; intros h i t Hb p Hc.
  - discriminate.
  - rewrite build_S in Hb. destruct (get h i) as [nd|] eqn:Hg; [|discriminate].
    destruct (map_opt (build f h) (children nd)) as [ts|] eqn:Hm; [|discriminate].
    inversion Hb; subst t. clear Hb.
    rewrite checkp_T, Hg in Hc.
    apply andb_true_iff in Hc. destruct Hc as [Hc Hfa].
    apply andb_true_iff in Hc. destruct Hc as [Hpar Htx].
    apply map_opt_Forall2 in Hm.
    apply repr_T with (nd := nd); auto.
    + apply opt_eqb_eq. exact Hpar.
    + symmetry. eapply build_kids_tid; eauto.
    + intro Hcls. rewrite Hcls, N.eqb_refl in Htx. simpl in Htx.
      destruct ts; [reflexivity | discriminate].
    + rewrite Forall_forall. intros s Hs. rewrite forallb_forall in Hfa.
      destruct (Forall2_In_r _ _ _ _ Hm Hs) as (x & Hx & Hbx).
      eapply IH; eauto.
Qed.

Theorem wfb_spec : forall h r, wfb h r = true <-> WF h r.
Proof.
  intros h r. split.
  - unfold wfb. intro H.
    destruct (build (S (length h)) h r) as [t|] eqn:Hb; [|discriminate].
    apply andb_true_iff in H. destruct H as [Hn Hc].
    exists t. split; [eapply build_tid; eauto|]. split.
    + eapply build_sound; eauto.
    + apply nodupb_NoDup. exact Hn.
  - apply WF_wfb.
Qed.

Lemma reach_trans : forall h a b c, reach h a b -> reach h b c -> reach h a c.
Proof.
  intros h a b c Hab Hbc. induction Hbc as [b|b x y Hbx IH Hy].
  - exact Hab.
  - apply reach_step with (b := x); auto.
Qed.

Lemma reach_in_ids : forall h a n, reach h a n ->
  forall p t, repr h p t -> In a (ids t) -> In n (ids t).
Proof.
  intros h a n Hr. induction Hr as [a|a b c Hab IH Hc]; intros p t Hrep Ha.
  - exact Ha.
  - apply (child_in_ids h p t b c Hrep); auto. apply (IH p t); auto.
Qed.

Lemma ids_reach : forall h p t, repr h p t -> forall n, In n (ids t) -> reach h (tid t) n.
Proof.
  intros h.
  apply (repr_ind' h (fun p t => forall n, In n (ids t) -> reach h (tid t) n)).
  intros p i ts nd Hg Hp Hc Htx Hf IH n Hn.
  simpl tid. rewrite ids_T in Hn. destruct Hn as [Hn|Hn].
  - subst. apply reach_refl.
  - apply in_flat_map in Hn. destruct Hn as (s & Hs & Hn).
    rewrite Forall_forall in IH. specialize (IH s Hs n Hn).
    eapply reach_trans; [|exact IH].
    eapply reach_step; [apply reach_refl|].
    unfold kids. rewrite Hg, Hc. apply in_map. exact Hs.
Qed.

Lemma reach_iff_ids : forall h p t, repr h p t -> forall n, reach h (tid t) n <-> In n (ids t).
Proof.
  intros h p t Hr n. split.
  - intro H. eapply reach_in_ids; eauto. apply tid_in_ids.
  - apply ids_reach with (p := p). exact Hr.
Qed.

(* one or more steps from the root of a represented tree land in a strict subtree *)
Lemma reach1_strict : forall h q n ts, repr h q (T n ts) ->
  forall x, reach1 h n x -> In x (flat_map ids ts).
Proof.
  intros h q n ts Hr x H1.
  inversion H1 as [a b c Hab Hc]; subst.
  assert (In b (ids (T n ts))) as Hb.
  { eapply reach_in_ids; eauto. simpl. auto. }
  rewrite ids_T in Hb. destruct Hb as [Hb|Hb].
  - subst b. rewrite (repr_kids _ _ _ _ Hr) in Hc.
    apply in_map_iff in Hc. destruct Hc as (s & Hs & Hin).
    apply in_flat_map. exists s. split; auto. subst x. apply tid_in_ids.
  - apply in_flat_map in Hb. destruct Hb as (s & Hs & Hb).
    apply repr_inv in Hr. destruct Hr as (nd & _ & _ & _ & _ & Hf).
    rewrite Forall_forall in Hf. specialize (Hf s Hs).
    apply in_flat_map. exists s. split; auto. eapply child_in_ids; eauto.
Qed.

Theorem WF_first_order : forall h r, WF h r ->
  par h r = None /\
  (forall n c, reach h r n -> In c (kids h n) -> get h c <> None /\ par h c = Some n) /\
  (forall n, reach h r n -> NoDup (kids h n)) /\
  (forall n1 n2 c, reach h r n1 -> reach h r n2 -> In c (kids h n1) -> In c (kids h n2) -> n1 = n2) /\
  (forall n, reach h r n -> ~ In r (kids h n)) /\
  (forall n, reach h r n -> ~ reach1 h n n) /\
  (forall n, reach h r n -> clsof h n = c_Text -> kids h n = []).
Proof.
  intros h r (t & Ht & Hr & Hnd). subst r.
  pose proof (repr_root_par _ _ _ Hr) as Hroot.
  (* every reachable node n roots a represented subtree without duplicates *)
  assert (forall n, reach h (tid t) n ->
            exists q ts, repr h q (T n ts) /\ NoDup (ids (T n ts))) as Hsub.
  { intros n Hn. apply (reach_iff_ids _ _ _ Hr) in Hn.
    destruct (find_node _ _ _ _ Hr Hn) as (q & ts & Hf & Hr'). exists q, ts. split; [exact Hr'|].
    eapply t_find_NoDup; eauto. }
  assert (forall n c, reach h (tid t) n -> In c (kids h n) ->
                      get h c <> None /\ par h c = Some n) as Hedge.
  { intros n c Hn Hc. destruct (Hsub n Hn) as (q & ts & Hr' & _).
    rewrite (repr_kids _ _ _ _ Hr') in Hc. apply in_map_iff in Hc. destruct Hc as (s & <- & Hs).
    pose proof (repr_child _ _ _ _ _ Hr' Hs) as Hrs. split.
    - destruct (repr_get _ _ _ _ Hrs (tid_in_ids s)) as [nd ->]. discriminate.
    - exact (repr_root_par _ _ _ Hrs). }
  split; [exact Hroot|]. split; [exact Hedge|]. split; [|split; [|split; [|split]]].
  - intros n Hn. destruct (Hsub n Hn) as (q & ts & Hr' & Hnd').
    rewrite (repr_kids _ _ _ _ Hr'). apply NoDup_tids.
    rewrite ids_T in Hnd'. inversion Hnd'; auto.
  - intros n1 n2 c H1 H2 Hc1 Hc2.
    destruct (Hedge n1 c H1 Hc1) as (_ & Hp1). destruct (Hedge n2 c H2 Hc2) as (_ & Hp2).
    congruence.
  - intros n Hn Hin. destruct (Hedge n _ Hn Hin) as (_ & Hp). congruence.
  - intros n Hn H1. destruct (Hsub n Hn) as (q & ts & Hr' & Hnd').
    pose proof (reach1_strict _ _ _ _ Hr' _ H1) as Hin.
    rewrite ids_T in Hnd'. inversion Hnd'; auto.
  - intros n Hn Hcls. destruct (Hsub n Hn) as (q & ts & Hr' & Hnd').
    rewrite (repr_kids _ _ _ _ Hr').
    apply repr_inv in Hr'. destruct Hr' as (nd & Hg & _ & _ & Htx & _).
    unfold clsof in Hcls. rewrite Hg in Hcls. rewrite (Htx Hcls). reflexivity.
Qed.

Lemma contract_T : forall h i ts,
  contract_t h (T i ts) =
  forallb (fun s => edge_ok (clsof h i) (clsof h (tid s)) && contract_t h s) ts.
Proof. reflexivity. Qed.

Lemma contract_t_spec : forall h p t, repr h p t ->
  (contract_t h t = true <->
   forall n c, In n (ids t) -> In c (kids h n) -> edge_ok (clsof h n) (clsof h c) = true).
Proof.
  intros h.
  apply (repr_ind' h (fun p t => contract_t h t = true <->
     forall n c, In n (ids t) -> In c (kids h n) -> edge_ok (clsof h n) (clsof h c) = true)).
  intros p i ts nd Hg Hp Hc Htx Hf IH.
  rewrite Forall_forall in IH.
  rewrite contract_T, forallb_forall. split.
  - intros H n c Hn Hcin. rewrite ids_T in Hn. destruct Hn as [Hn|Hn].
    + subst n. unfold kids in Hcin. rewrite Hg, Hc in Hcin.
      apply in_map_iff in Hcin. destruct Hcin as (s & Hs & Hin).
      specialize (H s Hin). apply andb_true_iff in H. destruct H as [H _].
      subst c. exact H.
    + apply in_flat_map in Hn. destruct Hn as (s & Hs & Hn).
      specialize (H s Hs). apply andb_true_iff in H. destruct H as [_ H].
      pose proof (IH s Hs) as IHs. cbv beta in IHs. destruct IHs as [IH1 _].
      apply (IH1 H); auto.
  - intros H s Hs. apply andb_true_iff. split.
    + apply H.
      * rewrite ids_T. left. reflexivity.
      * unfold kids. rewrite Hg, Hc. apply in_map. exact Hs.
    + pose proof (IH s Hs) as IHs. cbv beta in IHs. destruct IHs as [_ IH2].
      apply IH2. intros n c Hn Hcin. apply H; auto.
      rewrite ids_T. right. apply in_flat_map. exists s. split; auto.
Qed.

Theorem contract_spec : forall h r, WF h r -> (contractb h r = true <-> contract h r).
Proof.
  intros h r (t & Ht & Hr & Hnd). subst r.
  unfold contractb, contract. rewrite (build_complete _ _ _ Hr Hnd), andb_true_iff.
  rewrite (contract_t_spec _ _ _ Hr).
  split; intros [H1 H2]; split; auto.
  - intros n c Hn Hc. apply H2; auto. apply (reach_iff_ids _ _ _ Hr). exact Hn.
  - intros n c Hn Hc. apply H2; auto. apply (reach_iff_ids _ _ _ Hr). exact Hn.
Qed.
