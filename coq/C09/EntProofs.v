(* C09/EntProofs.v -- replace_html_entities, with either pattern, never raises, tiles the text, and changes only spans that
   resolve_entity decodes to one character. *)
From Coq Require Import List NArith ZArith Bool Lia Arith.
From MW Require Import Common.Str C01.Model C01.Proofs C01.Gen_resolve C01.ProofsGen C09.Gen_tables C09.EntModel.
From MW Require C09.Proofs.
Import ListNotations.
Open Scope N_scope.

Lemma upto_semi_spec : forall s a r, upto_semi s = (a, r) ->
  s = a ++ r /\ ~ In 59 a /\ match r with c :: _ => c = 59 | [] => True end.
Proof.
  induction s as [|c s IH]; intros a r H; cbn [upto_semi] in H.
  - inversion H; subst. split; [reflexivity|]. split; [intros []|exact I].
  - destruct (c =? 59) eqn:E.
    + inversion H; subst. apply N.eqb_eq in E. split; [reflexivity|]. split; [intros []|exact E].
    + destruct (upto_semi s) as [a' r'] eqn:E2. inversion H; subst.
      destruct (IH a' r eq_refl) as (A & B & C). split; [cbn [app]; f_equal; exact A|]. split; [|exact C].
      intros [I | I]; [subst c; rewrite N.eqb_refl in E; discriminate | exact (B I)].
Qed.

Definition eseg_shape (x : eseg) : Prop :=
  match x with EPlain _ => True | ERef e => exists body, e = 38 :: body ++ [59] /\ ~ In 59 body end.

Lemma ent_segments_spec st s :
  concat (map eseg_src (ent_segments st s)) = s /\ Forall eseg_shape (ent_segments st s).
Proof.
  apply (C09.Proofs.go_tiles eseg_src eseg_shape (ent_segments_go st)); [reflexivity | reflexivity |].
  intros c s'. cbn [ent_segments_go].
  assert (Pl : C09.Proofs.head_at eseg_src eseg_shape (ent_segments_go st) c s' (EPlain c :: ent_segments_go st s' 0))
    by (apply C09.Proofs.head_at_single; [reflexivity | exact I]).
  destruct (c =? 38) eqn:Ec; [|exact Pl]. apply N.eqb_eq in Ec. subst c.
  destruct (upto_semi s') as [body rest] eqn:Eu. destruct (upto_semi_spec _ _ _ Eu) as (Es & Hb & Hr).
  destruct rest as [|x r']; [exact Pl|]. subst x.
  destruct (negb st || strict_body body); [|exact Pl].
  exists (ERef (38 :: body ++ [59])), r'. cbn [eseg_src length pred]. rewrite app_length, Nat.add_1_r.
  split; [reflexivity|]. split; [rewrite Es; cbn [app]; rewrite <- app_assoc; reflexivity|]. split; [discriminate|].
  exists body. split; [reflexivity | exact Hb].
Qed.

Lemma decode_segs_total resolve : forall l,
  Forall (fun x => match x with EPlain _ => True | ERef e => exists r, resolve e = Ok r end) l ->
  decode_segs resolve l = Ok (concat (map (eseg_out resolve) l)).
Proof.
  induction l as [|x l IH]; intros H; [reflexivity|]. inversion H as [|x' l' Hx Hl]; subst.
  specialize (IH Hl). destruct x as [c|e]; cbn [decode_segs map concat eseg_out].
  - rewrite IH. reflexivity.
  - destruct Hx as (r & ->). rewrite IH. reflexivity.
Qed.

Section Resolve.
  Variable pyint : Z -> str -> option Z.
  Variable name2cp : str -> option Z.
  Let resolve := resolve_entity pyint name2cp caught_numeric surrogate_guard.

  (* e is decoded to the single character c: a numeric reference whose digits int() accepts, giving a code point
     chr() accepts (and, with the guard, not a surrogate); or a name of the table *)
  Definition decoded_ref (e : str) (c : N) : Prop :=
    (nth_error e 1 = Some 35 /\
     exists c2 base digits z,
       nth_error e 2 = Some c2 /\
       ((c2 = 120 \/ c2 = 88) /\ base = 16%Z /\ digits = slice_to_m1 3 e \/
        (c2 <> 120 /\ c2 <> 88) /\ base = 10%Z /\ digits = slice_to_m1 2 e) /\
       pyint base digits = Some z /\ chr_py surrogate_guard z = Ok c)
    \/ (nth_error e 1 <> Some 35 /\ exists z, name2cp (slice_to_m1 1 e) = Some z /\ chr_py false z = Ok c).

  Lemma int_then_chr_ok base d c : int_then_chr pyint surrogate_guard base d = Ok c ->
    exists z, pyint base d = Some z /\ chr_py surrogate_guard z = Ok c.
  Proof. unfold int_then_chr. destruct (pyint base d) as [z|]; [eauto | discriminate]. Qed.

  Lemma resolve_cases e r : resolve e = Ok r -> r = e \/ exists c, r = [c] /\ decoded_ref e c.
  Proof.
    unfold resolve, resolve_entity. destruct (nth_error e 1) as [c1|] eqn:E1; [|discriminate].
    destruct (N.eqb c1 35) eqn:Ec1.
    - apply N.eqb_eq in Ec1. subst c1. cbv zeta.
      match goal with |- match ?a with _ => _ end = _ -> _ => destruct a as [c|x] eqn:Ea end.
      + intros [= <-]. right. exists c. split; [reflexivity|]. left. split; [exact E1|].
        destruct (nth_error e 2) as [c2|]; [|discriminate].
        destruct (N.eqb c2 120 || N.eqb c2 88) eqn:Ex; destruct (int_then_chr_ok _ _ _ Ea) as (z & Hz & Hc).
        * exists c2, 16%Z, (slice_to_m1 3 e), z. apply orb_true_iff in Ex. rewrite !N.eqb_eq in Ex. auto 6.
        * exists c2, 10%Z, (slice_to_m1 2 e), z. apply orb_false_iff in Ex. rewrite !N.eqb_neq in Ex. auto 6.
      + destruct (caught_in caught_numeric x); intros H; inversion H; auto.
    - destruct (name2cp (slice_to_m1 1 e)) as [z|] eqn:En.
      + destruct (chr_py false z) as [c|x] eqn:Ech; [|discriminate].
        intros H. inversion H; subst. right. exists c. split; [reflexivity|]. right.
        split; [|eauto]. rewrite E1. intros Q. inversion Q; subst. rewrite N.eqb_refl in Ec1. discriminate.
      + intros H. inversion H; auto.
  Qed.

  Lemma chr_py_ok g z c : chr_py g z = Ok c ->
    (0 <= z < 1114112)%Z /\ c = Z.to_N z /\ (g = true -> ~ (55296 <= z <= 57343)%Z).
  Proof.
    unfold chr_py. destruct ((z <? -2147483648) || (z >? 2147483647))%Z eqn:A; [discriminate|].
    destruct ((z <? 0) || (z >=? 1114112))%Z eqn:B; [discriminate|].
    destruct (g && ((55296 <=? z) && (z <=? 57343))%Z) eqn:C; [discriminate|].
    intros H. inversion H; subst. split; [lia|]. split; [reflexivity|].
    intros ->. cbn [andb] in C. lia.
  Qed.

  Hypothesis name_range : forall s z, name2cp s = Some z -> (0 <= z < 1114112)%Z.

  Definition eseg_decoded (x : eseg) : Prop :=
    match x with
    | EPlain _ => True
    | ERef e => (exists body, e = 38 :: body ++ [59] /\ ~ In 59 body) /\
                exists r, resolve e = Ok r /\ (r = e \/ exists c, r = [c] /\ decoded_ref e c)
    end.

  (* for both patterns (st): a strict match is a lenient span whose body has the strict shape *)
  Lemma decode_only_refs st txt :
    let segs := ent_segments st txt in
    concat (map eseg_src segs) = txt /\
    replace_html_entities resolve st txt = Ok (concat (map (eseg_out resolve) segs)) /\
    Forall eseg_decoded segs.
  Proof.
    intros segs. destruct (ent_segments_spec st txt) as [A B]. split; [exact A|].
    assert (D : Forall eseg_decoded segs).
    { eapply Forall_impl; [|exact B]. intros [c|e] H; [exact I|]. cbn [eseg_shape] in H. split; [exact H|].
      destruct H as (body & -> & _).
      destruct (resolve_entity_total_gen pyint name2cp name_range body) as (r & Hr). fold resolve in Hr.
      exists r. split; [exact Hr | exact (resolve_cases _ _ Hr)]. }
    split; [|exact D]. unfold replace_html_entities. apply decode_segs_total.
    eapply Forall_impl; [|exact D]. intros [c|e] H; [exact I|]. destruct H as (_ & r & Hr & _). eauto.
  Qed.

  Lemma decode_no_amp st txt : ~ In 38 txt -> replace_html_entities resolve st txt = Ok txt.
  Proof.
    intros H. unfold replace_html_entities, ent_segments.
    assert (E : ent_segments_go st txt 0 = map EPlain txt).
    { induction txt as [|c t IH]; [reflexivity|]. cbn [ent_segments_go map].
      destruct (c =? 38) eqn:Ec; [apply N.eqb_eq in Ec; subst; exfalso; apply H; left; reflexivity|].
      rewrite IH; [reflexivity|]. intros I0. apply H. right. exact I0. }
    rewrite E. clear E H. induction txt as [|c t IH]; [reflexivity|]. cbn [map decode_segs]. rewrite IH. reflexivity.
  Qed.
End Resolve.

(* an int() that accepts only non-empty ASCII digit strings of the base: CPython's int() restricted to the digit strings
   the strict pattern of replace_html_entities lets through (CPython's own int() also reads "+65", " 65", "6_5") *)
Definition pyint_strict (pyint : Z -> str -> option Z) : Prop :=
  forall base s z, base = 10%Z \/ base = 16%Z -> pyint base s = Some z -> digit_string base s = true.

(* non-vacuity: "a&amp;&#65;&bogus;&#x41" with int() = ascii_int and a one-entry name table *)
Definition ex_names (s : str) : option Z := if str_eqb s [97; 109; 112] then Some 38%Z else None.

Lemma digits_val_digits base : forall s acc z, digits_val base acc s = Some z ->
  forallb (fun c => match digit_val c with Some d => (d <? base)%Z | None => false end) s = true.
Proof.
  induction s as [|x s IH]; intros acc z H; [reflexivity|]. cbn [digits_val forallb] in *.
  destruct (digit_val x) as [d|]; [|discriminate]. destruct (d <? base)%Z; [|discriminate].
  cbn [andb]. eapply IH. exact H.
Qed.

(* the character behind a digit value is a hexadecimal digit, and a decimal one when the value is below 10 *)
Lemma digit_val_digit c d : digit_val c = Some d ->
  is_hex_digit c = true /\ ((d < 10)%Z -> is_dec_digit c = true).
Proof.
  unfold digit_val, is_hex_digit, is_dec_digit.
  destruct ((48 <=? c) && (c <=? 57)) eqn:A; [intros _; split; reflexivity|].
  destruct ((97 <=? c) && (c <=? 102)) eqn:B.
  - intros [= <-]. split; [reflexivity|]. apply andb_true_iff in B as [B1 _]. apply N.leb_le in B1. lia.
  - destruct ((65 <=? c) && (c <=? 70)) eqn:C; [|discriminate].
    intros [= <-]. split; [reflexivity|]. apply andb_true_iff in C as [C1 _]. apply N.leb_le in C1. lia.
Qed.

Lemma ascii_int_strict : pyint_strict ascii_int.
Proof.
  intros base s z Hb H. unfold ascii_int in H. destruct s as [|c s]; [discriminate|].
  unfold digit_string. pose proof (digits_val_digits _ _ _ _ H) as F.
  rewrite forallb_forall in F. apply forallb_forall. intros x Hx. specialize (F x Hx).
  destruct (digit_val x) as [d|] eqn:E; [|discriminate]. destruct (digit_val_digit x d E) as [Hh Hd].
  destruct Hb as [-> | ->]; [apply Hd, Z.ltb_lt, F | exact Hh].
Qed.
