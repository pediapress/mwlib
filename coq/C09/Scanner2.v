(* C09/Scanner2.v -- the scanner STATE MACHINE (C10/Model.v: step, run, scan) around a marker: a scan() call that
   starts at a marker records one t_uniq token covering exactly the marker; a call that starts in a stretch without NUL,
   0x7f and open "<" in front of it never consumes the marker's first character; the token, once recorded, is never
   merged, retagged or dropped by a later action (Keep). *)
From Coq Require Import List NArith Bool Lia Arith.
From MW Require Import Common.Str C09.Gen_tables C09.Model C09.Proofs C09.Proofs2.
From MW Require Import C10.Regex C10.Tags C10.Gen_rules C10.Model C10.Tiles C10.Proofs.
From MW Require Import C09.Scanner.
Import ListNotations.
Open Scope N_scope.

(* toks is kept newest first; index i counts from the oldest token, as line_startswith_section does *)
Definition sec_at (l : list tok) (i : nat) : Prop :=
  exists b t a, l = b ++ t :: a /\ length a = i /\ ttype t = t_section.

(* lss (line_startswith_section) points at a t_section token: the only token newline() ever retags *)
Definition SecInv (s : st) : Prop := match lss s with Some i => sec_at (toks s) i | None => True end.

(* SecInv, and the t_uniq token o, once recorded, is still among toks *)
Definition Keep (o : option tok) (s : st) : Prop :=
  SecInv s /\ match o with Some tk => In tk (toks s) /\ ttype tk = t_uniq | None => True end.

Lemma retag_fwd_app : forall a t b,
  retag_fwd (length a) (a ++ t :: b) = a ++ Tok t_text (tstart t) (tlen t) :: b.
Proof. induction a as [|x a IH]; intros t b; cbn [length app retag_fwd]; [reflexivity | rewrite IH; reflexivity]. Qed.

Lemma retag_sec b t a : retag (length a) (b ++ t :: a) = b ++ Tok t_text (tstart t) (tlen t) :: a.
Proof.
  unfold retag. rewrite rev_app_distr. cbn [rev]. rewrite <- app_assoc. cbn [app].
  rewrite <- (rev_length a). rewrite retag_fwd_app. rewrite rev_app_distr. cbn [rev].
  rewrite <- app_assoc. cbn [app]. rewrite !rev_involutive. reflexivity.
Qed.

Lemma Keep_same o s s' : toks s' = toks s -> lss s' = lss s -> Keep o s -> Keep o s'.
Proof. intros Ht Hl [A B]. unfold Keep, SecInv in *. rewrite Ht, Hl. auto. Qed.

Lemma Keep_lss_none o s : Keep o s -> Keep o (set_lss None s).
Proof. intros [A B]. split; [exact I | exact B]. Qed.

Lemma Keep_push o ty st len s : Keep o s -> Keep o (push ty st len s).
Proof.
  intros [A B]. unfold Keep, SecInv, push in *. cbn [toks lss]. split.
  - destruct (lss s) as [i|]; [|exact I]. destruct A as (b & t & a & E & L & T).
    exists (Tok ty st len :: b), t, a. rewrite E. auto.
  - destruct o as [tk|]; [|exact I]. destruct B as [B1 B2]. split; [right; exact B1 | exact B2].
Qed.

Lemma Keep_found o ty st len s : Keep o s -> Keep o (found ty st len s).
Proof.
  intros K. unfold found. destruct (ty =? t_ebad).
  - eapply Keep_same; [| |exact K]; reflexivity.
  - destruct ((ty =? t_text) && negb (last_ebad s)) eqn:Em; [|apply Keep_push; exact K].
    destruct (toks s) as [|p tl] eqn:Et; [apply Keep_push; exact K|].
    destruct (ttype p =? ty) eqn:Ety; [|apply Keep_push; exact K].
    apply andb_true_iff in Em. destruct Em as [Ety2 _]. apply N.eqb_eq in Ety, Ety2.
    assert (Hp : ttype p = t_text) by congruence.
    destruct K as [A B]. unfold Keep, SecInv, set_toks in *. cbn [toks lss]. rewrite Et in *. split.
    + destruct (lss s) as [i|]; [|exact I]. destruct A as (b & t & a & E & L & T).
      destruct b as [|b0 b].
      * cbn [app] in E. inversion E; subst. rewrite T in Hp. discriminate Hp.
      * cbn [app] in E. inversion E; subst.
        exists (Tok (ttype b0) (tstart b0) (tlen b0 + len) :: b), t, a. auto.
    + destruct o as [tk|]; [|exact I]. destruct B as [[B1 | B1] B2].
      * subst tk. rewrite Hp in B2. discriminate B2.
      * split; [right; exact B1 | exact B2].
Qed.

Lemma Keep_newline o s : Keep o s -> Keep o (newline_ s).
Proof.
  intros K. unfold newline_. destruct (lss s) as [i|] eqn:El; [|exact K].
  destruct K as [A B]. unfold SecInv in A. rewrite El in A. destruct A as (b & t & a & E & L & T).
  split; [exact I|]. unfold set_lss, set_toks. cbn [toks].
  destruct o as [tk|]; [|exact I]. destruct B as [B1 B2]. split; [|exact B2].
  rewrite E, <- L, retag_sec. rewrite E in B1.
  apply in_app_or in B1. apply in_or_app. destruct B1 as [B1 | [B1 | B1]].
  - left. exact B1.
  - subst tk. rewrite T in B2. discriminate B2.
  - right. right. exact B1.
Qed.

Lemma Keep_tablemode o m s : Keep o s -> Keep o (set_tablemode m s).
Proof. apply Keep_same; reflexivity. Qed.
Lemma Keep_rowchar o c s : Keep o s -> Keep o (set_rowchar c s).
Proof. apply Keep_same; reflexivity. Qed.

Lemma Keep_bol o (b : bool) s : Keep o s -> Keep o (if b then set_rowchar 0 s else s).
Proof. intros K. destruct b; [apply Keep_rowchar|]; exact K. Qed.

Lemma found_section p n s : found t_section p n s = push t_section p n s.
Proof. reflexivity. Qed.
Lemma found_uniq p n s : found t_uniq p n s = push t_uniq p n s.
Proof. reflexivity. Qed.

Lemma Keep_section o p n s : Keep o s ->
  Keep o (set_lss (Some (length (toks (found t_section p n s)) - 1)%nat) (found t_section p n s)).
Proof.
  intros [A B]. rewrite found_section. unfold Keep, SecInv, set_lss, push. cbn [toks lss length]. split.
  - exists [], (Tok t_section p n), (toks s). split; [reflexivity|]. split; [lia | reflexivity].
  - destruct o as [tk|]; [|exact I]. destruct B as [B1 B2]. split; [right; exact B1 | exact B2].
Qed.

Definition res_keep (o : option tok) (r : result) : Prop :=
  match r with R_stop s' => Keep o s' | R_stuck => True | R_cont _ s' => Keep o s' end.

(* the states an action returns: s under found, newline_ and the field setters *)
Inductive built (s : st) : st -> Prop :=
| b_same : built s s
| b_found ty p n s' : built s s' -> built s (found ty p n s')
| b_newline s' : built s s' -> built s (newline_ s')
| b_tablemode m s' : built s s' -> built s (set_tablemode m s')
| b_rowchar c s' : built s s' -> built s (set_rowchar c s')
| b_lss_none s' : built s s' -> built s (set_lss None s')
| b_section p n s' : built s s' ->
    built s (set_lss (Some (length (toks (found t_section p n s')) - 1)%nat) (found t_section p n s')).

Definition res_built (s : st) (r : result) : Prop :=
  match r with R_stop s' | R_cont _ s' => built s s' | R_stuck => True end.

Lemma exec_built a rest n pos s : res_built s (exec a rest n pos s).
Proof.
  assert (F : forall ty p k, built s (found ty p k s)) by (intros; apply b_found, b_same).
  assert (PT : res_built s (if nth 0 rest 0 =? 32 then R_cont 1 (found t_pre pos 1 s) else R_cont n (found t_text pos n s)))
    by (destruct (nth 0 rest 0 =? 32); apply F).
  destruct a; cbn [exec res_built].
  - (* A_ret *) apply F.
  - (* A_begin_table *) apply b_found, b_tablemode, b_same.
  - (* A_end_table *) apply b_found, b_tablemode, b_same.
  - (* A_bol_row *) destruct (negb (tablemode s =? 0)); [apply F | exact PT].
  - (* A_bol_column *) destruct (negb (tablemode s =? 0)); [apply b_found, b_rowchar, b_same | exact PT].
  - (* A_bol_caption *) destruct (negb (tablemode s =? 0)); [apply F | exact PT].
  - (* A_section *) apply b_section, b_same.
  - (* A_goto_notbol *) exact I.
  - (* A_eq *) destruct ((nth n rest 0 =? 10) || (nth n rest 0 =? 0)); [destruct (lss s); [apply b_found, b_lss_none, b_same|]|]; apply F.
  - (* A_break *) apply b_found, b_found, b_newline, b_same.
  - (* A_newline *) apply b_found, b_newline, b_same.
  - (* A_colsep *) destruct (negb (tablemode s =? 0) && _); apply F.
  - (* A_capsep *) destruct (negb (tablemode s =? 0)); apply F.
  - (* A_end *) apply b_newline, b_same.
Qed.

(* an action consumes its match, or rewinds to one character *)
Lemma exec_consumed a rest n pos s k s' : exec a rest n pos s = R_cont k s' -> k = n \/ k = 1%nat.
Proof.
  destruct a; cbn [exec];
    repeat match goal with |- context [if ?c then _ else _] => destruct c end;
    try destruct (lss s); intros E; inversion E; auto.
Qed.

Lemma Keep_built o s s' : built s s' -> Keep o s -> Keep o s'.
Proof.
  intros B K. induction B;
    auto using Keep_found, Keep_newline, Keep_tablemode, Keep_rowchar, Keep_lss_none, Keep_section.
Qed.

Lemma exec_keep o a rest n pos s : Keep o s -> res_keep o (exec a rest n pos s).
Proof.
  intros K. pose proof (exec_built a rest n pos s) as B.
  destruct (exec a rest n pos s); cbn [res_built res_keep] in *; [|exact I|]; exact (Keep_built o _ _ B K).
Qed.

Lemma step_keep o prev rest pos s : Keep o s -> res_keep o (step prev rest pos s).
Proof.
  intros K. unfold step.
  set (isbol := match prev with None => true | Some c => c =? 10 end).
  set (s0 := if isbol then set_rowchar 0 s else s).
  assert (K0 : Keep o s0) by (apply Keep_bol; exact K).
  assert (M : res_keep o (match best_match main_rules rest with
                          | None => R_stuck | Some (a, n) => exec a rest n pos s0 end)).
  { destruct (best_match main_rules rest) as [[a n]|]; [apply exec_keep; exact K0 | exact I]. }
  destruct isbol; [|exact M].
  destruct (best_match bol_rules rest) as [[a n]|]; [|exact I].
  destruct a; try (apply exec_keep; exact K0). exact M.
Qed.

Lemma run_keep tk : forall fuel prev rest pos s, Keep (Some tk) s ->
  match run fuel prev rest pos s with F_done l => In tk l | _ => True end.
Proof.
  induction fuel as [|f IH]; intros prev rest pos s K; cbn [run]; [exact I|].
  pose proof (step_keep (Some tk) prev rest pos s K) as R.
  destruct (step prev rest pos s) as [s'| |k s']; cbn [res_keep] in R.
  - destruct R as [_ [R _]]. rewrite <- in_rev. exact R.
  - exact I.
  - apply IH. exact R.
Qed.

Theorem step_at_marker rand name k rest prev pos s : name_ok name -> hex_ok rand ->
  let m := marker rand name k in
  let s0 := if match prev with None => true | Some c => c =? 10 end then set_rowchar 0 s else s in
  step prev (m ++ rest) pos s = R_cont (length m) (found t_uniq pos (length m) s0).
Proof.
  intros Hn Hr m s0. unfold step. fold m.
  unfold m. rewrite (main_at_marker rand name k rest Hn Hr), (bol_at_marker rand name k rest Hn Hr).
  cbn [exec]. destruct (match prev with None => true | Some c => c =? 10 end); reflexivity.
Qed.

Lemma step_no_cross prev u w pos s k s' : u <> [] -> clear u ->
  step prev (u ++ 127 :: w) pos s = R_cont k s' -> (k <= length u)%nat.
Proof.
  intros Hu Hc. unfold step.
  set (isbol := match prev with None => true | Some c => c =? 10 end).
  set (s0 := if isbol then set_rowchar 0 s else s).
  destruct rules_cross_ok as [Cm Cb].
  assert (L1 : (1 <= length u)%nat) by (destruct u; [contradiction | cbn [length]; lia]).
  assert (M : match best_match main_rules (u ++ 127 :: w) with
              | None => R_stuck | Some (a, n) => exec a (u ++ 127 :: w) n pos s0 end = R_cont k s' -> (k <= length u)%nat).
  { destruct (best_match main_rules (u ++ 127 :: w)) as [[a n]|] eqn:Eb; [|discriminate].
    intros H. pose proof (no_crossing _ _ _ _ _ Cm Hu Hc Eb) as Hn.
    destruct (exec_consumed _ _ _ _ _ _ _ H); lia. }
  destruct isbol; [|exact M].
  destruct (best_match bol_rules (u ++ 127 :: w)) as [[a n]|] eqn:Eb; [|discriminate].
  pose proof (no_crossing _ _ _ _ _ Cb Hu Hc Eb) as Hn.
  destruct a; try exact M; intros H; destruct (exec_consumed _ _ _ _ _ _ _ H); lia.
Qed.

(* the loop gets across u: started in front of u ++ x on any state that meets the two invariants, with more fuel than u
   has characters, it comes to stand in front of x having read exactly u, for at most one unit of fuel per character *)
Definition reaches (o : option tok) (u x : list N) : Prop :=
  forall fuel prev p s, Inv s p -> Keep o s -> (length u < fuel)%nat ->
  exists fuel' prev' s',
    run fuel prev (u ++ x) (length p) s = run fuel' prev' x (length (p ++ u)) s'
    /\ (fuel <= fuel' + length u)%nat /\ Keep o s' /\ Inv s' (p ++ u).

Lemma reaches_trans o u u' x : reaches o u (u' ++ x) -> reaches o u' x -> reaches o (u ++ u') x.
Proof.
  intros H1 H2 fuel prev p s HI K Hf. rewrite app_length in Hf.
  destruct (H1 fuel prev p s HI K) as (f1 & prev1 & s1 & E1 & Hf1 & K1 & HI1); [lia|].
  destruct (H2 f1 prev1 (p ++ u) s1 HI1 K1) as (f2 & prev2 & s2 & E2 & Hf2 & K2 & HI2); [lia|].
  exists f2, prev2, s2. rewrite <- (app_assoc u), E1, E2, (app_assoc p), (app_length u).
  split; [reflexivity|]. split; [lia|]. split; [exact K2 | exact HI2].
Qed.

(* a clear stretch in front of a 0x7f: no call runs into the 0x7f (step_no_cross), so the calls read u piece by piece *)
Lemma reaches_clear o u y V : clear u -> hd_error y = Some 127 -> ~ In 0 y -> reaches o u (y ++ 0 :: V).
Proof.
  intros Hc Hy Hy0 fuel. destruct y as [|c127 w]; [discriminate Hy|]. injection Hy as ->. revert u Hc.
  induction fuel as [|f IH]; intros u Hc prev p s HI K Hf; [lia|].
  destruct u as [|c u0].
  - exists (S f), prev, s. cbn [app length]. rewrite app_nil_r.
    split; [reflexivity|]. split; [lia|]. split; [exact K | exact HI].
  - set (u := c :: u0) in *. assert (Hu : u <> []) by discriminate.
    assert (Hnu : ~ In 0 (u ++ 127 :: w)).
    { intro I0. apply in_app_or in I0. destruct I0 as [I0 | I0]; [exact (clear_no_nul u Hc I0) | exact (Hy0 I0)]. }
    pose proof (step_spec prev (u ++ 127 :: w) V p s Hnu HI) as Hs.
    pose proof (step_keep o prev (u ++ (127 :: w) ++ 0 :: V) (length p) s K) as Hk.
    pose proof (step_no_cross prev u (w ++ 0 :: V) (length p) s) as Hx.
    rewrite <- app_assoc in Hs. change ((127 :: w) ++ 0 :: V) with (127 :: w ++ 0 :: V) in *.
    destruct (step prev (u ++ 127 :: w ++ 0 :: V) (length p) s) as [s'| |k s'] eqn:Est.
    + destruct Hs as [Hs _]. destruct u; discriminate Hs.
    + contradiction.
    + destruct Hs as [Hk1 HI']. cbn [res_keep] in Hk. specialize (Hx k s' Hu Hc eq_refl).
      rewrite (run_cont _ _ _ _ _ _ _ _ Est Hx).
      rewrite (proj1 (firstn_skipn_prefix u _ k Hx)) in HI'.
      destruct (IH (skipn k u) (clear_skipn k u Hc)
                   (match k with O => prev | S j => Some (nth j (u ++ 127 :: w ++ 0 :: V) 0) end)
                   (p ++ firstn k u) s' HI' Hk) as (fuel' & prev' & s'' & Er & Hfu & K' & HI'');
        [rewrite skipn_length; lia|].
      rewrite <- app_assoc, firstn_skipn in Er, HI''.
      exists fuel', prev', s''. split; [exact Er|]. split; [|split; [exact K' | exact HI'']].
      rewrite skipn_length in Hfu. lia.
Qed.

(* a marker is read by one call *)
Lemma reaches_marker o rand name k x : name_ok name -> hex_ok rand -> reaches o (marker rand name k) x.
Proof.
  intros Hn Hr fuel prev p s HI K Hf. set (m := marker rand name k) in *.
  destruct fuel as [|f]; [lia|].
  pose proof (step_at_marker rand name k x prev (length p) s Hn Hr) as Hst. cbv zeta in Hst. fold m in Hst.
  eexists f, _, _. split; [|split; [|split]].
  - rewrite (run_cont f prev m x p s _ _ Hst (le_n _)), skipn_all, firstn_all. reflexivity.
  - unfold m. rewrite marker_ends. cbn [length]. lia.
  - apply Keep_found, Keep_bol, K.
  - apply Inv_found; [apply Inv_bol, HI | unfold m; rewrite marker_ends; discriminate | intro E; vm_compute in E; discriminate E].
Qed.

Lemma marker_head rand name k x : hd_error (marker rand name k ++ x) = Some 127.
Proof. rewrite marker_ends. reflexivity. Qed.

Lemma marker_app_no_nul rand name k x : name_ok name -> hex_ok rand -> ~ In 0 x -> ~ In 0 (marker rand name k ++ x).
Proof.
  intros Hn Hr Hx I0. apply in_app_or in I0. destruct I0 as [I0 | I0]; [exact (marker_no_nul rand name k Hn Hr I0) | exact (Hx I0)].
Qed.

(* CONTEXT: what may stand in front of a marker.  Stretches of text without NUL and 0x7f in which every "<" is
   followed by a ">" of the same stretch (so that no html tag / comment token -- "<" [^<>]* ">" -- is still open when
   the marker begins), alternating with earlier complete markers. *)
Inductive pre_ok : list N -> Prop :=
| pre_clear : forall u, clear u -> pre_ok u
| pre_marker : forall u rand name k u', clear u -> name_ok name -> hex_ok rand -> pre_ok u' ->
    pre_ok (u ++ marker rand name k ++ u').

Lemma pre_ok_no_nul : forall u, pre_ok u -> ~ In 0 u.
Proof.
  intros u H. induction H as [u Hc | u rand name k u' Hc Hn Hr H' IH]; [apply clear_no_nul; exact Hc|].
  intros I0. apply in_app_or in I0.
  destruct I0 as [I0 | I0]; [exact (clear_no_nul u Hc I0) | exact (marker_app_no_nul rand name k u' Hn Hr IH I0)].
Qed.

Lemma reaches_pre o u y V : pre_ok u -> hd_error y = Some 127 -> ~ In 0 y -> reaches o u (y ++ 0 :: V).
Proof.
  intros H Hy Hy0. induction H as [u Hc | u rand name k u' Hc Hn Hr H' IH]; [apply reaches_clear; assumption|].
  set (m := marker rand name k) in *.
  assert (Hy0' : ~ In 0 (u' ++ y)).
  { intro I0. apply in_app_or in I0. destruct I0 as [I0 | I0]; [exact (pre_ok_no_nul u' H' I0) | exact (Hy0 I0)]. }
  (* up to the marker, over it, and on through u' *)
  apply reaches_trans; [|apply reaches_trans; [apply reaches_marker; assumption | exact IH]].
  replace ((m ++ u') ++ y ++ 0 :: V) with ((m ++ u' ++ y) ++ 0 :: V) by (rewrite <- !app_assoc; reflexivity).
  apply reaches_clear; [exact Hc | apply marker_head | apply marker_app_no_nul; assumption].
Qed.

Lemma Keep_uniq p n s : Keep None s -> Keep (Some (Tok t_uniq p n)) (found t_uniq p n s).
Proof.
  intros K. split; [exact (proj1 (Keep_found None t_uniq p n s K))|].
  rewrite found_uniq. split; [left; reflexivity | reflexivity].
Qed.

(* the call at a marker records its token, and the rest of the loop keeps it *)
Lemma run_at_marker rand name k y f prev pos s : name_ok name -> hex_ok rand -> Keep None s ->
  match run (S f) prev (marker rand name k ++ y) pos s with
  | F_done l => In (Tok t_uniq pos (length (marker rand name k))) l
  | _ => True
  end.
Proof.
  intros Hn Hr K. cbn [run]. rewrite (step_at_marker rand name k y prev pos s Hn Hr).
  apply run_keep, Keep_uniq, Keep_bol, K.
Qed.

(* pre_ok is sufficient for "outside an html tag / comment token" in this scanner: the only rules that can run across
   0x7f are "<" "/"? [a-zA-Z]+ [^\000<>]* "/"? ">" and "<!--" [^\000<>]* "-->" (rules_cross_ok).  It is not necessary:
   a "<" that opens neither (as in "a < b") is refused all the same.  v is arbitrary. *)
Theorem marker_token_in_scan rand name k u v : name_ok name -> hex_ok rand -> pre_ok u ->
  exists l, scan (u ++ marker rand name k ++ v) = F_done l
            /\ In (Tok t_uniq (length u) (length (marker rand name k))) l.
Proof.
  intros Hn Hr Hc. set (m := marker rand name k).
  destruct (scan_tiles (u ++ m ++ v)) as (l & Hl & _). exists l. split; [exact Hl|].
  unfold scan in Hl. destruct sentinels_nonempty as (pad & Epad). rewrite Epad in Hl.
  destruct (before_nul_split v pad) as (V & EV).
  replace ((u ++ m ++ v) ++ 0 :: pad) with (u ++ (m ++ before_nul v) ++ 0 :: V) in Hl
    by (rewrite <- !app_assoc, EV; reflexivity).
  destruct (reaches_pre None u (m ++ before_nul v) V Hc (marker_head _ _ _ _)
              (marker_app_no_nul _ _ _ _ Hn Hr (before_nul_no_nul v))
              (length (u ++ m ++ v) + 1)%nat None [] init Inv_init (conj I I))
    as (f & prev' & s' & Er & Hfu & K' & _); [rewrite app_length; lia|].
  change ([] ++ u) with u in Er. change (length (@nil N)) with 0%nat in Er. rewrite Er, <- app_assoc in Hl.
  destruct f as [|f]; [rewrite app_length in Hfu; lia|].
  pose proof (run_at_marker rand name k (before_nul v ++ 0 :: V) f prev' (length u) s' Hn Hr K') as R.
  fold m in R. rewrite Hl in R. exact R.
Qed.
