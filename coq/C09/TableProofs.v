(* C09/TableProofs.v -- marker keys carry no information about the text: a marker must be looked up in ITS OWN table.

   Uniquifier.random_string is a class attribute (one value per process) and the counter is len(uniq2repl), so every
   Uniquifier of a process -- the article's, the one of the second expander ParseUniq.create_pages builds for the pages
   transcluded through <pages>, the one of a nested create_ref parse -- numbers its regions 0, 1, 2.. under the same
   random string.  Two tables therefore have EQUAL keys as soon as their regions have the same tag names in the same
   order, and looking a marker up in a foreign table silently yields the foreign region (or nothing). *)
From Coq Require Import List NArith.
Import ListNotations.
Open Scope N_scope.

(* article "<nowiki>''o''</nowiki>" and transcluded page "<nowiki>[[p]]</nowiki>": same keys; the page's protected text
   restored with the ARTICLE's table gives the article's body, with its own table its own body, with an empty table the
   raw marker. *)
Definition ex_article : list N := [60;110;111;119;105;107;105;62] ++ [39;39;111;39;39] ++ [60;47;110;111;119;105;107;105;62].
Definition ex_page : list N := [60;110;111;119;105;107;105;62] ++ [91;91;112;93;93] ++ [60;47;110;111;119;105;107;105;62].
