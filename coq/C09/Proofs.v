(* C09 -- the matchers: each returns (consumed, rest) with input = consumed ++ rest; hence the segmentation tiles the text. *)
From Coq Require Import List NArith Bool Lia Arith PeanoNat.
From MW Require Import Common.Str C09.Gen_tables C09.Model.
Import ListNotations.
Open Scope N_scope.

Lemma strip_prefix_spec p s r : strip_prefix p s = Some r -> s = p ++ r.
Proof.
  revert s; induction p as [|a p IH]; intros s H; cbn in *.
  - congruence.
  - destruct s as [|b s]; [discriminate|].
    destruct (N.eqb_spec a b) as [->|]; [|discriminate].
    cbn. f_equal. apply IH. exact H.
Qed.

Lemma strip_prefix_app p r : strip_prefix p (p ++ r) = Some r.
Proof. induction p as [|a p IH]; cbn; [reflexivity|]. rewrite N.eqb_refl. exact IH. Qed.

Lemma find_sub_spec p s b r : find_sub p s = Some (b, r) -> s = b ++ p ++ r.
Proof.
  revert b r; induction s as [|c s IH]; intros b r H.
  - cbn in H. destruct (strip_prefix p []) eqn:E.
    + inversion H; subst. apply strip_prefix_spec in E. exact E.
    + discriminate.
  - cbn [find_sub] in H. destruct (strip_prefix p (c :: s)) eqn:E.
    + inversion H; subst. apply strip_prefix_spec in E. exact E.
    + destruct (find_sub p s) as [[b' r']|] eqn:F; [|discriminate].
      inversion H; subst. cbn. f_equal. apply IH. reflexivity.
Qed.

Lemma span_spec f s a r : span f s = (a, r) -> s = a ++ r /\ forallb f a = true.
Proof.
  revert a r; induction s as [|c s IH]; intros a r H; cbn in H.
  - inversion H; subst. split; reflexivity.
  - destruct (f c) eqn:Fc.
    + destruct (span f s) as [a' r'] eqn:E. inversion H; subst.
      destruct (IH _ _ eq_refl) as [-> Ha]. split; [reflexivity|]. cbn. rewrite Fc. exact Ha.
    + inversion H; subst. split; reflexivity.
Qed.

Lemma span_stop f s a r : span f s = (a, r) -> match r with c :: _ => f c = false | [] => True end.
Proof.
  revert a r; induction s as [|c s IH]; intros a r H; cbn in H.
  - inversion H; subst. exact I.
  - destruct (f c) eqn:Fc.
    + destruct (span f s) as [a' r'] eqn:E. inversion H; subst. eapply IH. reflexivity.
    + inversion H; subst. exact Fc.
Qed.

Lemma span_app f a x r : forallb f a = true -> f x = false -> span f (a ++ x :: r) = (a, x :: r).
Proof.
  intros Ha Hx. induction a as [|c a IH]; cbn.
  - rewrite Hx. reflexivity.
  - cbn in Ha. apply andb_true_iff in Ha as [Hc Ha]. rewrite Hc, (IH Ha). reflexivity.
Qed.

Lemma span_all f a : forallb f a = true -> span f a = (a, []).
Proof.
  intros Ha. induction a as [|c a IH]; cbn; [reflexivity|].
  cbn in Ha. apply andb_true_iff in Ha as [Hc Ha]. rewrite Hc, (IH Ha). reflexivity.
Qed.

Lemma comment_at_spec s g2 body g3 r :
  comment_at s = Some (g2, body, g3, r) -> s = (g2 ++ body ++ g3) ++ r /\ body <> [].
Proof.
  unfold comment_at. intros H.
  destruct (match s with
            | [] => ([], s)
            | c :: s' => if c =? 10 then let (sp, r0) := span is_sp s' in (c :: sp, r0) else ([], s)
            end) as [g s1] eqn:E1.
  assert (Hs : s = g ++ s1).
  { destruct s as [|c s']; [inversion E1; reflexivity|].
    destruct (c =? 10); [|inversion E1; reflexivity].
    destruct (span is_sp s') as [sp r0] eqn:E. inversion E1; subst.
    apply span_spec in E as [-> _]. reflexivity. }
  destruct (strip_prefix comment_open s1) as [s2|] eqn:E2; [|discriminate].
  apply strip_prefix_spec in E2.
  destruct (find_sub comment_close s2) as [[b s3]|] eqn:E3; [|discriminate].
  apply find_sub_spec in E3.
  destruct (span is_sp s3) as [sp r0] eqn:E4. apply span_spec in E4 as [Hs3 _].
  assert (Hs' : s = g ++ (comment_open ++ b ++ comment_close) ++ s3)
    by (rewrite Hs, E2, E3, <- !app_assoc; reflexivity).
  assert (NE : comment_open ++ b ++ comment_close <> []) by discriminate.
  clear E1 Hs E2 E3. revert H Hs' NE. generalize (comment_open ++ b ++ comment_close). intros body0 H -> NE.
  (* the group ([ ]*\n)? not taken *)
  assert (H0 : Some (g, body0, [], s3) = Some (g2, body, g3, r) ->
               g ++ body0 ++ s3 = (g2 ++ body ++ g3) ++ r /\ body <> []).
  { intros [= <- <- <- <-]. rewrite app_nil_r, <- app_assoc. auto. }
  destruct r0 as [|c r']; [exact (H0 H)|].
  destruct (N.eqb_spec c 10) as [->|]; [|exact (H0 H)].
  injection H as <- <- <- <-. rewrite Hs3, <- !app_assoc. auto.
Qed.

Lemma comment_repl_in x g2 g3 : In x (comment_repl g2 g3) -> x = 10 \/ In x (g2 ++ g3).
Proof.
  unfold comment_repl. destruct g2 as [|a g2]; destruct g3 as [|b g3]; cbn; intros H; auto.
  destruct H as [<-|[]]. left; reflexivity.
Qed.

Lemma ci_prefix_spec name s m r :
  ci_prefix name s = Some (m, r) -> s = m ++ r /\ Forall2 (fun l c => ci_lit l c = true) name m.
Proof.
  revert s m r; induction name as [|l name IH]; intros s m r H; cbn in H.
  - inversion H; subst. split; [reflexivity|constructor].
  - destruct s as [|c s]; [discriminate|].
    destruct (ci_lit l c) eqn:L; [|discriminate].
    destruct (ci_prefix name s) as [[m' r']|] eqn:E; [|discriminate].
    inversion H; subst. destruct (IH _ _ _ E) as [-> F]. split; [reflexivity|]. constructor; assumption.
Qed.

Lemma bref_prefix_spec m s a r : bref_prefix m s = Some (a, r) -> s = a ++ r /\ length a = length m.
Proof.
  revert s a r; induction m as [|x m IH]; intros s a r H; cbn in H.
  - inversion H; subst. split; reflexivity.
  - destruct s as [|y s]; [discriminate|].
    destruct (sre_lower x =? sre_lower y); [|discriminate].
    destruct (bref_prefix m s) as [[a' r']|] eqn:E; [|discriminate].
    inversion H; subst. destruct (IH _ _ _ E) as [-> L]. split; [reflexivity|]. cbn. f_equal. exact L.
Qed.

(* shape of a closing tag: "</" nm w ">" *)
Definition closing_shape (m cl : list N) : Prop :=
  exists nm w, cl = 60 :: 47 :: nm ++ w ++ [62] /\ length nm = length m /\ forallb is_ws w = true.

Lemma close_at_spec m s cl r : close_at m s = Some (cl, r) -> s = cl ++ r /\ closing_shape m cl.
Proof.
  unfold close_at. intros H.
  destruct (strip_prefix [60; 47] s) as [s1|] eqn:E1; [|discriminate].
  apply strip_prefix_spec in E1.
  destruct (bref_prefix m s1) as [[nm s2]|] eqn:E2; [|discriminate].
  apply bref_prefix_spec in E2 as [-> L].
  destruct (span is_ws s2) as [w s3] eqn:E3. apply span_spec in E3 as [-> W].
  destruct s3 as [|c s4]; [discriminate|].
  destruct (N.eqb_spec c 62) as [->|]; [|discriminate].
  inversion H; subst. split.
  - cbn. repeat rewrite <- app_assoc. reflexivity.
  - exists nm, w. auto.
Qed.

Lemma find_close_spec m s i cl r :
  find_close m s = Some (i, cl, r) -> s = i ++ cl ++ r /\ closing_shape m cl.
Proof.
  revert i cl r; induction s as [|c s IH]; intros i cl r H.
  - cbn in H. discriminate.
  - cbn [find_close] in H. destruct (close_at m (c :: s)) as [[cl' r']|] eqn:E.
    + inversion H; subst. apply close_at_spec in E. exact E.
    + destruct (find_close m s) as [[[i' cl'] r']|] eqn:F; [|discriminate].
      inversion H; subst. destruct (IH _ _ _ eq_refl) as [-> C]. split; [reflexivity|exact C].
Qed.

Lemma last_opt_removelast a c r : last_opt a = Some c -> a ++ r = removelast a ++ c :: r.
Proof.
  induction a as [|x a IH]; [discriminate|].
  destruct a as [|y a].
  - intros [= ->]. reflexivity.
  - intros H. change (removelast (x :: y :: a)) with (x :: removelast (y :: a)).
    cbn [app]. f_equal. exact (IH H).
Qed.

Definition kind_text (k : open_kind) : list N := match k with SelfClose => [47; 62] | Open => [62] end.

(* the literal pattern `Some 47` of after_name, as a test *)
Lemma match_some_47 {A} (o : option N) (x y : A) :
  match o with Some 47 => x | _ => y end = if match o with Some c => c =? 47 | None => false end then x else y.
Proof.
  destruct o as [[|p]|]; try reflexivity. do 6 (destruct p as [p|p|]; try reflexivity).
Qed.

Lemma after_name_spec s vl k r : after_name s = Some (vl, k, r) -> s = vl ++ kind_text k ++ r.
Proof.
  unfold after_name. intros H. destruct s as [|c s1]; [discriminate|].
  destruct (is_ws c).
  - destruct (span (fun x => negb (is_lg x)) s1) as [a r0] eqn:E. apply span_spec in E as [-> _].
    destruct r0 as [|d r1]; [discriminate|].
    destruct (N.eqb_spec d 62) as [->|]; [|discriminate].
    rewrite match_some_47 in H. destruct (last_opt a) as [x|] eqn:L.
    + destruct (N.eqb_spec x 47) as [->|Hx]; injection H as <- <- <-; [|reflexivity].
      cbn [kind_text app]. f_equal. exact (last_opt_removelast a 47 (62 :: r1) L).
    + injection H as <- <- <-. reflexivity.
  - destruct (N.eqb_spec c 47) as [->|].
    + destruct s1 as [|d r1]; [discriminate|].
      destruct (N.eqb_spec d 62) as [->|]; [|discriminate]. inversion H; subst. reflexivity.
    + destruct (N.eqb_spec c 62) as [->|]; [|discriminate]. inversion H; subst. reflexivity.
Qed.

(* what a tag occurrence is: the matched text decomposed into name, attributes, body, closing tag *)
Definition tag_occurrence (name m vl inner whole : list N) : Prop :=
  Forall2 (fun l c => ci_lit l c = true) name m /\
  ((whole = 60 :: m ++ vl ++ [47; 62] /\ inner = []) \/
   (exists cl, whole = 60 :: m ++ vl ++ 62 :: inner ++ cl /\ closing_shape m cl)).

Lemma tag_with_spec name s1 m vl inner whole r :
  tag_with name s1 = Some (m, vl, inner, whole, r) ->
  60 :: s1 = whole ++ r /\ tag_occurrence name m vl inner whole.
Proof.
  unfold tag_with. intros H.
  destruct (ci_prefix name s1) as [[m' s2]|] eqn:E1; [|discriminate].
  apply ci_prefix_spec in E1 as [-> F].
  destruct (after_name s2) as [[[vl' k] s3]|] eqn:E2; [|discriminate].
  apply after_name_spec in E2 as ->. destruct k.
  - injection H as <- <- <- <- <-. split; [|split; [exact F|left; split; reflexivity]].
    cbn [kind_text app]. rewrite <- !app_assoc. reflexivity.
  - destruct (find_close m' s3) as [[[i cl] r']|] eqn:E3; [|discriminate].
    apply find_close_spec in E3 as [-> C]. injection H as <- <- <- <- <-.
    split; [|split; [exact F|right; exists cl; split; [reflexivity|exact C]]].
    cbn [kind_text app]. rewrite <- !app_assoc. cbn [app]. rewrite <- !app_assoc. reflexivity.
Qed.

Lemma first_some_spec {A B} (f : A -> option B) l y :
  first_some f l = Some y -> exists x, In x l /\ f x = Some y.
Proof.
  induction l as [|x l IH]; cbn; [discriminate|].
  destruct (f x) eqn:E.
  - intros H; inversion H; subst. exists x. auto.
  - intros H. destruct (IH H) as [x' [I F]]. exists x'. auto.
Qed.

Lemma tag_at_spec s m vl inner whole r :
  tag_at s = Some (m, vl, inner, whole, r) ->
  s = whole ++ r /\ exists name, In name tag_names /\ tag_occurrence name m vl inner whole.
Proof.
  unfold tag_at. intros H. destruct s as [|c s1]; [discriminate|].
  destruct (N.eqb_spec c 60) as [->|]; [|discriminate].
  apply first_some_spec in H as [name [I T]].
  apply tag_with_spec in T as [E O]. split; [exact E|]. exists name. auto.
Qed.

Definition hit_ok (h : hit) : Prop :=
  match h with
  | HComment src repl => forall x, In x repl -> x = 10 \/ In x src
  | HTag src e =>
      exists name m, In name tag_names /\ tag_occurrence name m (e_vlist e) (e_inner e) src /\
                     e_tag e = py_lower m /\
                     e_complete e = if str_eqb (e_tag e) nowiki then e_inner e else src
  end.

Lemma match_at_spec s h :
  match_at s = Some h -> (exists r, s = hit_src h ++ r) /\ hit_src h <> [] /\ hit_ok h.
Proof.
  unfold match_at. intros H.
  destruct (comment_at s) as [[[[g2 body] g3] r]|] eqn:C.
  - inversion H; subst. apply comment_at_spec in C as [E B]. cbn [hit_src hit_ok]. split; [exists r; exact E|]. split.
    + intros Z. apply app_eq_nil in Z as [_ Z]. apply app_eq_nil in Z as [Z _]. contradiction.
    + intros x Hx. apply comment_repl_in in Hx as [->|Hx]; [left; reflexivity|right].
      apply in_app_or in Hx. apply in_or_app. destruct Hx as [Hx|Hx]; [left; exact Hx|right].
      apply in_or_app. right. exact Hx.
  - destruct (tag_at s) as [[[[[m vl] inner] whole] r]|] eqn:T; [|discriminate].
    inversion H; subst. apply tag_at_spec in T as [E [name [I O]]]. cbn [hit_src hit_ok]. split; [exists r; exact E|]. split.
    + destruct O as [_ [[-> _]|[cl [-> _]]]]; discriminate.
    + exists name, m. unfold mk_entry. cbn [e_vlist e_inner e_tag e_complete]. auto.
Qed.

(* Leftmost non-overlapping matches tile the text.  [go s skip] drops [skip] characters; at a position it emits one
   segment, whose source is a non-empty prefix of the text there, and goes on behind it. *)
Section Tiling.
  Context {X : Type} (src : X -> list N) (P : X -> Prop) (go : list N -> nat -> list X).

  Definition head_at (c : N) (s : list N) (l : list X) : Prop :=
    exists x r, l = x :: go s (pred (length (src x))) /\ c :: s = src x ++ r /\ src x <> [] /\ P x.

  (* the segment of a character no match starts at *)
  Lemma head_at_single c s x : src x = [c] -> P x -> head_at c s (x :: go s 0).
  Proof. intros E Px. exists x, s. rewrite E. repeat split; [discriminate | exact Px]. Qed.

  Hypothesis go_nil : go [] 0 = [].
  Hypothesis go_drop : forall c s n, go (c :: s) (S n) = go s n.
  Hypothesis go_head : forall c s, head_at c s (go (c :: s) 0).

  Lemma go_skip a r : go (a ++ r) (length a) = go r 0.
  Proof. induction a as [|c a IH]; [reflexivity | cbn [app length]; rewrite go_drop; exact IH]. Qed.

  Lemma go_tiles_upto n : forall s, (length s <= n)%nat -> concat (map src (go s 0)) = s /\ Forall P (go s 0).
  Proof.
    assert (Nil : concat (map src (go [] 0)) = [] /\ Forall P (go [] 0)) by (rewrite go_nil; split; [reflexivity | constructor]).
    induction n as [|n IH]; intros [|c s] L; [exact Nil | cbn in L; lia | exact Nil |].
    destruct (go_head c s) as (x & r & -> & T & NE & Px).
    destruct (src x) as [|y w] eqn:Sx; [contradiction|]. injection T as <- ->. cbn [length pred].
    rewrite go_skip. destruct (IH r) as [A B]; [cbn [length] in L; rewrite app_length in L; lia|].
    cbn [map concat]. rewrite Sx, A. split; [reflexivity | constructor; assumption].
  Qed.

  Lemma go_tiles s : concat (map src (go s 0)) = s /\ Forall P (go s 0).
  Proof. apply (go_tiles_upto (length s)). lia. Qed.
End Tiling.

Definition seg_of_hit (h : hit) : seg := match h with HComment a b => Comment a b | HTag a e => Tag a e end.

(* what match_at_spec says of a hit, said of the segment made from it *)
Definition seg_ok (x : seg) : Prop :=
  match x with
  | Plain _ => True
  | Comment src repl => hit_ok (HComment src repl)
  | Tag src e => hit_ok (HTag src e)
  end.

Lemma segments_spec s : concat (map seg_source (segments s)) = s /\ Forall seg_ok (segments s).
Proof.
  apply (go_tiles seg_source seg_ok segments_go); [reflexivity | reflexivity |].
  intros c s'. unfold head_at. cbn [segments_go]. destruct (match_at (c :: s')) as [h|] eqn:M.
  - destruct (match_at_spec _ _ M) as [[r E] [NE OK]]. exists (seg_of_hit h), r. destruct h; auto.
  - apply head_at_single; [reflexivity | exact I].
Qed.

Lemma segments_tile s : concat (map seg_source (segments s)) = s.
Proof. apply segments_spec. Qed.

Lemma segments_ok s : Forall seg_ok (segments s).
Proof. apply segments_spec. Qed.
