(* C09/Proofs2.v -- the marker format (name_ok, hex_ok): both t_uniq patterns accept a marker in full, markers are injective
   in name and counter and inert for the template tokenizer; restore undoes protect_segs, also with the table of earlier calls
   in front; the tag-name fold (exotic, no_exotic); the table and the protected text read off the segmentation; and two
   tests written by hand from _uscan.re (starts_other_rule, url_char). *)
From Coq Require Import List NArith Bool Lia Arith PeanoNat Decimal DecimalN DecimalPos.
From MW Require Import Common.Str C09.Gen_tables C09.Model C09.Proofs.
Import ListNotations.
Open Scope N_scope.

Definition name_ok (n : list N) : Prop := n <> [] /\ forallb is_lower_alnum n = true.
Definition hex_ok (r : list N) : Prop := r <> [] /\ forallb is_hexlower r = true.

Lemma forallb_impl (f g : N -> bool) l : (forall c, f c = true -> g c = true) -> forallb f l = true -> forallb g l = true.
Proof.
  intros I H. rewrite forallb_forall in *. intros x Hx. apply I. apply H. exact Hx.
Qed.

Lemma forallb_not_in (f : N -> bool) l x : forallb f l = true -> f x = false -> ~ In x l.
Proof. intros H Fx I. rewrite forallb_forall in H. rewrite (H x I) in Fx. discriminate. Qed.

Lemma forallb_incl (f : N -> bool) a b : incl a b -> forallb f b = true -> forallb f a = true.
Proof. intros I H. rewrite forallb_forall in *. intros x Hx. apply H, I, Hx. Qed.

Lemma Forall_forallb (P : N -> Prop) f l : (forall c, f c = true -> P c) -> forallb f l = true -> Forall P l.
Proof. intros I H. rewrite forallb_forall in H. apply Forall_forall. intros x Hx. apply I, H, Hx. Qed.

Lemma Forall_not_in (P : N -> Prop) l x : Forall P l -> ~ P x -> ~ In x l.
Proof. intros H Px I. rewrite Forall_forall in H. exact (Px (H x I)). Qed.

Definition name_okb (n : list N) : bool := match n with [] => false | _ => forallb is_lower_alnum n end.
Lemma names_table_ok : forallb name_okb tag_names = true.
Proof. vm_compute. reflexivity. Qed.
Lemma ws_table_ok : forallb (fun r => (snd r <? 33) || (127 <? fst r)) ws_ranges = true.
Proof. vm_compute. reflexivity. Qed.
Lemma nd_table_ok : existsb (fun r => (fst r <=? 48) && (57 <=? snd r)) nd_ranges = true /\ is_nd 45 = false.
Proof. vm_compute. split; reflexivity. Qed.

Lemma name_okb_spec n : name_okb n = true -> name_ok n.
Proof. destruct n; cbn; [discriminate|]. intros H. split; [discriminate|exact H]. Qed.

Lemma tag_names_ok name : In name tag_names -> name_ok name.
Proof.
  intros I. apply name_okb_spec. pose proof names_table_ok as H.
  rewrite forallb_forall in H. apply H. exact I.
Qed.

Lemma between_spec lo hi c : (lo <=? c) && (c <=? hi) = true <-> lo <= c <= hi.
Proof. rewrite andb_true_iff, !N.leb_le. reflexivity. Qed.

Lemma is_ws_printable c : 33 <= c <= 127 -> is_ws c = false.
Proof.
  intros Hc. unfold is_ws, in_ranges. pose proof ws_table_ok as H. rewrite forallb_forall in H.
  destruct (existsb _ ws_ranges) eqn:E; [|reflexivity].
  apply existsb_exists in E as [r [I R]]. specialize (H r I). apply between_spec in R.
  apply orb_true_iff in H as [H|H]; apply N.ltb_lt in H; lia.
Qed.

Lemma is_digit_nd c : is_digit c = true -> is_nd c = true.
Proof.
  unfold is_digit. intros H. apply between_spec in H.
  destruct nd_table_ok as [E _]. apply existsb_exists in E as [r [I R]].
  apply andb_true_iff in R as [R1 R2]. apply N.leb_le in R1, R2.
  unfold is_nd, in_ranges. apply existsb_exists. exists r. split; [exact I|]. apply between_spec. lia.
Qed.

Lemma lower_alnum_range c : is_lower_alnum c = true -> 97 <= c <= 122 \/ 48 <= c <= 57.
Proof. unfold is_lower_alnum. rewrite orb_true_iff, !between_spec. exact (fun H => H). Qed.

Lemma hexlower_lower_alnum c : is_hexlower c = true -> is_lower_alnum c = true.
Proof. unfold is_hexlower, is_lower_alnum. rewrite !orb_true_iff, !between_spec. lia. Qed.

Lemma digit_lower_alnum c : is_digit c = true -> is_lower_alnum c = true.
Proof. unfold is_digit, is_lower_alnum. intros H. rewrite H. apply orb_true_r. Qed.

Lemma digit_of_digits d : forallb is_digit (digit_of d) = true.
Proof. induction d; cbn; try reflexivity; exact IHd. Qed.

(* digit_of read backwards *)
Fixpoint undigit (s : list N) : uint :=
  match s with
  | [] => Nil
  | c :: s' => nth (N.to_nat (c - 48)) [D0; D1; D2; D3; D4; D5; D6; D7; D8] D9 (undigit s')
  end.

Lemma undigit_digit_of d : undigit (digit_of d) = d.
Proof. induction d; [reflexivity|..]; rewrite <- IHd at 2; reflexivity. Qed.

Lemma digit_of_inj d d' : digit_of d = digit_of d' -> d = d'.
Proof. intros H. rewrite <- (undigit_digit_of d), H. apply undigit_digit_of. Qed.

Lemma dec_nonnil k : dec k <> [].
Proof.
  unfold dec. destruct k as [|p]; [cbn; discriminate|].
  cbn [N.to_uint]. pose proof (Unsigned.to_uint_nonnil p) as H.
  destruct (Pos.to_uint p); [contradiction|..]; cbn; discriminate.
Qed.

Lemma dec_digits k : forallb is_digit (dec k) = true.
Proof. apply digit_of_digits. Qed.

Lemma dec_inj k k' : dec k = dec k' -> k = k'.
Proof. intros H. apply digit_of_inj in H. apply DecimalN.Unsigned.to_uint_inj. exact H. Qed.

Lemma marker_app rand name k rest :
  marker rand name k ++ rest = uniq_head ++ name ++ 45 :: dec k ++ 45 :: rand ++ qinu_tail ++ rest.
Proof. unfold marker. repeat (rewrite <- app_assoc || rewrite <- app_comm_cons). reflexivity. Qed.

(* a marker is 0x7f mid 0x7f *)
Definition marker_mid (rand name : list N) (k : N) : list N :=
  [85; 78; 73; 81; 45] ++ name ++ 45 :: dec k ++ 45 :: rand ++ [45; 81; 73; 78; 85].

Lemma marker_ends rand name k : marker rand name k = 127 :: marker_mid rand name k ++ [127].
Proof.
  unfold marker, marker_mid, uniq_head, qinu_tail. cbn [List.app]. f_equal.
  repeat (rewrite <- app_assoc || rewrite <- app_comm_cons). reflexivity.
Qed.

(* ... and mid consists of [a-z0-9] and the letters of "UNIQ-" *)
Definition mid_char (c : N) : Prop := is_lower_alnum c = true \/ In c [85; 78; 73; 81; 45].

Lemma marker_mid_chars rand name k : name_ok name -> hex_ok rand -> Forall mid_char (marker_mid rand name k).
Proof.
  intros [_ Hn] [_ Hr].
  assert (A : forall l, forallb is_lower_alnum l = true -> Forall mid_char l)
    by (intros l; apply Forall_forallb; intros c Hc; left; exact Hc).
  assert (C : forall l, incl l [85; 78; 73; 81; 45] -> Forall mid_char l)
    by (intros l Hl; apply Forall_forall; intros c Hc; right; exact (Hl c Hc)).
  unfold marker_mid.
  apply Forall_app. split; [apply C, incl_refl|].
  apply Forall_app. split; [exact (A _ Hn)|].
  constructor; [right; cbn; tauto|].
  apply Forall_app. split; [apply A; eapply forallb_impl; [apply digit_lower_alnum|apply dec_digits]|].
  constructor; [right; cbn; tauto|].
  apply Forall_app. split; [apply A; eapply forallb_impl; [apply hexlower_lower_alnum|exact Hr]|].
  apply C. intros c Hc. cbn in *. tauto.
Qed.

Lemma mid_char_range c : mid_char c -> 45 <= c <= 122.
Proof.
  intros [H|H]; [apply lower_alnum_range in H; lia|].
  cbn [In] in H. repeat (destruct H as [<-|H]; [lia|]). contradiction.
Qed.

Lemma marker_mid_avoids c rand name k : name_ok name -> hex_ok rand -> ~ 45 <= c <= 122 -> ~ In c (marker_mid rand name k).
Proof.
  intros Hn Hr Hc. apply (Forall_not_in mid_char); [apply marker_mid_chars; assumption|].
  intros M. exact (Hc (mid_char_range c M)).
Qed.

Lemma marker_no_nul rand name k : name_ok name -> hex_ok rand -> ~ In 0 (marker rand name k).
Proof.
  intros Hn Hr. rewrite marker_ends. intros [I|I]; [discriminate I|].
  apply in_app_or in I as [I|[I|[]]]; [|discriminate I].
  apply (marker_mid_avoids 0 rand name k Hn Hr); [lia|exact I].
Qed.

Lemma run_dash_app f a r : a <> [] -> forallb f a = true -> f 45 = false -> run_dash f (a ++ 45 :: r) = Some (a, r).
Proof.
  intros NE Ha H45. unfold run_dash. rewrite (span_app f a 45 r Ha H45).
  destruct a; [contradiction|]. rewrite N.eqb_refl. reflexivity.
Qed.

Lemma uniq_shape_marker fa fb fc a b c rest :
  a <> [] -> b <> [] -> c <> [] ->
  forallb fa a = true -> forallb fb b = true -> forallb fc c = true ->
  fa 45 = false -> fb 45 = false -> fc 45 = false ->
  uniq_shape fa fb fc (uniq_head ++ a ++ 45 :: b ++ 45 :: c ++ qinu_tail ++ rest)
  = Some (uniq_head ++ a ++ 45 :: b ++ 45 :: c ++ qinu_tail, rest).
Proof.
  intros Na Nb Nc Ha Hb Hc Fa Fb Fc. unfold uniq_shape.
  rewrite strip_prefix_app.
  rewrite (run_dash_app fa a _ Na Ha Fa).
  rewrite (run_dash_app fb b _ Nb Hb Fb).
  change (qinu_tail ++ rest) with (45 :: ([81; 73; 78; 85; 127] ++ rest)).
  rewrite (span_app fc c 45 _ Hc Fc).
  destruct c; [contradiction|].
  change (45 :: [81; 73; 78; 85; 127] ++ rest) with (qinu_tail ++ rest).
  rewrite strip_prefix_app. reflexivity.
Qed.

(* uniq.py's pattern and the scanner's t_uniq rule differ only in \d vs [0-9]; both accept a marker in full *)
Lemma uniq_shape_at_marker fb rand name k rest :
  name_ok name -> hex_ok rand -> (forall c, is_digit c = true -> fb c = true) -> fb 45 = false ->
  uniq_shape is_lower_alnum fb is_hexlower (marker rand name k ++ rest) = Some (marker rand name k, rest).
Proof.
  intros [Nn Hn] [Nr Hr] Hd H45. rewrite marker_app.
  apply uniq_shape_marker; try assumption; try reflexivity.
  - apply dec_nonnil.
  - eapply forallb_impl; [exact Hd|apply dec_digits].
Qed.

Lemma uniq_at_marker rand name k rest :
  name_ok name -> hex_ok rand -> uniq_at (marker rand name k ++ rest) = Some (marker rand name k, rest).
Proof. intros Hn Hr. apply uniq_shape_at_marker; [exact Hn|exact Hr|exact is_digit_nd|apply nd_table_ok]. Qed.

Lemma t_uniq_at_marker rand name k rest :
  name_ok name -> hex_ok rand -> t_uniq_at (marker rand name k ++ rest) = Some (marker rand name k, rest).
Proof. intros Hn Hr. apply uniq_shape_at_marker; [exact Hn|exact Hr|auto|reflexivity]. Qed.

Lemma split_unique (x : N) a a' r r' :
  ~ In x a -> ~ In x a' -> a ++ x :: r = a' ++ x :: r' -> a = a' /\ r = r'.
Proof.
  revert a'; induction a as [|y a IH]; intros a' Ha Ha' E.
  - destruct a' as [|y' a']; cbn in E.
    + inversion E; auto.
    + inversion E; subst. exfalso. apply Ha'. left. reflexivity.
  - destruct a' as [|y' a']; cbn in E.
    + inversion E; subst. exfalso. apply Ha. left. reflexivity.
    + inversion E; subst. destruct (IH a') as [-> ->]; auto.
      * intros I. apply Ha. right. exact I.
      * intros I. apply Ha'. right. exact I.
Qed.

Lemma marker_inj rand n k n' k' :
  name_ok n -> name_ok n' -> marker rand n k = marker rand n' k' -> n = n' /\ k = k'.
Proof.
  intros [_ Hn] [_ Hn'] E. unfold marker in E. apply app_inv_head in E.
  apply split_unique in E as [-> E].
  - split; [reflexivity|]. apply split_unique in E as [E _].
    + apply dec_inj. exact E.
    + eapply forallb_not_in; [apply dec_digits|reflexivity].
    + eapply forallb_not_in; [apply dec_digits|reflexivity].
  - eapply forallb_not_in; [exact Hn|reflexivity].
  - eapply forallb_not_in; [exact Hn'|reflexivity].
Qed.

Definition inert_char (c : N) : Prop := is_split_special c = false /\ c <> 62 /\ is_ws c = false.

Lemma inert_range c : 33 <= c <= 127 -> is_split_special c = false -> c <> 62 -> inert_char c.
Proof. intros R S G. split; [exact S|]. split; [exact G|]. apply is_ws_printable. exact R. Qed.

Lemma mid_char_inert c : mid_char c -> inert_char c.
Proof.
  intros [H|H].
  - apply lower_alnum_range in H. apply inert_range; [lia| |lia].
    unfold is_split_special. repeat (apply orb_false_iff; split); apply N.eqb_neq; lia.
  - cbn [In] in H. repeat (destruct H as [<-|H]; [apply inert_range; [lia|reflexivity|lia]|]). contradiction.
Qed.

Lemma marker_inert rand name k : name_ok name -> hex_ok rand -> Forall inert_char (marker rand name k).
Proof.
  intros Hn Hr. rewrite marker_ends.
  assert (E : inert_char 127) by (apply inert_range; [lia|reflexivity|lia]).
  constructor; [exact E|]. apply Forall_app. split; [|constructor; [exact E|constructor]].
  eapply Forall_impl; [exact mid_char_inert|apply marker_mid_chars; assumption].
Qed.

Lemma text_token_through a b :
  Forall (fun c => is_split_special c = false) a ->
  text_token (a ++ b) = (a ++ fst (text_token b), snd (text_token b)).
Proof.
  intros Ha. unfold text_token. induction a as [|c a IH]; cbn [List.app].
  - destruct (span _ b); reflexivity.
  - inversion Ha as [|? ? Hc Ha']; subst. cbn [span]. rewrite Hc. cbn [negb].
    rewrite (IH Ha'). reflexivity.
Qed.

Lemma lstrip_head c s : is_ws c = false -> lstrip (c :: s) = c :: s.
Proof. intros H. cbn [lstrip]. rewrite H. reflexivity. Qed.

Lemma strip_marker rand name k : strip (marker rand name k) = marker rand name k.
Proof.
  rewrite marker_ends. generalize (marker_mid rand name k). intros mid. unfold strip.
  assert (W : is_ws 127 = false) by (apply is_ws_printable; lia).
  rewrite (lstrip_head _ _ W).
  change (127 :: mid ++ [127]) with ((127 :: mid) ++ [127]).
  rewrite rev_app_distr. cbn [List.rev List.app]. rewrite (lstrip_head _ _ W).
  change (127 :: List.rev mid ++ [127]) with ([127] ++ (List.rev mid ++ [127])).
  rewrite rev_app_distr, rev_app_distr, rev_involutive. reflexivity.
Qed.

Lemma uniq_at_head c s : c <> 127 -> uniq_at (c :: s) = None.
Proof.
  intros H. unfold uniq_at, uniq_shape, uniq_head. cbn [strip_prefix].
  destruct (N.eqb_spec 127 c) as [E|_]; [congruence|reflexivity].
Qed.

Lemma restore_go_plain T a o : ~ In 127 a -> restore_go T (a ++ o) 0 = a ++ restore_go T o 0.
Proof.
  induction a as [|c a IH]; intros H; [reflexivity|].
  cbn [List.app restore_go]. rewrite uniq_at_head by (intros ->; apply H; left; reflexivity).
  f_equal. apply IH. intros I. apply H. right. exact I.
Qed.

Lemma restore_go_marker T rand name k e o :
  name_ok name -> hex_ok rand -> lookup (marker rand name k) T = Some e ->
  restore_go T (marker rand name k ++ o) 0 = e_complete e ++ restore_go T o 0.
Proof.
  intros Hn Hr L. pose proof (uniq_at_marker rand name k o Hn Hr) as U.
  pose proof (marker_ends rand name k) as E.
  remember (marker rand name k) as mk. rewrite E in U |- *. cbn [List.app restore_go] in *.
  rewrite U. rewrite <- E, L. f_equal.
  rewrite E. cbn [length pred]. apply (go_skip (restore_go T)). reflexivity.
Qed.

Lemma protect_segs_cons rand k x l :
  protect_segs rand k (x :: l) =
  match x with
  | Plain c => (c :: fst (protect_segs rand k l), snd (protect_segs rand k l))
  | Comment _ repl => (repl ++ fst (protect_segs rand k l), snd (protect_segs rand k l))
  | Tag _ e => (marker rand (e_tag e) k ++ fst (protect_segs rand (k + 1) l),
                (marker rand (e_tag e) k, e) :: snd (protect_segs rand (k + 1) l))
  end.
Proof.
  destruct x; cbn [protect_segs];
    [destruct (protect_segs rand k l)|destruct (protect_segs rand k l)|destruct (protect_segs rand (k + 1) l)];
    reflexivity.
Qed.

Definition seg_restorable (x : seg) : Prop :=
  match x with
  | Plain c => c <> 127
  | Comment _ repl => ~ In 127 repl
  | Tag _ e => name_ok (e_tag e)
  end.

(* every marker of l, numbered from k, is a key of T for its own entry *)
Fixpoint tbl_ok (T : list (list N * entry)) (rand : list N) (k : N) (l : list seg) : Prop :=
  match l with
  | [] => True
  | Tag _ e :: l' => lookup (marker rand (e_tag e) k) T = Some e /\ tbl_ok T rand (k + 1) l'
  | _ :: l' => tbl_ok T rand k l'
  end.

Lemma restore_protect_segs rand T : hex_ok rand -> forall segs k,
  Forall seg_restorable segs -> tbl_ok T rand k segs ->
  restore_go T (fst (protect_segs rand k segs)) 0 = concat (map seg_restored segs).
Proof.
  intros Hr. induction segs as [|x segs IH]; intros k F TB; [reflexivity|].
  inversion F as [|? ? Hx F']; subst. rewrite protect_segs_cons.
  destruct x as [c|src repl|src e]; cbn [fst map concat seg_restored seg_restorable tbl_ok] in *.
  - change (c :: fst (protect_segs rand k segs)) with ([c] ++ fst (protect_segs rand k segs)).
    rewrite restore_go_plain, (IH k F' TB); [reflexivity|]. intros [I|[]]. exact (Hx I).
  - rewrite restore_go_plain, (IH k F' TB); [reflexivity|exact Hx].
  - destruct TB as [L TB]. rewrite (restore_go_marker T rand (e_tag e) k e _ Hx Hr L), (IH (k + 1) F' TB). reflexivity.
Qed.

Lemma lookup_app_skip m T0 T :
  (forall key e, In (key, e) T0 -> key <> m) -> lookup m (T0 ++ T) = lookup m T.
Proof.
  induction T0 as [|[key e] T0 IH]; intros H; [reflexivity|]. cbn [List.app lookup].
  destruct (str_eqb key m) eqn:E.
  - apply str_eqb_spec in E. exfalso. eapply H; [left; reflexivity|exact E].
  - apply IH. intros key' e' I. eapply H. right. exact I.
Qed.

(* T0 = the entries of earlier calls: their counters lie below k *)
Definition keys_below (rand : list N) (k : N) (T0 : list (list N * entry)) : Prop :=
  forall key e, In (key, e) T0 -> exists n j, name_ok n /\ j < k /\ key = marker rand n j.

Lemma tbl_ok_self rand : forall segs k T0,
  keys_below rand k T0 -> Forall seg_restorable segs ->
  tbl_ok (T0 ++ snd (protect_segs rand k segs)) rand k segs.
Proof.
  induction segs as [|x segs IH]; intros k T0 KB F; [exact I|].
  inversion F as [|? ? Hx F']; subst. rewrite protect_segs_cons.
  destruct x as [c|src repl|src e]; cbn [snd tbl_ok seg_restorable] in *; try exact (IH k T0 KB F').
  split.
  - rewrite lookup_app_skip.
    + cbn [lookup]. rewrite str_eqb_refl. reflexivity.
    + intros key e' I Eq. destruct (KB key e' I) as [n [j [Hn [Hj ->]]]].
      apply marker_inj in Eq as [_ ->]; [lia|exact Hn|exact Hx].
  - specialize (IH (k + 1) (T0 ++ [(marker rand (e_tag e) k, e)])).
    rewrite <- app_assoc in IH. apply IH; [|exact F'].
    intros key e' I. apply in_app_or in I as [I|I].
    + destruct (KB key e' I) as [n [j [Hn [Hj ->]]]]. exists n, j. split; [exact Hn|]. split; [lia|reflexivity].
    + destruct I as [I|[]]. inversion I; subst. exists (e_tag e'), k. split; [exact Hx|]. split; [lia|reflexivity].
Qed.

(* the round trip over any list of segments, with the table of earlier calls in front of the new entries:
   this is how Uniquifier.uniq2repl grows from one replace_tags call to the next *)
Lemma restore_protect_table rand k T0 segs :
  hex_ok rand -> keys_below rand k T0 -> Forall seg_restorable segs ->
  restore_go (T0 ++ snd (protect_segs rand k segs)) (fst (protect_segs rand k segs)) 0
  = concat (map seg_restored segs).
Proof.
  intros Hr KB F. apply restore_protect_segs; [exact Hr|exact F|]. apply tbl_ok_self; assumption.
Qed.

Definition exotic (c : N) : bool :=
  existsb (fun p => fst p =? c) fold_extra || existsb (fun p => fst p =? c) py_lower_extra.
Definition no_exotic (t : list N) : Prop := forallb (fun c => negb (exotic c)) t = true.

Lemma assocN_none {A} c (l : list (N * A)) : existsb (fun p => fst p =? c) l = false -> assocN c l = None.
Proof.
  induction l as [|[k v] l IH]; cbn; [reflexivity|]. intros H.
  apply orb_false_iff in H as [H1 H2]. rewrite H1. apply IH. exact H2.
Qed.

Lemma ci_lit_plain l c : exotic c = false -> ci_lit l c = true -> ascii_lower c = l /\ py_lower1 c = [l].
Proof.
  unfold exotic, ci_lit, py_lower1. intros X H. apply orb_false_iff in X as [X1 X2].
  rewrite (assocN_none c _ X2).
  assert (E : existsb (fun p => (fst p =? c) && (snd p =? l)) fold_extra = false).
  { destruct (existsb (fun p => (fst p =? c) && (snd p =? l)) fold_extra) eqn:E; [|reflexivity].
    apply existsb_exists in E as [p [I P]]. apply andb_true_iff in P as [P _].
    assert (Y : existsb (fun p => fst p =? c) fold_extra = true) by (apply existsb_exists; exists p; auto).
    congruence. }
  rewrite E, orb_false_r in H. apply N.eqb_eq in H. rewrite H. auto.
Qed.

Lemma py_lower_plain name m :
  Forall2 (fun l c => ci_lit l c = true) name m -> forallb (fun c => negb (exotic c)) m = true -> py_lower m = name.
Proof.
  induction 1 as [|l c name m L F IH]; intros X; [reflexivity|].
  cbn [forallb] in X. apply andb_true_iff in X as [Xc X]. apply negb_true_iff in Xc.
  unfold py_lower in *. cbn [flat_map]. destruct (ci_lit_plain l c Xc L) as [_ ->]. cbn [List.app]. f_equal. apply IH. exact X.
Qed.

Lemma seg_source_in_text t x : In x (segments t) -> incl (seg_source x) t.
Proof.
  intros I c Hc. rewrite <- (segments_tile t). apply in_concat.
  exists (seg_source x). split; [apply in_map; exact I|exact Hc].
Qed.

Lemma tag_occurrence_incl name m vl inner whole : tag_occurrence name m vl inner whole -> incl m whole.
Proof.
  intros [_ [[-> _]|[cl [-> _]]]] c Hc; right; apply in_or_app; left; exact Hc.
Qed.

(* without exotic code points the recorded tag name is the name of the tag set that matched *)
Definition seg_tag_known (x : seg) : Prop :=
  match x with Tag _ e => In (e_tag e) tag_names | _ => True end.

Lemma segments_tag_known t : no_exotic t -> Forall seg_tag_known (segments t).
Proof.
  intros HX. apply Forall_forall. intros x Hx.
  pose proof (segments_ok t) as OK. rewrite Forall_forall in OK. specialize (OK x Hx).
  destruct x as [c|src repl|src e]; try exact I.
  destruct OK as [name [m [IN [OCC [ET _]]]]]. cbn [seg_tag_known]. rewrite ET.
  rewrite (py_lower_plain name m); [exact IN|exact (proj1 OCC)|].
  eapply forallb_incl; [|exact HX]. intros c Hc.
  apply (seg_source_in_text t _ Hx). exact (tag_occurrence_incl _ _ _ _ _ OCC c Hc).
Qed.

Lemma segments_restorable t : ~ In 127 t -> no_exotic t -> Forall seg_restorable (segments t).
Proof.
  intros H127 HX. apply Forall_forall. intros x Hx.
  pose proof (segments_ok t) as OK. pose proof (segments_tag_known t HX) as TK.
  rewrite Forall_forall in OK, TK. specialize (OK x Hx). specialize (TK x Hx).
  pose proof (seg_source_in_text t x Hx) as INC.
  destruct x as [c|src repl|src e]; cbn [seg_restorable seg_source] in *.
  - intros ->. apply H127, INC. left. reflexivity.
  - intros I. destruct (OK _ I) as [E|I']; [discriminate|]. exact (H127 (INC _ I')).
  - apply tag_names_ok. exact TK.
Qed.

Lemma restore_protect rand k t :
  hex_ok rand -> ~ In 127 t -> no_exotic t ->
  restore (snd (protect rand k t)) (fst (protect rand k t)) = concat (map seg_restored (segments t)).
Proof.
  intros Hr H127 HX. apply (restore_protect_table rand k []); [exact Hr|intros key e []|].
  apply segments_restorable; assumption.
Qed.

Lemma seg_ok_complete src e :
  seg_ok (Tag src e) -> e_complete e = if str_eqb (e_tag e) nowiki then e_inner e else src.
Proof. intros [_ [_ [_ [_ [_ E]]]]]. exact E. Qed.

(* lossless part: a segment restores to its own source unless it is a comment or a nowiki region *)
Definition seg_lossless (x : seg) : Prop :=
  match x with
  | Plain _ => True
  | Comment _ _ => False
  | Tag _ e => e_tag e <> nowiki
  end.

Lemma seg_lossless_restored x : seg_ok x -> seg_lossless x -> seg_restored x = seg_source x.
Proof.
  destruct x as [c|src repl|src e]; cbn [seg_lossless seg_restored seg_source]; [reflexivity|contradiction|].
  intros OK LL. rewrite (seg_ok_complete src e OK).
  destruct (str_eqb (e_tag e) nowiki) eqn:E; [|reflexivity]. apply str_eqb_spec in E. contradiction.
Qed.

Fixpoint tag_entries (l : list seg) : list entry :=
  match l with [] => [] | Tag _ e :: l' => e :: tag_entries l' | _ :: l' => tag_entries l' end.
Fixpoint markers_from (rand : list N) (k : N) (es : list entry) : list (list N) :=
  match es with [] => [] | e :: es' => marker rand (e_tag e) k :: markers_from rand (k + 1) es' end.

Lemma protect_segs_table rand : forall l k,
  map snd (snd (protect_segs rand k l)) = tag_entries l /\
  map fst (snd (protect_segs rand k l)) = markers_from rand k (tag_entries l).
Proof.
  induction l as [|x l IH]; intros k; [split; reflexivity|]. rewrite protect_segs_cons.
  destruct x as [c|src repl|src e]; cbn [snd tag_entries]; try exact (IH k).
  destruct (IH (k + 1)) as [A B]. cbn [map fst snd markers_from]. rewrite A, B. split; reflexivity.
Qed.

(* the occurrence in the source that a Tag segment stands for *)
Definition seg_verbatim (x : seg) : Prop :=
  match x with
  | Tag src e => exists name m, In name tag_names /\ tag_occurrence name m (e_vlist e) (e_inner e) src /\ e_tag e = py_lower m
  | _ => True
  end.

Lemma seg_ok_verbatim x : seg_ok x -> seg_verbatim x.
Proof.
  destruct x as [c|src repl|src e]; try (intros _; exact I).
  intros [name [m [I [O [E _]]]]]. exists name, m. auto.
Qed.

(* the protected text: plain characters in order, comment replacements, markers *)
Definition seg_protected (rand : list N) (x : seg * N) : list N :=
  match fst x with Plain c => [c] | Comment _ repl => repl | Tag _ e => marker rand (e_tag e) (snd x) end.

Lemma tag_entries_known l : Forall seg_tag_known l -> Forall (fun e => In (e_tag e) tag_names) (tag_entries l).
Proof.
  induction 1 as [|x l Hx F IH]; [constructor|].
  destruct x; cbn [tag_entries]; [exact IH|exact IH|constructor; [exact Hx|exact IH]].
Qed.

Lemma markers_from_known rand : forall es k, Forall (fun e => In (e_tag e) tag_names) es ->
  Forall (fun key => exists name j, In name tag_names /\ key = marker rand name j) (markers_from rand k es).
Proof.
  induction es as [|e es IH]; intros k F; [constructor|]. inversion F as [|? ? He F']; subst.
  constructor; [exists (e_tag e), k; split; [exact He|reflexivity]|exact (IH (k + 1) F')].
Qed.

(* the keys replace_tags hands out are markers of names of the tag set; no 0x7f-freeness is needed for that *)
Lemma protect_markers_known rand k t : no_exotic t ->
  Forall (fun key => exists name j, In name tag_names /\ key = marker rand name j) (map fst (snd (protect rand k t))).
Proof.
  intros HX. unfold protect. rewrite (proj2 (protect_segs_table rand (segments t) k)).
  apply markers_from_known, tag_entries_known, segments_tag_known. exact HX.
Qed.

Lemma markers_from_tags rand : forall es1 es2 k,
  map e_tag es1 = map e_tag es2 -> markers_from rand k es1 = markers_from rand k es2.
Proof.
  induction es1 as [|e1 es1 IH]; intros es2 k H; destruct es2 as [|e2 es2]; try discriminate; [reflexivity|].
  cbn [map] in H. inversion H as [[H1 H2]]. cbn [markers_from]. rewrite H1. f_equal. apply IH. exact H2.
Qed.

(* A transcription BY HAND of the not_bol block of _uscan.re, every rule except t_uniq and the catch-all dot: first
   characters 0xEBAD, [ (urllink), m i n f h (mailto irc news ftp http), _ (magicword, underscores), alphanumerics,
   [[ ]] [ ] : | , = , LF , ! (for !!), apostrophe, < , & , NUL.  Nothing relates this test or url_char to
   C10.Gen_rules; the two serve only the 0x7f conjuncts of C09_marker_shape.  What the generated table does at a 0x7f
   is main_others_short and rules_cross_ok (Scanner.v). *)
Definition starts_other_rule (c : N) : bool :=
  (c =? 60333) || (c =? 91) || (c =? 93) || (c =? 95) || (c =? 61) || (c =? 10) || (c =? 124) || (c =? 33) ||
  (c =? 58) || (c =? 39) || (c =? 60) || (c =? 38) || (c =? 0) ||
  ((48 <=? c) && (c <=? 57)) || ((65 <=? c) && (c <=? 90)) || ((97 <=? c) && (c <=? 122)).
(* url = http s? :// followed by a non-empty run of the class excluding ] [ < > double-quote, 0x00-0x20 and 0x7F:
   the class that could otherwise run into a marker *)
Definition url_char (c : N) : bool :=
  negb ((c =? 93) || (c =? 91) || (c =? 60) || (c =? 62) || (c =? 34) || (c <=? 32) || (c =? 127)).
