(* C09/PreProofs.v -- <pre> bodies: only nowiki pairs WRITTEN in the body are dropped; what entity decoding produces stays. *)
From Coq Require Import List NArith ZArith Bool Lia Arith.
From MW Require Import Common.Str C01.Model C01.Gen_resolve C09.Gen_tables C09.Model C09.EntModel C09.EntProofs C09.PreModel.
From MW Require C09.Proofs.
Import ListNotations.
Open Scope N_scope.

Lemma ci_prefix_u_spec : forall pat s m r, ci_prefix_u pat s = Some (m, r) ->
  s = m ++ r /\ length m = length pat /\ Forall2 (fun l c => ci_lit_u l c = true) pat m.
Proof.
  induction pat as [|l pat IH]; intros s m r H.
  - destruct s; cbn in H; inversion H; subst; repeat split; constructor.
  - destruct s as [|c s']; [discriminate|]. cbn [ci_prefix_u] in H.
    destruct (ci_lit_u l c) eqn:E; [|discriminate].
    destruct (ci_prefix_u pat s') as [[m' r']|] eqn:E2; [|discriminate].
    inversion H; subst. destruct (IH _ _ _ E2) as (A & B & C).
    split; [cbn [app]; f_equal; exact A|]. split; [cbn [length]; f_equal; exact B|].
    constructor; assumption.
Qed.

Lemma find_ci_spec : forall pat s b m r, find_ci pat s = Some (b, m, r) ->
  s = b ++ m ++ r /\ length m = length pat /\ Forall2 (fun l c => ci_lit_u l c = true) pat m.
Proof.
  intros pat. induction s as [|c s IH]; intros b m r H.
  - cbn [find_ci] in H. destruct (ci_prefix_u pat []) as [[m' r']|] eqn:E; [|discriminate].
    inversion H; subst. exact (ci_prefix_u_spec _ _ _ _ E).
  - cbn [find_ci] in H. destruct (ci_prefix_u pat (c :: s)) as [[m' r']|] eqn:E.
    + inversion H; subst. exact (ci_prefix_u_spec _ _ _ _ E).
    + destruct (find_ci pat s) as [[[b' m'] r']|] eqn:E2; [|discriminate].
      inversion H; subst. destruct (IH _ _ _ eq_refl) as (A & B & C).
      split; [cbn [app]; f_equal; exact A|]. split; assumption.
Qed.

(* a match: its opening / closing parts are "<nowiki>" / "</nowiki>" up to letter case *)
Definition nseg_shape (x : nseg) : Prop :=
  match x with
  | NPlain _ => True
  | NPair op _ cl => Forall2 (fun l c => ci_lit_u l c = true) open_pat op /\ Forall2 (fun l c => ci_lit_u l c = true) close_pat cl
  end.

Lemma nsegments_spec s : concat (map nseg_src (nsegments s)) = s /\ Forall nseg_shape (nsegments s).
Proof.
  apply (C09.Proofs.go_tiles nseg_src nseg_shape nsegments_go); [reflexivity | reflexivity |].
  intros c s'. cbn [nsegments_go].
  assert (Pl : C09.Proofs.head_at nseg_src nseg_shape nsegments_go c s' (NPlain c :: nsegments_go s' 0))
    by (apply C09.Proofs.head_at_single; [reflexivity | exact I]).
  destruct (ci_prefix_u open_pat (c :: s')) as [[op r]|] eqn:Eo; [|exact Pl].
  destruct (find_ci close_pat r) as [[[inner cl] rest]|] eqn:Ec; [|exact Pl].
  destruct (ci_prefix_u_spec _ _ _ _ Eo) as (A1 & L1 & F1).
  destruct (find_ci_spec _ _ _ _ _ Ec) as (A2 & L2 & F2).
  exists (NPair op inner cl), rest. cbn [nseg_src nseg_shape].
  split; [reflexivity|]. split; [rewrite A1, A2, <- !app_assoc; reflexivity|]. split; [|split; assumption].
  destruct op; discriminate.
Qed.

(* finite obligation on the generated fold table: no non-ASCII code point folds onto "<" *)
Lemma fold_table_no_lt : forallb (fun p => negb (snd p =? 60)) nowiki_fold_extra = true.
Proof. vm_compute. reflexivity. Qed.

Lemma ci_lit_u_lt c : ci_lit_u 60 c = true -> c = 60.
Proof.
  unfold ci_lit_u. intros H. apply orb_true_iff in H. destruct H as [H | H].
  - apply N.eqb_eq in H. unfold ascii_lower in H. destruct (is_upper_ascii c) eqn:E; [|exact H].
    unfold is_upper_ascii in E. apply andb_true_iff in E. destruct E as [E1 E2].
    apply N.leb_le in E1. apply N.leb_le in E2. lia.
  - exfalso. apply existsb_exists in H. destruct H as (p & Hin & Hp).
    apply andb_true_iff in Hp. destruct Hp as [_ Hp].
    pose proof fold_table_no_lt as T. rewrite forallb_forall in T. specialize (T p Hin).
    rewrite Hp in T. discriminate.
Qed.

Lemma nsegments_no_lt : forall s, ~ In 60 s -> nsegments_go s 0 = map NPlain s.
Proof.
  induction s as [|c s IH]; intros H; [reflexivity|].
  cbn [nsegments_go map].
  assert (Hc : c <> 60) by (intros E; apply H; left; exact E).
  assert (Hs : ~ In 60 s) by (intros E; apply H; right; exact E).
  destruct (ci_prefix_u open_pat (c :: s)) as [[op r]|] eqn:Eo.
  - exfalso. unfold open_pat in Eo. cbn [ci_prefix_u] in Eo.
    destruct (ci_lit_u 60 c) eqn:E; [|discriminate]. apply Hc. exact (ci_lit_u_lt c E).
  - rewrite (IH Hs). reflexivity.
Qed.

Lemma remove_nowiki_no_lt s : ~ In 60 s -> remove_nowiki_tags s = s.
Proof.
  intros H. unfold remove_nowiki_tags, nsegments. rewrite (nsegments_no_lt s H).
  induction s as [|c s IH]; [reflexivity|]. cbn [map concat nseg_out app]. f_equal. apply IH.
  intros E. apply H. right. exact E.
Qed.

(* names used by the examples: lt gt amp *)
Definition ex_names3 (s : str) : option Z :=
  if str_eqb s [108; 116] then Some 60%Z else if str_eqb s [103; 116] then Some 62%Z
  else if str_eqb s [97; 109; 112] then Some 38%Z else None.

(* <pre>&lt;nowiki&gt;[[x]]&#60;/NOWIKI&#x3e; <NoWiki>&amp;lt;</nowiKi></pre> (K = U+212A when it folds)
   -> "<nowiki>[[x]]</NOWIKI> &lt;" : the entity-written pair stays (as text), the written pair is dropped, &amp;lt; is decoded once *)
Definition ex_pre_body : str :=
  [38;108;116;59] ++ [110;111;119;105;107;105] ++ [38;103;116;59] ++ [91;91;120;93;93] ++
  [38;35;54;48;59] ++ [47;78;79;87;73;75;73] ++ [38;35;120;51;101;59] ++ [32] ++
  [60;78;111;87;105;107;105;62] ++ [38;97;109;112;59;108;116;59] ++ [60;47;110;111;119;105;75;105;62].
Definition ex_pre_out : str :=
  [60;110;111;119;105;107;105;62] ++ [91;91;120;93;93] ++ [60;47;78;79;87;73;75;73;62] ++ [32] ++ [38;108;116;59].

