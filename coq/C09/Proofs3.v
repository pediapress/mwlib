(* C09 -- the protected text, read off the segmentation. *)
From Coq Require Import List NArith.
From MW Require Import C09.Model C09.Proofs2.
Import ListNotations.
Open Scope N_scope.

(* counters as get_uniq hands them out: one per Tag segment *)
Fixpoint numbered (k : N) (l : list seg) : list (seg * N) :=
  match l with
  | [] => []
  | Tag s e :: l' => (Tag s e, k) :: numbered (k + 1) l'
  | x :: l' => (x, k) :: numbered k l'
  end.

Lemma protect_text rand : forall l k,
  fst (protect_segs rand k l) = concat (map (seg_protected rand) (numbered k l)).
Proof.
  induction l as [|x l IH]; intros k; [reflexivity|]. rewrite protect_segs_cons.
  destruct x as [c|src repl|src e]; cbn [fst numbered map concat]; rewrite IH; reflexivity.
Qed.

(* non-vacuity: "a\n<!--c-->\nb<nowiki>''x''</nowiki><MATH a=1>y</math >z" with rand = "0a", counter 7 *)
Definition ex_text : list N :=
  [97; 10; 60; 33; 45; 45; 99; 45; 45; 62; 10; 98;
   60; 110; 111; 119; 105; 107; 105; 62; 39; 39; 120; 39; 39; 60; 47; 110; 111; 119; 105; 107; 105; 62;
   60; 77; 65; 84; 72; 32; 97; 61; 49; 62; 121; 60; 47; 109; 97; 116; 104; 32; 62; 122].
