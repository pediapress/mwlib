(* C18 — the property theorems, each followed by Print Assumptions; what they rest on is in the Proofs* and Bisim*
   files of C18 and in the lemma files of C16 and C17. *)
From Coq Require Import List NArith Bool.
From MW Require Import C16.Model C16.Proofs C17.Proofs C17.ProofsOrder C18.Proofs C18.ProofsIds C18.ProofsInv C18.ProofsTimeout C17.ProofsLive C18.BisimBase C18.BisimRequeue C18.Bisim.
Import ListNotations.
Open Scope N_scope.

(* restart s = restore (save s): workq.__getstate__/__setstate__ + job.__getstate__/__setstate__.
   For ANY state s and any job registered in id2job: the restarted server has the job record
   verbatim (id, channel, priority, deadline, done, error, result, info, ttl), the same id counter
   (ids are not reused), no connection, no waiter, nothing pending in the hub; and an unfinished job
   - including one that was in a worker's running_jobs or in a mailbox - is queued in its own channel
   under its (priority, serial) key and is on the timeout heap with its original deadline. *)
Theorem C18_restart_preserves : forall s i x j,
  id_lookup (s_ids s) i = Some x -> getjob (s_jobs s) x = Some j ->
  let s' := restart s in
  In j (s_jobs s') /\ s_count s' = s_count s /\ s_conns s' = [] /\ s_waiters s' = [] /\ s_hub s' = [] /\
  (j_done j = false ->
     In (j_prio j, j_serial j) (qget (s_queues s') (j_chan j)) /\
     In (j_timeout j, (j_prio j, j_serial j)) (s_tq s')).
Proof. exact restart_preserves. Qed.
Print Assumptions C18_restart_preserves.

(* the whole restarted state: counter, job table = the saved list, everything else empty *)
Theorem C18_restore_state : forall now sv,
  let s := restore now sv in
  s_count s = fst sv /\ s_jobs s = snd sv /\ s_conns s = [] /\ s_waiters s = [] /\ s_hub s = [] /\
  s_now s = now /\ s_cnt s = [].
Proof. exact restore_state. Qed.
Print Assumptions C18_restore_state.

(* "job ids are not reused for new jobs": two adds without id, anywhere in any history with any number of
   restarts in between (rrun: ops and Restart = restore (save s)),
   starting from ANY state: the later one gets a strictly larger server-chosen id.  (The counter is pickled;
   it is never recomputed from the jobs that happen to be stored - dropped jobs would make that too small.) *)
Theorem C18_ids_not_reused : forall s ch prio tmo h ch' prio' tmo' n n',
  snd (step s (Add ch prio None tmo)) = [OJid (JAuto n)] ->
  let s' := rrun h (fst (step s (Add ch prio None tmo))) in
  snd (step s' (Add ch' prio' None tmo')) = [OJid (JAuto n')] ->
  n < n'.
Proof.
  intros s ch prio tmo h ch' prio' tmo' n n' H1 s' H2.
  destruct (add_auto_id s ch prio tmo) as [E1 C1]. destruct (add_auto_id s' ch' prio' tmo') as [E2 _].
  rewrite E1 in H1. rewrite E2 in H2. inversion H1; inversion H2; subst.
  rewrite (N.add_1_r (s_count s')). apply N.lt_succ_r. rewrite <- C1. apply count_rrun.
Qed.
Print Assumptions C18_ids_not_reused.

(* clients waiting on a restored finished job are released at once (in any state, hence also
   after a restart: finish events are re-created set for done jobs) *)
Theorem C18_wait_immediate : forall s c i ser j,
  is_idle c s = true -> id_lookup (s_ids s) i = Some ser -> getjob (s_jobs s) ser = Some j -> j_done j = true ->
  j_drop j = false ->                       (* nobody called rpc_qdrop on it *)
  step s (Wait c i) = (s, [OReleased c j]).
Proof. exact wait_done_immediate. Qed.
Print Assumptions C18_wait_immediate.

(* The restarted state satisfies the queue invariants again.  RGood = Good (C16: Aux, HubOK, Inv) + QS (C17: channel
   queues sorted) + IdsOK (id2job has one entry per key and every entry (i, x) names an existing job object whose own
   jobid is i, so distinct ids map to distinct serials and the saved list has no duplicates).  It holds initially, every
   op of the full alphabet preserves it, and so does Restart = restore (save s): it holds in every state reachable by
   histories with restarts at arbitrary positions (rrun), in particular in restore (save s) of every reachable s. *)
Theorem C18_invariant_inductive_with_restarts :
  RGood init /\ (forall s o, RGood s -> RGood (fst (step s o))) /\ (forall s, RGood s -> RGood (restart s)).
Proof. exact (conj rgood_init (conj step_rgood restart_rgood)). Qed.
Print Assumptions C18_invariant_inductive_with_restarts.

Theorem C18_restart_satisfies_invariant : forall h,
  let s := rrun h init in Inv (restart s) [] [] /\ Aux (restart s) /\ HubOK (restart s) /\ QS (restart s).
Proof. intros h s. destruct (restart_rgood s (rreachable_rgood h)) as ((A&K&I)&Q&_). auto. Qed.
Print Assumptions C18_restart_satisfies_invariant.

(* hence C16's conservation holds for every history with restarts: every accepted unfinished job is in exactly one
   place, is the job registered under its id, and if queued is queued in its own channel with its own priority *)
Theorem C18_conservation_with_restarts : forall h x j,
  let s := rrun h init in
  getjob (s_jobs s) x = Some j -> j_done j = false ->
  (in_queues s x + with_workers s x = 1)%nat /\
  id_lookup (s_ids s) (j_id j) = Some x /\
  (forall k q p, In (k, q) (s_queues s) -> In (p, x) q -> k = j_chan j /\ p = j_prio j).
Proof. intros h x j. apply conservation_inv. apply (rreachable_rgood h). Qed.
Print Assumptions C18_conservation_with_restarts.

(* ... and C17's delivery rules: eligible + never finished + (priority, serial)-minimum first, after any restarts *)
Theorem C18_delivered_eligible_and_unfinished_with_restarts : forall h o c chs j,
  In (ODeliver c chs j) (snd (step (rrun h init) o)) ->
  j_done j = false /\ (chs = [] \/ mem (j_chan j) chs = true).
Proof. intros h o c chs j H. destruct (rreachable_rgood h) as ((_&K&I)&_). exact (step_out _ _ _ K I H). Qed.
Print Assumptions C18_delivered_eligible_and_unfinished_with_restarts.

Theorem C18_min_first_with_restarts : forall h c chs j,
  let s := rrun h init in
  In (ODeliver c chs j) (snd (step s (StartPull c chs))) ->
  forall k q p x, q_get (s_queues s) k = Some q -> (chs = [] \/ mem k chs = true) -> In (p, x) q ->
  is_done (s_jobs s) x = false -> key_lt (p, x) (j_prio j, j_serial j) = false.
Proof. intros h c chs j s. destruct (rreachable_rgood h) as ((_&_&I)&Q&_). apply min_first_state; assumption. Qed.
Print Assumptions C18_min_first_with_restarts.

(* ... as the two client-visible rules, for histories with any number of restarts: priority first, FIFO (serial,
   which restarts preserve: C18_ids_not_reused) within one priority. *)
Theorem C18_priority_then_fifo_with_restarts : forall h c chs j,
  let s := rrun h init in
  In (ODeliver c chs j) (snd (step s (StartPull c chs))) ->
  forall k q p x, q_get (s_queues s) k = Some q -> (chs = [] \/ mem k chs = true) -> In (p, x) q ->
  is_done (s_jobs s) x = false -> j_prio j <= p /\ (p = j_prio j -> j_serial j <= x).
Proof.
  intros h c chs j s Hd k q p x Hq Hc Hin Hu. apply key_not_lt_prio_fifo.
  exact (C18_min_first_with_restarts h c chs j Hd k q p x Hq Hc Hin Hu).
Qed.
Print Assumptions C18_priority_then_fifo_with_restarts.

(* "Unfinished jobs (including ones a worker had pulled but not finished) are pullable again in the same
   priority/FIFO order": in restore (save s), for any s reachable with the full alphabet and earlier restarts, what a
   pull hands out at once is unfinished and not larger, in the order (priority, serial) the jobs had BEFORE the restart
   (records are restored verbatim, restart_job_table), than any job that was registered in id2job and unfinished before
   the restart on a requested channel - whether it was queued, in a hand-off mailbox or held by a worker; and the pull
   blocks only when there was no such job. *)
Theorem C18_pullable_again_in_order : forall s c chs j, RGood s ->
  let s' := restart s in
  In (ODeliver c chs j) (snd (step s' (StartPull c chs))) ->
  j_done j = false /\
  forall i x jx, id_lookup (s_ids s) i = Some x -> getjob (s_jobs s) x = Some jx -> j_done jx = false ->
    (chs = [] \/ mem (j_chan jx) chs = true) -> key_lt (j_prio jx, x) (j_prio j, j_serial j) = false.
Proof. exact restart_pull_in_order. Qed.
Print Assumptions C18_pullable_again_in_order.

Theorem C18_pull_after_restart_blocks_only_when_empty : forall s c chs, RGood s ->
  let s' := restart s in
  In OBlocked (snd (step s' (StartPull c chs))) ->
  forall i x jx, id_lookup (s_ids s) i = Some x -> getjob (s_jobs s) x = Some jx ->
    (chs = [] \/ mem (j_chan jx) chs = true) -> j_done jx = true.
Proof. exact restart_pull_blocks_only_when_empty. Qed.
Print Assumptions C18_pull_after_restart_blocks_only_when_empty.

(* "... and still subject to their timeout": job jx registered and unfinished in s (reachable with the full alphabet and
   earlier restarts); restart; the first handletimeouts sweep whose clock is at or past the job's original absolute
   deadline leaves it finished with error "timeout" (the rebuilt timeout heap is sorted: restart_ts; the sweep finishes
   every entry whose deadline has passed: timeouts_loop_spec). *)
Theorem C18_still_subject_to_timeout : forall s i x jx dt, RGood s ->
  id_lookup (s_ids s) i = Some x -> getjob (s_jobs s) x = Some jx -> j_done jx = false ->
  let s' := restart s in
  j_timeout jx <= s_now s' + dt ->
  exists j', getjob (s_jobs (fst (step s' (Tick dt)))) x = Some j' /\ j_done j' = true /\ j_err j' = e_timeout.
Proof.
  intros s i x jx dt G El E D s'. apply tick_times_out; [apply restart_tq; exact G| |exact D].
  exact (restart_job_table s i x jx G El E).
Qed.
Print Assumptions C18_still_subject_to_timeout.

(* ... and in EVERY state reachable with the full alphabet and restarts at arbitrary positions (the timeout heap is sorted
   and holds an entry with the deadline of every unfinished job: invariant TQ): a handletimeouts sweep at or past the
   deadline of an unfinished job finishes it with error "timeout". *)
Theorem C18_sweep_times_out_with_restarts : forall h x j dt,
  let s := rrun h init in
  getjob (s_jobs s) x = Some j -> j_done j = false -> j_timeout j <= s_now s + dt ->
  exists j', getjob (s_jobs (fst (step s (Tick dt)))) x = Some j' /\ j_done j' = true /\ j_err j' = e_timeout.
Proof. intros h x j dt s. apply tick_times_out. apply (rrun_tq h init rgood_init tq_init). Qed.
Print Assumptions C18_sweep_times_out_with_restarts.

Example C18_timeout_example :
  let s := restart (run [Add 0 0 None (Some 10); Add 0 0 None (Some 5)] init) in
  let s2 := fst (step s (Tick 6)) in
  map (fun j => (j_serial j, j_done j, j_err j)) (s_jobs s2) = [(2, true, EStr 1); (1, false, ENone)] \/
  map (fun j => (j_serial j, j_done j, j_err j)) (s_jobs s2) = [(1, false, ENone); (2, true, EStr 1)].
Proof. vm_compute. auto. Qed.
Print Assumptions C18_timeout_example.

Theorem C18_reachable_with_restarts_is_RGood : forall h, RGood (rrun h init).
Proof. exact rreachable_rgood. Qed.
Print Assumptions C18_reachable_with_restarts_is_RGood.

(* Non-vacuity of the order theorem: see restart_history in ProofsInv.v (4 jobs, 3 channels, one held by a worker,
   one in a mailbox, restart, then four pulls in (priority, serial) order per channel set). *)
Example C18_restart_order_example :
  let s := rrun restart_history init in
  map (fun c => (c_id c, map snd (c_run c))) (s_conns s) = [(1, [2]); (2, [1]); (3, [3]); (4, [4])] /\
  s_count s = 4 /\ s_handed s = [4; 3; 1; 2].
Proof. vm_compute. repeat split. Qed.
Print Assumptions C18_restart_order_example.

(* Non-vacuity: job 1 pulled by worker 1 and job 2 finished, then restart: job 1 is queued again,
   job 2 keeps its result, the counter stays 2, and the next pull after the restart gets job 1. *)
Example C18_example :
  let s := restart (run [Add 0 0 None None; Add 0 1 (Some 0) None; StartPull 1 []; Finish 2 (JName 0) (Some 7) ENone] init) in
  s_count s = 2 /\ s_queues s = [(0, [(0, 1)])] /\
  map (fun j => (j_serial j, j_done j, j_res j)) (s_jobs s) = [(1, false, None); (2, true, Some 7)] /\
  match snd (step s (StartPull 5 [])) with [ODeliver 5 [] j] => j_serial j = 1 | _ => False end.
Proof. vm_compute. repeat split. Qed.
Print Assumptions C18_example.

(* C18_restart_bisim (DESIGN's full statement): continuations after a restart behave like continuations after "all
   workers disconnected, nobody waiting".  For EVERY state s reachable with the full alphabet and restarts at arbitrary
   positions, and every continuation h2 that does not re-use a connection id of s:
       outputs of h2 from restore (save s)   ~   outputs of h2 from requeue_all s
   requeue_all s (BisimRequeue.v) = the callbacks still queued in the hub are lost (set_hub []), every connection is
   disconnected, RunLoop, RunLoop (so every job a worker held, or that sat in a hand-off mailbox, is back in its queue;
   every waiting client is gone), pending random.choice answers discarded.  ~ = Forall2 obs_eq: equal outputs, where
   of a Stats answer only count, numjobs and the per-channel busy numbers are compared (outcome counters restart from
   zero; channel2q keeps keys of empty queues).
   Why the hub is emptied in the reference: a finish notification that was queued but not delivered is lost by a restart;
   delivering it first lets a waiter of a DROPPED job fetch it and delete its id (A 0 0 - -;W 1 a1;T 200;Y a1, then I a1:
   the restart still knows a1).  Found by the bounded model check ocaml/c16/bisim.ml, which checks this same statement
   exhaustively on the extracted model on every run (vt/harness/c16_bisim.py).
   Proof: simulation relation Sim (BisimStep.v) preserved by all 15 ops with obs_eq outputs (sim_step), established
   between restart s and requeue_all s (sim_init); the single-state invariants TE (timeout heap entries are sound) and
   XI (unique channel keys, unique connection ids, dead connections hold nothing) hold for all ops and restarts. *)
Theorem C18_restart_bisim : forall h h2, let s := rrun h init in
  Forall (fresh_op (map c_id (s_conns s))) h2 ->
  Forall2 obs_eq (outs h2 (restart s)) (outs h2 (requeue_all s)).
Proof. exact restart_bisim. Qed.
Print Assumptions C18_restart_bisim.

(* Non-vacuity: worker 1 holds job 1, puller 2 has job 2 in its mailbox (wake-up still in the hub), client 3 waits for
   job 1, job 3 queued; fresh connections 10..13 pull: both sides deliver 2, 1, 3 in that order. *)
Example C18_restart_bisim_example :
  let s := rrun bisim_h init in
  map (fun c => (c_id c, c_st c, map snd (c_run c))) (s_conns s) = [(1, Idle, [1]); (2, BPull [0] (Some 2), []); (3, BWait 1, [])] /\
  s_hub s = [EvNotify 2] /\
  Forall (fresh_op (map c_id (s_conns s))) bisim_h2 /\
  map delivered (outs bisim_h2 (restart s)) = [Some (10, 2); Some (11, 1); Some (12, 3); None; None; None; None] /\
  map delivered (outs bisim_h2 (requeue_all s)) = [Some (10, 2); Some (11, 1); Some (12, 3); None; None; None; None] /\
  Forall2 obs_eq (outs bisim_h2 (restart s)) (outs bisim_h2 (requeue_all s)).
Proof. exact restart_bisim_example. Qed.
Print Assumptions C18_restart_bisim_example.
