(* C18 — the id counter never goes back, not across restarts: server-chosen ids are not reused. *)
From Coq Require Import List NArith Bool Lia Arith.
From MW Require Import C16.Model C16.Proofs C17.Proofs C17.ProofsCount C18.Proofs.
Import ListNotations.
Open Scope N_scope.

Lemma ledger_count : forall s s', ledger s' = ledger s -> s_count s' = s_count s.
Proof. intros s s' H. unfold ledger in H. inversion H. reflexivity. Qed.

(* only an Add that creates a job object moves the counter *)
Lemma step_count_le : forall s o, s_count s <= s_count (fst (step s o)).
Proof.
  intros s o.
  assert (EQ : forall s', s_count s' = s_count s -> s_count s <= s_count s') by (intros s' E; rewrite E; reflexivity).
  destruct o as [ch prio name tmo|c chs| |c i res e|c js|dt|c|k|c i|i|i v| |dt|js|]; cbn [step].
  - (* Add *)
    destruct (push_cases ch prio name tmo s) as [[n E]|(j0&i&_&_&_&E)]; rewrite E; cbn [fst]; [reflexivity|].
    rewrite (ledger_count _ _ (pushjob_ledger _ _)). sf. lia.
  - (* StartPull *) apply EQ. destruct (is_idle c s); [|reflexivity]. apply ledger_count, pop_ledger.
  - (* RunLoop *) apply EQ. rewrite (ledger_count _ _ (run_events_ledger _ _)). reflexivity.
  - (* Finish *)
    apply EQ. destruct (is_idle c s); [|reflexivity]. destruct (id_lookup (s_ids s) i); [|reflexivity].
    cbn [fst]. sf. apply mark_jstep.
  - (* Kill *) apply EQ. destruct (is_idle c s); [|reflexivity]. cbn [fst]. sf. apply killjobs_jstep.
  - (* Tick *)
    apply EQ. cbn [fst]. unfold handletimeouts, preenall. sf.
    exact (js_count _ _ (timeouts_jstep _ (set_now (s_now s + dt) s))).
  - (* Disconnect *) apply EQ. destruct (c_st (get_conn (s_conns s) c)); reflexivity.
  - (* Choice *) reflexivity.
  - (* Wait *)
    apply EQ. destruct (is_idle c s); [|reflexivity]. destruct (id_lookup (s_ids s) i) as [ser|]; [|reflexivity].
    destruct (getjob (s_jobs s) ser) as [j|]; [|reflexivity].
    destruct (j_done j); [destruct (j_drop j && id_is (s_ids s) (j_id j) ser)|]; reflexivity.
  - (* Info *) reflexivity.
  - (* SetInfo *) apply EQ. destruct (id_lookup (s_ids s) i); reflexivity.
  - (* Stats *) reflexivity.
  - (* Advance *) reflexivity.
  - (* Drop *) apply EQ. cbn [fst]. apply dropjobs_jstep.
  - (* Watchdog *) apply EQ. cbn [fst]. unfold dropdead. apply dropdead_jstep.
Qed.

(* a history of ops and server restarts (Restart = restore (save s)) *)
Inductive rop := Op (o : op) | Restart.

Definition rstep (s : state) (r : rop) : state := match r with Op o => fst (step s o) | Restart => restart s end.
Definition rrun (h : list rop) (s : state) : state := fold_left rstep h s.

Lemma rrun_invariant : forall P : state -> Prop,
  (forall s o, P s -> P (fst (step s o))) -> (forall s, P s -> P (restart s)) ->
  forall h s, P s -> P (rrun h s).
Proof.
  intros P HS HR. induction h as [|r h IH]; intros s H; [exact H|].
  change (rrun (r :: h) s) with (rrun h (rstep s r)). apply IH. destruct r as [o|]; [apply HS|apply HR]; exact H.
Qed.

Lemma count_restart : forall s, s_count (restart s) = s_count s.
Proof. intro s. unfold restart. destruct (restore_state (s_now s) (save s)) as (H&_). rewrite H. reflexivity. Qed.

Lemma count_rrun : forall h s, s_count s <= s_count (rrun h s).
Proof.
  intros h s. apply (rrun_invariant (fun s' => s_count s <= s_count s')); [| |reflexivity].
  - intros s' o H. pose proof (step_count_le s' o). lia.
  - intros s' H. rewrite count_restart. exact H.
Qed.

(* an add without id takes the next number *)
Lemma add_auto_id : forall s ch prio tmo,
  snd (step s (Add ch prio None tmo)) = [OJid (JAuto (s_count s + 1))] /\
  s_count (fst (step s (Add ch prio None tmo))) = s_count s + 1.
Proof.
  intros s ch prio tmo. cbn [step]. unfold push. cbn [fst snd]. split; [reflexivity|].
  rewrite (ledger_count _ _ (pushjob_ledger _ _)). reflexivity.
Qed.
