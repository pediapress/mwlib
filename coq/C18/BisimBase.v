(* C18 — restart bisimulation: observation, list algebra (filter/ins/preen/heads), connection lists with a
   prefix of dead connections, and the simulation relation `Core`. *)
From Coq Require Import List NArith Bool Lia Arith Sorted.
From MW Require Import C16.Model C16.Proofs C17.Proofs C17.ProofsOrder C17.ProofsCount C18.Proofs C18.ProofsIds
  C18.ProofsInv C18.ProofsTimeout.
Import ListNotations.
Open Scope N_scope.

Fixpoint busy_get (b : list (N * N)) (k : N) : N :=
  match b with [] => 0 | (k', v) :: r => if k' =? k then v else busy_get r k end.

(* equality, except that of a Stats answer only count, numjobs and the per-channel busy numbers are compared *)
Definition obs_eq (x y : out) : Prop :=
  match x, y with
  | OStats c n _ b, OStats c' n' _ b' => c = c' /\ n = n' /\ forall k, busy_get b k = busy_get b' k
  | OStats _ _ _ _, _ => False
  | _, OStats _ _ _ _ => False
  | _, _ => x = y
  end.

Lemma obs_eq_refl : forall x, obs_eq x x.
Proof. destruct x; cbn; auto. Qed.

Lemma obs_list_refl : forall l, Forall2 obs_eq l l.
Proof. induction l; constructor; [apply obs_eq_refl|assumption]. Qed.

Lemma obs_of_eq : forall l l', l' = l -> Forall2 obs_eq l l'.
Proof. intros l l' E. subst. apply obs_list_refl. Qed.

Definition op_conns (o : op) : list N :=
  match o with
  | StartPull c _ | Finish c _ _ _ | Kill c _ | Disconnect c | Wait c _ => [c]
  | _ => []
  end.

Definition fresh_op (D : list N) (o : op) : Prop := forall c, In c (op_conns o) -> ~ In c D.

Lemma key_le_antisym : forall a b, key_le a b -> key_le b a -> a = b.
Proof.
  intros [a1 a2] [b1 b2] H1 H2.
  assert (a1 = b1 /\ a2 = b2) as [E1 E2] by key_cases.
  subst; reflexivity.
Qed.

Lemma key_lt_le_trans : forall e y z, key_lt e y = true -> key_le y z -> key_lt e z = true.
Proof. intros [e1 e2] [y1 y2] [z1 z2] H1 H2. key_cases. Qed.

Definition und (js : list job) (e : qkey) : bool := negb (is_done js (snd e)).

Lemma ins_front : forall e l, (forall z, In z l -> key_lt e z = true) -> ins e l = e :: l.
Proof. intros e [|z r] H; cbn [ins]; [reflexivity|]. rewrite (H z) by (left; reflexivity). reflexivity. Qed.

Lemma filter_ins : forall (P : qkey -> bool) e q, sorted q -> P e = true -> filter P (ins e q) = ins e (filter P q).
Proof.
  intros P e q S Pe. induction q as [|y r IH]; cbn [ins filter].
  - rewrite Pe. reflexivity.
  - inversion S as [|? ? Sr Fr]; subst. specialize (IH Sr).
    destruct (key_lt e y) eqn:L.
    + cbn [filter]. rewrite Pe. destruct (P y) eqn:Py.
      * cbn [ins]. rewrite L. reflexivity.
      * rewrite ins_front; [reflexivity|]. intros z Hz. apply filter_In in Hz. destruct Hz as [Hz _].
        rewrite Forall_forall in Fr. eapply key_lt_le_trans; [exact L|apply Fr; exact Hz].
    + cbn [filter]. destruct (P y) eqn:Py.
      * cbn [ins]. rewrite L. rewrite IH. reflexivity.
      * exact IH.
Qed.

Lemma filter_sub : forall (A : Type) (P P' : A -> bool) q, (forall e, P' e = true -> P e = true) ->
  filter P' (filter P q) = filter P' q.
Proof.
  intros A P P' q H. induction q as [|y r IH]; cbn [filter]; [reflexivity|].
  destruct (P y) eqn:Py; cbn [filter]; destruct (P' y) eqn:Py'; try rewrite IH; try reflexivity.
  rewrite (H y Py') in Py. discriminate.
Qed.

Lemma filter_sub_eq : forall (A : Type) (P P' : A -> bool) qa qb, (forall e, P' e = true -> P e = true) ->
  filter P qa = filter P qb -> filter P' qa = filter P' qb.
Proof. intros A P P' qa qb H E. rewrite <- (filter_sub A P P' qa H), <- (filter_sub A P P' qb H), E. reflexivity. Qed.

Lemma filter_preen : forall js q, filter (und js) (preen js q) = filter (und js) q.
Proof.
  intros js q. induction q as [|y r IH]; cbn [preen]; [reflexivity|].
  destruct (is_done js (snd y)) eqn:D; [|reflexivity].
  cbn [filter]. replace (und js y) with false by (unfold und; rewrite D; reflexivity). exact IH.
Qed.

Lemma preen_cases : forall js q,
  (preen js q = [] /\ filter (und js) q = []) \/
  (exists x r, preen js q = x :: r /\ filter (und js) q = x :: filter (und js) r).
Proof.
  intros js q. induction q as [|y r IH]; cbn [preen]; [left; split; reflexivity|].
  destruct (is_done js (snd y)) eqn:D.
  - cbn [filter]. replace (und js y) with false by (unfold und; rewrite D; reflexivity). exact IH.
  - right. exists y, r. split; [reflexivity|]. cbn [filter].
    replace (und js y) with true by (unfold und; rewrite D; reflexivity). reflexivity.
Qed.

Lemma preen_rel : forall js qa qb, filter (und js) qa = filter (und js) qb ->
  hd_error (preen js qa) = hd_error (preen js qb) /\
  filter (und js) (tl (preen js qa)) = filter (und js) (tl (preen js qb)).
Proof.
  intros js qa qb H.
  destruct (preen_cases js qa) as [[Pa Fa]|(xa&ra&Pa&Fa)], (preen_cases js qb) as [[Pb Fb]|(xb&rb&Pb&Fb)];
    rewrite Pa, Pb; cbn [hd_error tl filter]; rewrite Fa, Fb in H; try discriminate; [split; reflexivity|].
  inversion H; subst. split; congruence.
Qed.

Lemma preen_ext : forall js js' q, (forall x, is_done js' x = is_done js x) -> preen js' q = preen js q.
Proof.
  intros js js' q H. induction q as [|y r IH]; cbn [preen]; [reflexivity|]. rewrite H, IH. reflexivity.
Qed.

Lemma und_ext : forall js js', (forall x, is_done js' x = is_done js x) -> forall e, und js' e = und js e.
Proof. intros js js' H e. unfold und. rewrite H. reflexivity. Qed.

Lemma qget_set : forall qs c l k, qget (q_set qs c l) k = if k =? c then l else qget qs k.
Proof.
  intros qs c l k. unfold qget. destruct (k =? c) eqn:E.
  - apply N.eqb_eq in E. subst. rewrite q_get_set_same. reflexivity.
  - apply N.eqb_neq in E. rewrite q_get_set_other by exact E. reflexivity.
Qed.

Lemma qget_map : forall (f : list qkey -> list qkey) qs k, f [] = [] ->
  qget (map (fun kq => (fst kq, f (snd kq))) qs) k = f (qget qs k).
Proof.
  intros f qs k H. unfold qget. rewrite q_get_map. destruct (q_get qs k); cbn [option_map]; auto.
Qed.

Lemma qs_sorted_qget : forall s k, QS s -> sorted (qget (s_queues s) k).
Proof.
  intros s k Q. unfold qget. destruct (q_get (s_queues s) k) as [q|] eqn:E; [eapply qs_qget; eauto|constructor].
Qed.

Definition cand (qs : list (N * list qkey)) (try : list N) (x : qkey) : Prop :=
  exists k rest, In k try /\ q_get qs k = Some (x :: rest).

Lemma heads_cand_eq : forall qa ta qb tb, (forall x, cand qa ta x <-> cand qb tb x) -> heads qa ta = heads qb tb.
Proof.
  intros qa ta qb tb H.
  destruct (heads qa ta) as [x|] eqn:Ea, (heads qb tb) as [y|] eqn:Eb.
  - f_equal. apply key_le_antisym.
    + destruct (heads_spec _ _ _ Eb) as (k&rest&Hk&Hq).
      destruct (proj2 (H y)) as (k'&rest'&Hk'&Hq'); [exists k, rest; auto|].
      eapply heads_min; eauto.
    + destruct (heads_spec _ _ _ Ea) as (k&rest&Hk&Hq).
      destruct (proj1 (H x)) as (k'&rest'&Hk'&Hq'); [exists k, rest; auto|].
      eapply heads_min; eauto.
  - exfalso. destruct (heads_spec _ _ _ Ea) as (k&rest&Hk&Hq).
    destruct (proj1 (H x)) as (k'&rest'&Hk'&Hq'); [exists k, rest; auto|]. eapply heads_none; eauto.
  - exfalso. destruct (heads_spec _ _ _ Eb) as (k&rest&Hk&Hq).
    destruct (proj2 (H y)) as (k'&rest'&Hk'&Hq'); [exists k, rest; auto|]. eapply heads_none; eauto.
  - reflexivity.
Qed.

Lemma busy_get_map : forall js qs k,
  busy_get (map (fun kq => (fst kq, count_undone js (snd kq))) qs) k = count_undone js (qget qs k).
Proof.
  intros js qs k. unfold qget. induction qs as [|[k0 q] r IH]; cbn [map busy_get fst snd q_get]; [reflexivity|].
  destruct (k0 =? k); [reflexivity|exact IH].
Qed.

Definition all_dead (dead : list conn) : Prop := Forall (fun c => c_st c = Dead) dead.

Lemma get_conn_dead : forall dead l c, ~ In c (map c_id dead) -> get_conn (dead ++ l) c = get_conn l c.
Proof.
  induction dead as [|d r IH]; intros l c H; cbn [app get_conn]; [reflexivity|]. cbn [map In] in H.
  destruct (c_id d =? c) eqn:E; [apply N.eqb_eq in E; tauto|]. apply IH. tauto.
Qed.

Lemma put_conn_dead : forall dead l x, ~ In (c_id x) (map c_id dead) -> put_conn (dead ++ l) x = dead ++ put_conn l x.
Proof.
  induction dead as [|d r IH]; intros l x H; cbn [app put_conn]; [reflexivity|]. cbn [map In] in H.
  destruct (c_id d =? c_id x) eqn:E; [apply N.eqb_eq in E; tauto|]. rewrite IH by tauto. reflexivity.
Qed.

Lemma has_waiter_dead : forall dead l ser, all_dead dead -> has_waiter ser (dead ++ l) = has_waiter ser l.
Proof.
  intros dead l ser H. induction H as [|d r Hd _ IH]; cbn [app has_waiter]; [reflexivity|]. rewrite Hd. exact IH.
Qed.

Lemma release_dead : forall dead l ser js, all_dead dead ->
  release ser js (dead ++ l) = (dead ++ fst (release ser js l), snd (release ser js l)).
Proof.
  intros dead l ser js H. induction H as [|d r Hd _ IH]; cbn [app release].
  - destruct (release ser js l); reflexivity.
  - rewrite IH. rewrite Hd. reflexivity.
Qed.

Lemma release_ext : forall ser js js' l, getjob js' ser = getjob js ser -> release ser js' l = release ser js l.
Proof.
  intros ser js js' l H. induction l as [|x r IH]; cbn [release]; [reflexivity|]. rewrite IH, H. reflexivity.
Qed.

(* a = the restarted side, b = the side where every old connection was dropped.  `dead` = the dropped connections. *)
Record Core0 (dead : list conn) (a b : state) : Prop := {
  c_dead : all_dead dead;
  c_count : s_count b = s_count a;
  c_now : s_now b = s_now a;
  c_ids : s_ids b = s_ids a;
  c_choices : s_choices b = s_choices a;
  c_waiters : s_waiters b = s_waiters a;
  c_hub : s_hub b = s_hub a;
  c_conns : s_conns b = dead ++ s_conns a;
  c_jobs : forall x j, getjob (s_jobs a) x = Some j -> getjob (s_jobs b) x = Some j;
  c_done : forall x, getjob (s_jobs a) x = None -> is_done (s_jobs b) x = true;
  c_q : forall k, filter (und (s_jobs a)) (qget (s_queues b) k) = filter (und (s_jobs a)) (qget (s_queues a) k);
  c_tq : forall e, is_done (s_jobs a) (snd (snd e)) = false -> (In e (s_tq b) <-> In e (s_tq a));
  c_fw : forall w, In w (s_waiters a) -> ~ In (fst w) (map c_id dead);
  c_fh : forall c, In (EvNotify c) (s_hub a) \/ In (EvKill c) (s_hub a) -> ~ In c (map c_id dead)
}.

Definition Core (dead : list conn) (a b : state) : Prop := Core0 dead a b /\ QS a /\ QS b.

Lemma core_isdone : forall dead a b, Core0 dead a b -> forall x, is_done (s_jobs b) x = is_done (s_jobs a) x.
Proof.
  intros dead a b C x. unfold is_done at 2. destruct (getjob (s_jobs a) x) as [j|] eqn:E.
  - unfold is_done. rewrite (c_jobs _ _ _ C _ _ E). reflexivity.
  - apply (c_done _ _ _ C). exact E.
Qed.

(* tob C rewrites with the field equalities of C : Core0 dead a b *)
Ltac tob C := rewrite ?(c_count _ _ _ C), ?(c_now _ _ _ C), ?(c_ids _ _ _ C), ?(c_choices _ _ _ C),
                      ?(c_waiters _ _ _ C), ?(c_hub _ _ _ C), ?(c_conns _ _ _ C).

(* events that concern none of the connections in `dead` *)
Definition fresh_ev (dead : list conn) (e : event) : Prop :=
  match e with EvNotify c | EvKill c => ~ In c (map c_id dead) | EvDone _ => True end.
