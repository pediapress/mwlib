(* C18 — the restarted state satisfies the queue invariants again.
   1. IdsOK: id2job has one entry per key and every entry (i, x) refers to an existing job object x whose own
      jobid is i; hence distinct ids map to distinct objects (serials), and the list workq.__getstate__ saves
      (list(id2job.values())) has pairwise distinct serials and pairwise distinct ids.  Invariant of every op.
   2. For such a saved list, workq.__setstate__ builds a state that satisfies Inv (C16), Aux, HubOK, QS (C17) and IdsOK.
   3. Hence every theorem proved from these invariants holds for histories WITH restarts (rrun), and after a restart
      a pull hands out the (priority, serial)-minimum of the unfinished jobs that were registered before it. *)
From Coq Require Import List NArith Bool Lia Arith Sorted.
From MW Require Import C16.Model C16.Proofs C17.Proofs C17.ProofsOrder C17.ProofsCount C18.Proofs C18.ProofsIds.
Import ListNotations.
Open Scope N_scope.

(* IdsOK below, TQ (ProofsTimeout.v) and TE (BisimTE.v) read the job table, id2job and timeoutq only.  In terms of them the updates
   an op is made of (C16 `prim`) are five: register a job object that exists; create an object and register it; let
   the job table evolve (tab_le and tmo_le); delete an id2job entry; pop heap entries of finished jobs.  A property
   closed under the five holds after every op (step_tab), so each invariant is proved on lists. *)

(* evolution of the job table as the timeout heap sees it: an unfinished job was there before, unfinished, with the
   same deadline and priority *)
Definition tmo_le (js js' : list job) : Prop :=
  forall x j', getjob js' x = Some j' -> j_done j' = false ->
  exists j, getjob js x = Some j /\ j_done j = false /\ j_timeout j = j_timeout j' /\ j_prio j = j_prio j'.

Lemma setjob_tmo_le : forall js ser f, field_edit f -> tmo_le js (setjob ser f js).
Proof.
  intros js ser f Hf x j' E D. rewrite getjob_edit in E by exact Hf. destruct (x =? ser) eqn:Ex; [|exists j'; auto].
  destruct (getjob js ser) as [j|] eqn:Ej; cbn in E; [|discriminate]. apply N.eqb_eq in Ex. subst x.
  inversion E; subst j'. destruct (Hf j) as (_&_&_&Hp&Hd&_&_&Ht). rewrite Hd in D. exists j. auto.
Qed.

Lemma mark_tmo_le : forall x u s, tmo_le (s_jobs s) (s_jobs (mark_finished x u s)).
Proof.
  intros x u s. unfold mark_finished. destruct (getjob (s_jobs s) x) as [j|] eqn:E; [|intros y j' E' D'; exists j'; auto].
  destruct (j_done j) eqn:D; [intros y j' E' D'; exists j'; auto|]. sf. intros y j' E' D'.
  rewrite getjob_setjob in E' by (intros; cbn; eapply getjob_serial; eauto).
  destruct (y =? x) eqn:Ey.
  - rewrite E in E'. cbn in E'. inversion E'; subst j'. discriminate D'.
  - exists j'. auto.
Qed.

Definition tab_inv := list job -> list (jid * N) -> list tkey -> Prop.
Definition on_tab (P : tab_inv) (s : state) : Prop := P (s_jobs s) (s_ids s) (s_tq s).

Section TabInv.
  Variable P : tab_inv.
  Hypothesis P_reg : forall js ids tq x j, getjob js x = Some j -> P js ids tq ->
    P js (id_set ids (j_id j) x) (tins (j_timeout j, (j_prio j, x)) tq).
  Hypothesis P_new : forall js ids tq j, getjob js (j_serial j) = None -> P js ids tq ->
    P (j :: js) (id_set ids (j_id j) (j_serial j)) (tins (j_timeout j, (j_prio j, j_serial j)) tq).
  Hypothesis P_le : forall js js' ids tq, tab_le js js' -> tmo_le js js' -> P js ids tq -> P js' ids tq.
  Hypothesis P_del : forall js ids tq i, P js ids tq -> P js (id_del ids i) tq.
  Hypothesis P_pop : forall js ids l tq, (forall e, In e l -> is_done js (snd (snd e)) = true) ->
    P js ids (l ++ tq) -> P js ids tq.

  Lemma tab_prim : forall s s', prim s s' -> on_tab P s -> on_tab P s'.
  Proof.
    intros s s' [s0 s1 S|s0 j0 _ N _ _|s0 x j E|s0 x u|s0 ser f Hf _|s0 i|s0 l tq Hq Hl] K; unfold on_tab in *.
    - rewrite (side_jobs _ _ S), (sd_ids _ _ S), (sd_tq _ _ S). exact K.
    - exact (P_new _ _ _ j0 N K).
    - exact (P_reg _ _ _ _ _ E K).
    - destruct (mark_fields x u s0) as (_&_&_&Hi&_&_&Ht). rewrite Hi, Ht.
      exact (P_le _ _ _ _ (mark_tab_le x u s0) (mark_tmo_le x u s0) K).
    - exact (P_le _ _ _ _ (setjob_tab_le _ _ _ Hf) (setjob_tmo_le _ _ _ Hf) K).
    - exact (P_del _ _ _ _ K).
    - apply (P_pop _ _ l); [exact Hl|]. rewrite Hq in K. exact K.
  Qed.

  Lemma step_tab : forall s o, Inv s [] [] -> on_tab P s -> on_tab P (fst (step s o)).
  Proof. intros s o I. exact (prims_inv _ tab_prim _ _ (step_prims s o (inv_tab _ _ _ I))). Qed.
End TabInv.

Definition ids_ok (js : list job) (ids : list (jid * N)) : Prop :=
  NoDup (map fst ids) /\ forall i x, In (i, x) ids -> exists j, getjob js x = Some j /\ j_id j = i.

Definition IdsOK (s : state) : Prop := ids_ok (s_jobs s) (s_ids s).

Lemma id_set_In : forall ids i v k w, In (k, w) (id_set ids i v) -> (k = i /\ w = v) \/ In (k, w) ids.
Proof.
  induction ids as [|[k0 w0] r IH]; cbn [id_set]; intros i v k w H.
  - destruct H as [H|[]]. inversion H; auto.
  - destruct (jid_eqb k0 i) eqn:E.
    + destruct H as [H|H]; [|right; right; exact H]. inversion H; subst. apply jid_eqb_eq in E. auto.
    + destruct H as [H|H]; [right; left; exact H|]. destruct (IH _ _ _ _ H); [left; auto|right; right; auto].
Qed.

Lemma id_set_keys : forall ids i v k, In k (map fst (id_set ids i v)) -> k = i \/ In k (map fst ids).
Proof.
  intros ids i v k H. apply in_map_iff in H. destruct H as ([k0 w]&Hf&Hin). cbn in Hf. subst k0.
  apply id_set_In in Hin. destruct Hin as [[H _]|H]; [left; exact H|right]. apply in_map_iff. exists (k, w). auto.
Qed.

Lemma id_set_nodup : forall ids i v, NoDup (map fst ids) -> NoDup (map fst (id_set ids i v)).
Proof.
  induction ids as [|[k0 w0] r IH]; intros i v ND; cbn [id_set map fst].
  - constructor; [intros []|constructor].
  - cbn [map fst] in ND. inversion ND as [|? ? Hn ND']; subst.
    destruct (jid_eqb k0 i) eqn:E; cbn [map fst].
    + constructor; assumption.
    + constructor; [|apply IH; exact ND']. intro H. apply id_set_keys in H. destruct H as [H|H]; [|contradiction].
      subst k0. rewrite jid_eqb_refl in E. discriminate.
Qed.

Lemma id_del_In : forall ids i p, In p (id_del ids i) -> In p ids.
Proof.
  induction ids as [|[k0 w0] r IH]; cbn [id_del]; intros i p H; [exact H|].
  destruct (jid_eqb k0 i); [right; exact H|]. destruct H as [H|H]; [left; exact H|right; eapply IH; eauto].
Qed.

Lemma id_del_nodup : forall ids i, NoDup (map fst ids) -> NoDup (map fst (id_del ids i)).
Proof.
  induction ids as [|[k0 w0] r IH]; intros i ND; cbn [id_del map fst]; [constructor|].
  cbn [map fst] in ND. inversion ND as [|? ? Hn ND']; subst.
  destruct (jid_eqb k0 i); [exact ND'|]. cbn [map fst]. constructor; [|apply IH; exact ND'].
  intro H. apply Hn. apply in_map_iff in H. destruct H as (p&Hf&Hin). apply in_map_iff. exists p. split; [exact Hf|].
  eapply id_del_In; eauto.
Qed.

Lemma ids_ok_set : forall js ids x j, ids_ok js ids -> getjob js x = Some j -> ids_ok js (id_set ids (j_id j) x).
Proof.
  intros js ids x j [ND OW] E. split; [apply id_set_nodup; exact ND|].
  intros i y H. apply id_set_In in H. destruct H as [[Hi Hy]|H]; [subst; exists j; auto|apply OW; exact H].
Qed.

Lemma ids_ok_del : forall js ids i, ids_ok js ids -> ids_ok js (id_del ids i).
Proof.
  intros js ids i [ND OW]. split; [apply id_del_nodup; exact ND|]. intros k y H. apply OW. eapply id_del_In; eauto.
Qed.

Lemma ids_ok_tab_le : forall js js' ids, tab_le js js' -> ids_ok js ids -> ids_ok js' ids.
Proof.
  intros js js' ids T [ND OW]. split; [exact ND|]. intros i x H. destruct (OW i x H) as (j&E&Hid).
  destruct (tab_le_some' _ _ _ _ T E) as (j'&E'&Hid'&_). exists j'. split; [exact E'|congruence].
Qed.

Lemma ids_ok_cons : forall js ids j0, ids_ok js ids -> getjob js (j_serial j0) = None -> ids_ok (j0 :: js) ids.
Proof.
  intros js ids j0 [ND OW] Hn. split; [exact ND|]. intros i x H. destruct (OW i x H) as (j&E&Hid). exists j. split; [|exact Hid].
  cbn [getjob]. destruct (j_serial j0 =? x) eqn:Ex; [|exact E]. apply N.eqb_eq in Ex. subst x. congruence.
Qed.

Lemma ids_ok_new : forall js ids j, ids_ok js ids -> getjob js (j_serial j) = None ->
  ids_ok (j :: js) (id_set ids (j_id j) (j_serial j)).
Proof.
  intros js ids j K N. apply ids_ok_set; [apply ids_ok_cons; assumption|]. cbn [getjob]. rewrite N.eqb_refl. reflexivity.
Qed.

Lemma idsok_same : forall s s', s_jobs s' = s_jobs s -> s_ids s' = s_ids s -> IdsOK s -> IdsOK s'.
Proof. intros s s' J I. unfold IdsOK. rewrite J, I. auto. Qed.

Lemma ids_prim : forall s s', prim s s' -> IdsOK s -> IdsOK s'.
Proof.
  apply (tab_prim (fun js ids _ => ids_ok js ids)).
  - intros js ids tq x j E K. apply ids_ok_set; assumption.
  - intros js ids tq j N K. apply ids_ok_new; assumption.
  - intros js js' ids tq T _. apply ids_ok_tab_le. exact T.
  - intros js ids tq i. apply ids_ok_del.
  - auto.
Qed.

Lemma step_ids_ok : forall s o, Inv s [] [] -> IdsOK s -> IdsOK (fst (step s o)).
Proof. intros s o I. exact (prims_inv _ ids_prim _ _ (step_prims s o (inv_tab _ _ _ I))). Qed.

Lemma dropdead_ids_ok : forall l s, IdsOK s -> IdsOK (dropdead_loop l s).
Proof. intros l s. exact (prims_inv _ ids_prim _ _ (dropdead_prims l s)). Qed.

Lemma idsok_init : IdsOK init.
Proof. split; [constructor|intros i x []]. Qed.

(* the saved job list: pairwise distinct serials, pairwise distinct ids, and the per-job facts of Inv / Aux *)
Record SavedOK (n : N) (l : list job) : Prop := {
  sv_ser : NoDup (map j_serial l);
  sv_id : NoDup (map j_id l);
  sv_le : forall j, In j l -> j_serial j <= n;
  sv_auto : forall j k, In j l -> j_id j = JAuto k -> k = j_serial j;
  sv_err : forall j, In j l -> j_done j = false -> j_err j = ENone;
  sv_dl : forall j, In j l -> j_done j = false -> j_dl j = None
}.

Lemma collect_In : forall js ids j, In j (collect js ids) -> exists i x, In (i, x) ids /\ getjob js x = Some j.
Proof.
  intros js ids j. induction ids as [|[i x] r IH]; cbn [collect]; intro H; [destruct H|].
  destruct (getjob js x) as [j0|] eqn:E.
  - destruct H as [H|H]; [subst j0; exists i, x; split; [left; reflexivity|exact E]|].
    destruct (IH H) as (i'&x'&Hin&E'). exists i', x'. split; [right; exact Hin|exact E'].
  - destruct (IH H) as (i'&x'&Hin&E'). exists i', x'. split; [right; exact Hin|exact E'].
Qed.

Lemma collect_nodup : forall js ids, ids_ok js ids ->
  NoDup (map j_serial (collect js ids)) /\ NoDup (map j_id (collect js ids)).
Proof.
  intros js ids [ND OW]. induction ids as [|[i x] r IH]; cbn [collect]; [split; constructor|].
  cbn [map fst] in ND. inversion ND as [|? ? Hn ND']; subst.
  destruct IH as [IH1 IH2]; [exact ND'|intros i' x' H; apply OW; right; exact H|].
  destruct (OW i x (or_introl eq_refl)) as (j&E&Hid). rewrite E. cbn [map].
  (* any other collected job j' comes from an entry (i', x') of r with key i' <> i, and j_id j' = i' *)
  assert (OTHER : forall j', In j' (collect js r) -> j_id j' <> i).
  { intros j' Hin Heq. destruct (collect_In _ _ _ Hin) as (i'&x'&Hin'&E').
    destruct (OW i' x' (or_intror Hin')) as (j''&E''&Hid''). rewrite E' in E''. inversion E''; subst j''.
    apply Hn. apply in_map_iff. exists (i', x'). split; [cbn; congruence|exact Hin']. }
  split; constructor; auto.
  - intro H. apply in_map_iff in H. destruct H as (j'&Hs&Hin). apply (OTHER j' Hin).
    destruct (collect_In _ _ _ Hin) as (i'&x'&Hin'&E'). pose proof (getjob_serial _ _ _ E') as S'.
    pose proof (getjob_serial _ _ _ E) as S. assert (j' = j) by congruence. subst j'. exact Hid.
  - intro H. apply in_map_iff in H. destruct H as (j'&Hs&Hin). apply (OTHER j' Hin). congruence.
Qed.

Lemma save_ok : forall s, Aux s -> Inv s [] [] -> IdsOK s -> SavedOK (fst (save s)) (snd (save s)).
Proof.
  intros s A I K. unfold save. cbn [fst snd]. destruct (collect_nodup _ _ K) as [N1 N2].
  constructor; auto; intros j; intros; match goal with H : In j (collect _ _) |- _ => destruct (collect_In _ _ _ H) as (i0&x0&_&E0) end.
  - pose proof (getjob_serial _ _ _ E0). subst x0. eapply (inv_tab _ _ _ I); eauto.
  - pose proof (getjob_serial _ _ _ E0). subst x0. eapply (inv_auto _ _ _ I); eauto.
  - eapply (inv_err _ _ _ I); eauto.
  - eapply A; eauto.
Qed.

Lemma getjob_snoc : forall js j x,
  getjob (js ++ [j]) x = match getjob js x with Some y => Some y | None => if j_serial j =? x then Some j else None end.
Proof.
  induction js as [|z r IH]; intros j x; cbn [app getjob]; [reflexivity|].
  destruct (j_serial z =? x); [reflexivity|apply IH].
Qed.

(* __setstate__ appends the saved job object to the job table before anything refers to it *)
Lemma inv_snoc : forall j s,
  Inv s [] [] -> getjob (s_jobs s) (j_serial j) = None ->
  (forall x jx, getjob (s_jobs s) x = Some jx -> j_id jx <> j_id j) ->
  j_serial j <= s_count s -> (forall k, j_id j = JAuto k -> k = j_serial j) -> (j_done j = false -> j_err j = ENone) ->
  Inv (set_jobs (s_jobs s ++ [j]) s) (if j_done j then [] else [j_serial j]) [].
Proof.
  intros j s I GN NEW LE AU ER.
  apply (inv_new_job s (set_jobs (s_jobs s ++ [j]) s) j I); try reflexivity; try assumption.
  - sf. rewrite getjob_snoc, GN, N.eqb_refl. reflexivity.
  - intros y Hy. sf. rewrite getjob_snoc. destruct (getjob (s_jobs s) y); [reflexivity|].
    destruct (j_serial j =? y) eqn:E; [apply N.eqb_eq in E; congruence|reflexivity].
  - intros y jy Ey _. exact (NEW y jy Ey).
Qed.

(* with nobody waiting, __setstate__ does to an unfinished job what pushjob does *)
Lemma restore1_pushjob : forall j s, s_waiters s = [] -> getjob (s_jobs s) (j_serial j) = None -> j_done j = false ->
  restore1 j s = pushjob (j_serial j) (set_jobs (s_jobs s ++ [j]) s).
Proof.
  intros j s W GN D. unfold restore1, pushjob. sf. rewrite D, W, getjob_snoc, GN, N.eqb_refl. reflexivity.
Qed.

(* one iteration of the loop in __setstate__ *)
Lemma restore1_inv : forall j s,
  Inv s [] [] -> s_waiters s = [] -> getjob (s_jobs s) (j_serial j) = None ->
  (forall x jx, getjob (s_jobs s) x = Some jx -> j_id jx <> j_id j) ->
  j_serial j <= s_count s -> (forall k, j_id j = JAuto k -> k = j_serial j) -> (j_done j = false -> j_err j = ENone) ->
  Inv (restore1 j s) [] [].
Proof.
  intros j s I W GN NEW LE AU ER. pose proof (inv_snoc j s I GN NEW LE AU ER) as I1.
  destruct (j_done j) eqn:D.
  - (* finished: only id2job changes, and no unfinished job had this id *)
    unfold restore1. rewrite D. destruct I1. constructor; sf; try assumption.
    intros y jy Ey Dy Oy. rewrite id_lookup_set. destruct (jid_eqb (j_id j) (j_id jy)) eqn:Eid; [|auto].
    apply jid_eqb_eq in Eid. rewrite getjob_snoc in Ey. destruct (getjob (s_jobs s) y) as [j0|] eqn:E0.
    + inversion Ey; subst j0. exfalso. eapply NEW; eauto.
    + destruct (j_serial j =? y); [|discriminate]. inversion Ey; subst jy. congruence.
  - rewrite (restore1_pushjob j s W GN D). apply pushjob_inv with (j := j); [exact I1| |exact D].
    sf. rewrite getjob_snoc, GN, N.eqb_refl. reflexivity.
Qed.

Lemma restore1_aux : forall j s, Aux s -> getjob (s_jobs s) (j_serial j) = None -> (j_done j = false -> j_dl j = None) -> Aux (restore1 j s).
Proof.
  intros j s A GN DL x jx E. destruct (restore1_fields j s) as (Hj&_). rewrite Hj, getjob_snoc in E.
  destruct (getjob (s_jobs s) x) as [y|] eqn:Ex.
  - inversion E; subst jx. apply (A x y Ex).
  - destruct (j_serial j =? x); [|discriminate]. inversion E; subst jx. exact DL.
Qed.

Lemma restore1_qs : forall j s, QS s -> QS (restore1 j s).
Proof.
  intros j s Q. unfold restore1. destruct (j_done j); [eapply qs_same; [|exact Q]; reflexivity|]. cbv zeta. sf.
  intros k q Hin. sf. apply q_set_In in Hin. destruct Hin as [[_ Hq]|Hin]; [|exact (Q _ _ Hin)].
  subst q. apply sorted_ins. destruct (q_get (s_queues s) (j_chan j)) as [q0|] eqn:E; [|constructor].
  apply (Q (j_chan j)). apply q_get_In. exact E.
Qed.

Lemma restore1_idsok : forall j s, IdsOK s -> getjob (s_jobs s) (j_serial j) = None -> IdsOK (restore1 j s).
Proof.
  intros j s [ND OW] GN. destruct (restore1_fields j s) as (Hj&Hi&_). unfold IdsOK. rewrite Hj, Hi.
  split; [apply id_set_nodup; exact ND|]. intros i x H. apply id_set_In in H. destruct H as [[Hi' Hx]|H].
  - subst. exists j. split; [|reflexivity]. rewrite getjob_snoc, GN, N.eqb_refl. reflexivity.
  - destruct (OW i x H) as (j0&E0&H0). exists j0. split; [|exact H0]. rewrite getjob_snoc, E0. reflexivity.
Qed.

(* everything the restarted server needs, as one invariant of the loop *)
Definition RInv (s : state) : Prop := Aux s /\ Inv s [] [] /\ QS s /\ IdsOK s.

Lemma getjob_In' : forall js x j, getjob js x = Some j -> In j js.
Proof. exact getjob_In. Qed.

Lemma getjob_none_snoc : forall js j x, getjob js x = None -> j_serial j <> x -> getjob (js ++ [j]) x = None.
Proof.
  intros js j x H Hn. rewrite getjob_snoc, H. destruct (j_serial j =? x) eqn:E; [apply N.eqb_eq in E; congruence|reflexivity].
Qed.

Lemma restore_loop_rinv : forall l s,
  RInv s -> s_waiters s = [] -> NoDup (map j_serial l) -> NoDup (map j_id l) ->
  (forall j, In j l -> getjob (s_jobs s) (j_serial j) = None) ->
  (forall j x jx, In j l -> getjob (s_jobs s) x = Some jx -> j_id jx <> j_id j) ->
  (forall j, In j l -> j_serial j <= s_count s) ->
  (forall j k, In j l -> j_id j = JAuto k -> k = j_serial j) ->
  (forall j, In j l -> j_done j = false -> j_err j = ENone) ->
  (forall j, In j l -> j_done j = false -> j_dl j = None) ->
  RInv (restore_loop l s).
Proof.
  induction l as [|j r IH]; intros s (A&I&Q&K) W N1 N2 FR NEW LE AU ER DL; [exact (conj A (conj I (conj Q K)))|].
  rewrite restore_loop_cons. cbn [map] in N1, N2. inversion N1 as [|? ? Hn1 N1']; subst. inversion N2 as [|? ? Hn2 N2']; subst.
  destruct (restore1_fields j s) as (Hj&_&Hcnt&_&Hw&_).
  pose proof (FR j (or_introl eq_refl)) as GN.
  apply IH; auto.
  - split; [apply restore1_aux; auto; apply DL; left; reflexivity|].
    split; [apply restore1_inv; auto|].
    + intros x jx Ex. eapply NEW; eauto. left; reflexivity.
    + apply LE. left; reflexivity.
    + intros k Hk. eapply AU; eauto. left; reflexivity.
    + apply ER. left; reflexivity.
    + split; [apply restore1_qs; exact Q|apply restore1_idsok; assumption].
  - rewrite Hw. exact W.
  - intros j' Hin. rewrite Hj. apply getjob_none_snoc; [apply FR; right; exact Hin|].
    intro E. apply Hn1. apply in_map_iff. exists j'. split; [symmetry; exact E|exact Hin].
  - intros j' x jx Hin Ex. rewrite Hj, getjob_snoc in Ex. destruct (getjob (s_jobs s) x) as [y|] eqn:Ey.
    + inversion Ex; subst jx. eapply NEW; eauto. right; exact Hin.
    + destruct (j_serial j =? x); [|discriminate]. inversion Ex; subst jx. intro E. apply Hn2. apply in_map_iff. exists j'. split; [symmetry; exact E|exact Hin].
  - intros j' Hin. rewrite Hcnt. apply LE. right; exact Hin.
  - intros j' k Hin. apply AU. right; exact Hin.
  - intros j' Hin. apply ER. right; exact Hin.
  - intros j' Hin. apply DL. right; exact Hin.
Qed.

Lemma rinv_empty : forall now n, RInv (set_now now (set_count n init)).
Proof.
  intros now n. split; [intros x j H; discriminate H|]. split; [|split; [intros k q []|split; [constructor|intros i x []]]].
  constructor; cbn; try discriminate; try tauto.
  - intros x k H. inversion H. reflexivity.
  - constructor.
Qed.

Lemma restore_rinv : forall now n l, SavedOK n l -> RInv (restore now (n, l)).
Proof.
  intros now n l S. unfold restore. cbn [fst snd]. apply restore_loop_rinv; try (destruct S; assumption).
  - apply rinv_empty.
  - reflexivity.
  - intros j _. reflexivity.
  - intros j x jx _ H. discriminate H.
Qed.

(* Good + QS + IdsOK: what holds in every state reachable with restarts *)
Definition RGood (s : state) : Prop := Good s /\ QS s /\ IdsOK s.

Lemma restart_rgood : forall s, RGood s -> RGood (restart s).
Proof.
  intros s ((A&_&I)&_&K). unfold restart.
  pose proof (save_ok s A I K) as S. destruct (save s) as [n l]. cbn [fst snd] in S.
  destruct (restore_rinv (s_now s) n l S) as (A'&I'&Q'&K').
  split; [|split; assumption]. split; [exact A'|]. split; [|exact I'].
  destruct (restore_state (s_now s) (n, l)) as (_&_&_&_&Hh&_). intros ser Hin. rewrite Hh in Hin. destruct Hin.
Qed.

Lemma step_rgood : forall s o, RGood s -> RGood (fst (step s o)).
Proof.
  intros s o (G&Q&K). split; [apply step_good; exact G|]. split; [apply step_qs; exact Q|].
  apply step_ids_ok; [apply G|exact K].
Qed.

Lemma rgood_init : RGood init.
Proof. split; [apply good_init|]. split; [apply qs_init|apply idsok_init]. Qed.

Lemma rrun_rgood : forall h s, RGood s -> RGood (rrun h s).
Proof. exact (rrun_invariant RGood step_rgood restart_rgood). Qed.

Lemma rreachable_rgood : forall h, RGood (rrun h init).
Proof. intro h. apply rrun_rgood. apply rgood_init. Qed.

Lemma getjob_In_nodup : forall js j, NoDup (map j_serial js) -> In j js -> getjob js (j_serial j) = Some j.
Proof.
  induction js as [|z r IH]; intros j ND Hin; [destruct Hin|]. cbn [map] in ND. inversion ND as [|? ? Hn ND']; subst.
  cbn [getjob]. destruct Hin as [H|H].
  - subst z. rewrite N.eqb_refl. reflexivity.
  - destruct (j_serial z =? j_serial j) eqn:E; [|apply IH; assumption].
    apply N.eqb_eq in E. exfalso. apply Hn. rewrite E. apply in_map. exact H.
Qed.

(* the job table of the restarted server holds every registered job under its serial, verbatim *)
Lemma restart_job_table : forall s i x j, RGood s ->
  id_lookup (s_ids s) i = Some x -> getjob (s_jobs s) x = Some j -> getjob (s_jobs (restart s)) x = Some j.
Proof.
  intros s i x j ((A&_&I)&_&K) El E. destruct (save_keeps s i x j El E) as [Hin _].
  destruct (restore_state (s_now s) (save s)) as (_&H2&_). unfold restart. rewrite H2.
  rewrite <- (getjob_serial _ _ _ E). apply getjob_In_nodup; [|exact Hin]. apply (sv_ser _ _ (save_ok s A I K)).
Qed.

Lemma qget_In_some : forall qs k e, In e (qget qs k) -> exists q, q_get qs k = Some q /\ In e q.
Proof. intros qs k e. unfold qget. destruct (q_get qs k) as [q|]; [eauto|intros []]. Qed.

(* C18 "unfinished jobs are pullable again in the same priority/FIFO order": in the restarted state of any state s
   reachable with the full alphabet (and earlier restarts), whatever a pull hands out at once is not larger, in the
   order (priority, serial) of jobs.py:45-52, than ANY job that was registered in id2job and unfinished before the
   restart - queued, in a mailbox or held by a worker alike - on a requested channel.  Priorities and serials are
   those the jobs had before the restart (restart_job_table: records verbatim). *)
Lemma restart_pull_in_order : forall s c chs j, RGood s ->
  let s' := restart s in
  In (ODeliver c chs j) (snd (step s' (StartPull c chs))) ->
  j_done j = false /\
  forall i x jx, id_lookup (s_ids s) i = Some x -> getjob (s_jobs s) x = Some jx -> j_done jx = false ->
    (chs = [] \/ mem (j_chan jx) chs = true) -> key_lt (j_prio jx, x) (j_prio j, j_serial j) = false.
Proof.
  intros s c chs j G s' Hout. destruct (restart_rgood s G) as ((A'&K'&I')&Q'&_). fold s' in A', K', I', Q'.
  split; [apply (step_out _ _ _ K' I' Hout)|].
  intros i x jx El E D He. destruct (restart_preserves s i x jx El E) as (_&_&_&_&_&HQ). destruct (HQ D) as [Hin _].
  fold s' in Hin. apply qget_In_some in Hin. destruct Hin as (q&Hq&Hin). rewrite (getjob_serial _ _ _ E) in Hin.
  apply (min_first_state s' c chs j Q' I' Hout (j_chan jx) q (j_prio jx) x Hq He Hin).
  unfold is_done. unfold s'. rewrite (restart_job_table s i x jx G El E). exact D.
Qed.

(* ... and a pull on the restarted server blocks only when no registered job was unfinished on the requested channels *)
Lemma restart_pull_blocks_only_when_empty : forall s c chs, RGood s ->
  let s' := restart s in
  In OBlocked (snd (step s' (StartPull c chs))) ->
  forall i x jx, id_lookup (s_ids s) i = Some x -> getjob (s_jobs s) x = Some jx ->
    (chs = [] \/ mem (j_chan jx) chs = true) -> j_done jx = true.
Proof.
  intros s c chs G s' Hout i x jx El E He. destruct (j_done jx) eqn:D; [reflexivity|exfalso].
  destruct (restart_rgood s G) as (_&Q'&_). fold s' in Q'.
  destruct (restart_preserves s i x jx El E) as (_&_&Hc&_&_&HQ). destruct (HQ D) as [Hin _].
  fold s' in Hin, Hc. apply qget_In_some in Hin. destruct Hin as (q&Hq&Hin). rewrite (getjob_serial _ _ _ E) in Hin.
  assert (EI : is_idle c s' = true) by (unfold is_idle; rewrite Hc; reflexivity).
  pose proof (blocks_only_when_empty_state s' c chs Q' EI Hout _ _ _ _ Hq He Hin) as H.
  unfold is_done in H. unfold s' in H. rewrite (restart_job_table s i x jx G El E) in H. congruence.
Qed.

(* Non-vacuity: jobs 1 (prio 1) and 2 (prio 0) on channel 0 and job 3 on channel 1; worker 1 holds job 2, worker 2 is
   blocked on channel 2 and gets job 4 into its mailbox; restart; then pulls get 2, 1 (channel 0 in priority order), and
   a pull on all channels gets 3 before 4 (equal priority: older first). *)
Definition restart_history : list rop :=
  [Op (Add 0 1 None None); Op (Add 0 0 (Some 0) None); Op (Add 1 0 None (Some 5)); Op (StartPull 1 [0]);
   Op (StartPull 2 [2]); Op (Add 2 0 None None); Restart;
   Op (StartPull 1 [0]); Op (StartPull 2 [0]); Op (StartPull 3 []); Op (StartPull 4 [])].
