(* C18 — restart bisimulation, top level.

   restart s      = restore (save s): what a restarted server holds.
   requeue_all s  = the reference: every wake-up still queued in the hub is lost, every connection is dropped (so that
                    every job a worker held goes back to its queue), nobody is waiting.

   PROVED (no assumptions): `restart_bisim` below, for every state reachable with the full alphabet and restarts.
   Structure: `Sim dead a b` (BisimStep.v) is preserved by every op that does not mention a dropped connection, with
   observably equal outputs (sim_step, sim_outs); `sim_init` below establishes it between restart s and
   requeue_all s; the single-state invariants it needs (RGood, TQ, and TE, XI of BisimTE.v) hold in every
   reachable state. *)
From Coq Require Import List NArith Bool Lia Arith Sorted.
From MW Require Import C16.Model C16.Proofs C17.Proofs C17.ProofsOrder C17.ProofsCount C17.ProofsLive C18.Proofs C18.ProofsIds
  C18.ProofsInv C18.ProofsTimeout C18.BisimBase C18.BisimTE C18.BisimStep C18.BisimRequeue.
Import ListNotations.
Open Scope N_scope.

Lemma restart_jobs : forall s, s_jobs (restart s) = collect (s_jobs s) (s_ids s).
Proof. intro s. destruct (restore_state (s_now s) (save s)) as (_&H&_). exact H. Qed.

(* every job of the restarted table is the job of s with that serial, verbatim *)
Lemma restart_getjob_back : forall s x j, getjob (s_jobs (restart s)) x = Some j -> getjob (s_jobs s) x = Some j.
Proof.
  intros s x j H. rewrite restart_jobs in H. pose proof (getjob_serial _ _ _ H) as Hs.
  apply getjob_In in H. apply collect_In in H. destruct H as (i&x'&_&E).
  pose proof (getjob_serial _ _ _ E) as Hs'. congruence.
Qed.

(* a job that the restart forgot was finished *)
Lemma restart_none_done : forall s x, RGood s -> getjob (s_jobs (restart s)) x = None -> is_done (s_jobs s) x = true.
Proof.
  intros s x G H. unfold is_done. destruct (getjob (s_jobs s) x) as [j|] eqn:E; [|reflexivity].
  destruct (j_done j) eqn:D; [reflexivity|]. destruct G as ((A&Hh&I)&Q&K).
  pose proof (inv_addr _ _ _ I x j E D eq_refl) as L.
  rewrite (restart_job_table s _ _ _ (conj (conj A (conj Hh I)) (conj Q K)) L E) in H. discriminate.
Qed.

Lemma restore_loop_choices : forall l s, s_choices (restore_loop l s) = s_choices s.
Proof.
  induction l as [|j r IH]; intro s; cbn [restore_loop]; [reflexivity|].
  destruct (j_done j); rewrite IH; reflexivity.
Qed.

Lemma restart_choices : forall s, s_choices (restart s) = [].
Proof. intro s. unfold restart, restore. rewrite restore_loop_choices. reflexivity. Qed.

(* the heaps of the restarted state and of any state b with the job table of s, complete (TQ) and sound (TE),
   hold the same entries of unfinished jobs *)
Lemma init_tq_rel : forall s b, RGood s -> s_jobs b = s_jobs s -> TQ b -> TE b ->
  forall e, is_done (s_jobs (restart s)) (snd (snd e)) = false -> (In e (s_tq b) <-> In e (s_tq (restart s))).
Proof.
  intros s b G J Tb Eb [d [p x]] H. cbn [snd] in H.
  destruct (is_done_false _ _ H) as (j&Ej&Dj). pose proof (restart_getjob_back _ _ _ Ej) as Ejs.
  pose proof (restart_tq s G) as Ta. pose proof (restart_te s G) as Ea.
  split; intro Hin.
  - destruct (Eb _ Hin) as (j'&Ej'&Hj'). cbn [fst snd] in *. rewrite J, Ejs in Ej'. inversion Ej'; subst j'.
    destruct (Hj' Dj) as [H1 H2]. subst d p. apply (proj2 Ta); assumption.
  - destruct (Ea _ Hin) as (j'&Ej'&Hj'). cbn [fst snd] in *. rewrite Ej in Ej'. inversion Ej'; subst j'.
    destruct (Hj' Dj) as [H1 H2]. subst d p. apply (proj2 Tb); [rewrite J; exact Ejs|exact Dj].
Qed.

(* a sorted duplicate-free list is determined by its elements *)
Lemma sorted_nodup_unique : forall la lb : list qkey, sorted la -> sorted lb -> NoDup la -> NoDup lb ->
  (forall e, In e la <-> In e lb) -> la = lb.
Proof.
  induction la as [|x ra IH]; intros lb Sa Sb Na Nb H.
  - destruct lb as [|y rb]; [reflexivity|]. exfalso. apply (proj2 (H y)). left; reflexivity.
  - destruct lb as [|y rb]; [exfalso; apply (proj1 (H x)); left; reflexivity|].
    assert (E : x = y).
    { apply key_le_antisym.
      - eapply sorted_head_le; [exact Sa|]. apply (H y). left; reflexivity.
      - eapply sorted_head_le; [exact Sb|]. apply (H x). left; reflexivity. }
    subst y. f_equal. inversion Na as [|? ? Nx Nra]; inversion Nb as [|? ? Ny Nrb]; subst.
    apply IH; [eapply sorted_tl with (q := x :: ra); exact Sa|eapply sorted_tl with (q := x :: rb); exact Sb|exact Nra|exact Nrb|].
    intro e. split; intro He.
    + destruct (proj1 (H e) (or_intror He)) as [E|E]; [subst e; contradiction|exact E].
    + destruct (proj2 (H e) (or_intror He)) as [E|E]; [subst e; contradiction|exact E].
Qed.

(* the restarted id table is the saved one *)
Lemma id_set_new : forall ids i v, ~ In i (map fst ids) -> id_set ids i v = ids ++ [(i, v)].
Proof.
  induction ids as [|[k w] r IH]; intros i v H; cbn [id_set app]; [reflexivity|]. cbn [map fst In] in H.
  destruct (jid_eqb k i) eqn:E; [apply jid_eqb_eq in E; tauto|]. rewrite IH by tauto. reflexivity.
Qed.

Lemma restore_loop_ids : forall l s, NoDup (map fst (s_ids s) ++ map j_id l) ->
  s_ids (restore_loop l s) = s_ids s ++ map (fun j => (j_id j, j_serial j)) l.
Proof.
  induction l as [|j r IH]; intros s N; cbn [restore_loop map]; [rewrite app_nil_r; reflexivity|].
  assert (Hn : ~ In (j_id j) (map fst (s_ids s))).
  { cbn [map] in N. apply NoDup_remove_2 in N. intro H. apply N. apply in_or_app. left; exact H. }
  assert (N' : NoDup (map fst (s_ids s ++ [(j_id j, j_serial j)]) ++ map j_id r)).
  { rewrite map_app. cbn [map fst]. rewrite <- app_assoc. exact N. }
  destruct (j_done j); (rewrite IH; sf; rewrite (id_set_new _ _ _ Hn); [rewrite <- app_assoc; reflexivity|exact N']).
Qed.

Lemma collect_pairs : forall js ids, ids_ok js ids -> map (fun j => (j_id j, j_serial j)) (collect js ids) = ids.
Proof.
  intros js ids. induction ids as [|[i x] r IH]; intros [N H]; cbn [collect]; [reflexivity|].
  destruct (H i x (or_introl eq_refl)) as (j&Ej&Hi). rewrite Ej. cbn [map]. rewrite (getjob_serial _ _ _ Ej), Hi.
  f_equal. apply IH. split; [inversion N; assumption|]. intros i' x' Hin. apply H. right; exact Hin.
Qed.

Lemma restart_ids : forall s, RGood s -> s_ids (restart s) = s_ids s.
Proof.
  intros s (_&_&K). unfold restart, restore. rewrite restore_loop_ids.
  - cbn [snd save]. sf. cbn [init s_ids app]. apply collect_pairs. exact K.
  - cbn [snd save]. sf. cbn [init s_ids map app]. apply (proj2 (collect_nodup _ _ K)).
Qed.

Lemma sorted_filter : forall (P : qkey -> bool) q, sorted q -> sorted (filter P q).
Proof.
  intros P q S. induction S as [|y r Sr IH Fr]; cbn [filter]; [constructor|].
  destruct (P y); [|exact IH]. constructor; [exact IH|]. rewrite Forall_forall in *. intros z Hz. apply Fr.
  apply filter_In in Hz. tauto.
Qed.

Lemma nodup_filter_qocc : forall (P : qkey -> bool) q,
  (forall e, In e q -> P e = true -> (qocc (snd e) q <= 1)%nat) -> NoDup (filter P q).
Proof.
  intros P q. induction q as [|y r IH]; intro H; cbn [filter]; [constructor|].
  assert (Hr : forall e, In e r -> P e = true -> (qocc (snd e) r <= 1)%nat).
  { intros e He Pe. pose proof (H e (or_intror He) Pe) as B. unfold qocc in *. cbn [map occ] in B. lia. }
  destruct (P y) eqn:Py; [|apply IH; exact Hr]. constructor; [|apply IH; exact Hr].
  intro Hin. apply filter_In in Hin. destruct Hin as [Hin _].
  pose proof (H y (or_introl eq_refl) Py) as B. unfold qocc in B. cbn [map occ] in B. rewrite ind_refl in B.
  pose proof (In_occ_pos (snd y) (map snd r) (in_map snd _ _ Hin)). lia.
Qed.

Lemma qocc_qget_le : forall x qs k, (qocc x (qget qs k) <= occ_qs x qs)%nat.
Proof.
  intros x qs k. unfold qget. induction qs as [|[k0 m] r IH]; cbn [q_get occ_qs snd]; [cbn; lia|].
  destruct (k0 =? k); lia.
Qed.

Lemma occ_qs_pos : forall x qs, occ_qs x qs <> 0%nat -> exists k q, In (k, q) qs /\ qocc x q <> 0%nat.
Proof.
  intros x qs. induction qs as [|[k0 m] r IH]; cbn [occ_qs snd]; intro H; [congruence|].
  destruct (Nat.eq_dec (qocc x m) 0) as [E|E].
  - destruct IH as (k&q&Hin&Hq); [lia|]. exists k, q. split; [right; exact Hin|exact Hq].
  - exists k0, m. split; [left; reflexivity|exact E].
Qed.

Lemma occ_conns_dead : forall x cs, Forall (fun c => c_st c = Dead /\ c_run c = []) cs -> occ_conns x cs = 0%nat.
Proof.
  intros x cs F. induction F as [|c r [Hd Hr] _ IH]; cbn [occ_conns]; [reflexivity|].
  unfold occ_conn. rewrite Hd, Hr, IH. reflexivity.
Qed.

(* in a state where no connection holds a job, an unfinished job sits in the queue of its channel, once *)
Lemma queued_once : forall t x j, Inv t [] [] -> (forall y, occ_conns y (s_conns t) = 0%nat) ->
  getjob (s_jobs t) x = Some j -> j_done j = false -> forall k, (qocc x (qget (s_queues t) k) <= 1)%nat.
Proof.
  intros t x j I Z Ej Dj k. pose proof (inv_cons _ _ _ I x 1%nat (want_undone _ _ _ Ej Dj)) as B. unfold locs in B.
  rewrite Z in B. cbn [occ] in B. pose proof (qocc_qget_le x (s_queues t) k). lia.
Qed.

Lemma queued_in : forall t x j, Inv t [] [] -> XI t -> (forall y, occ_conns y (s_conns t) = 0%nat) ->
  getjob (s_jobs t) x = Some j -> j_done j = false -> In (j_prio j, x) (qget (s_queues t) (j_chan j)).
Proof.
  intros t x j I X Z Ej Dj. pose proof (inv_cons _ _ _ I x 1%nat (want_undone _ _ _ Ej Dj)) as B. unfold locs in B.
  rewrite Z in B. cbn [occ] in B. destruct (occ_qs_pos x (s_queues t)) as (k&q&Hin&Hq); [lia|].
  destruct (qocc_pos_In _ _ Hq) as [p Hp]. destruct (inv_q _ _ _ I _ _ _ _ Hin Hp) as (j'&Ej'&Hc&Hpr).
  rewrite Ej in Ej'. inversion Ej'; subst j'. subst k p.
  unfold qget. rewrite (q_get_nodup _ _ _ (proj1 X) Hin). exact Hp.
Qed.

Lemma init_q_rel : forall s b, RGood s -> Inv b [] [] -> XI b -> QS b -> s_jobs b = s_jobs s ->
  Forall (fun c => c_st c = Dead /\ c_run c = []) (s_conns b) ->
  forall k, filter (und (s_jobs (restart s))) (qget (s_queues b) k) =
            filter (und (s_jobs (restart s))) (qget (s_queues (restart s)) k).
Proof.
  intros s b G Ib Xb Qb J FD k. pose proof (restart_rgood s G) as ((Aa&Ha&Ia)&Qa&Ka).
  destruct (restore_state (s_now s) (save s)) as (_&_&Hconns&_). fold (restart s) in Hconns.
  assert (Za : forall y, occ_conns y (s_conns (restart s)) = 0%nat) by (intro y; rewrite Hconns; reflexivity).
  assert (Zb : forall y, occ_conns y (s_conns b) = 0%nat) by (intro y; apply occ_conns_dead; exact FD).
  assert (U : forall e, und (s_jobs (restart s)) e = true ->
            exists j, getjob (s_jobs (restart s)) (snd e) = Some j /\ getjob (s_jobs b) (snd e) = Some j /\ j_done j = false).
  { intros e He. unfold und in He. apply negb_true_iff in He. destruct (is_done_false _ _ He) as (j&Ej&Dj).
    exists j. split; [exact Ej|]. split; [rewrite J; apply restart_getjob_back; exact Ej|exact Dj]. }
  apply sorted_nodup_unique.
  - apply sorted_filter. apply qs_sorted_qget. exact Qb.
  - apply sorted_filter. apply qs_sorted_qget. exact Qa.
  - apply nodup_filter_qocc. intros e _ He. destruct (U e He) as (j&_&Ejb&Dj). eapply queued_once; eauto.
  - apply nodup_filter_qocc. intros e _ He. destruct (U e He) as (j&Eja&_&Dj). eapply queued_once; eauto.
  - intros [p x]. rewrite !filter_In. split; intros [Hin He]; (split; [|exact He]); destruct (U _ He) as (j&Eja&Ejb&Dj); cbn [snd] in *.
    + destruct (qget_In_some _ _ _ Hin) as (q&Hq&Hq'). apply q_get_In in Hq.
      destruct (inv_q _ _ _ Ib _ _ _ _ Hq Hq') as (j'&Ej'&Hc&Hp). rewrite Ejb in Ej'. inversion Ej'; subst j'. subst k p.
      apply queued_in; auto. split; [apply (proj1 (restart_xi s))|apply (proj2 (restart_xi s))].
    + destruct (qget_In_some _ _ _ Hin) as (q&Hq&Hq'). apply q_get_In in Hq.
      destruct (inv_q _ _ _ Ia _ _ _ _ Hq Hq') as (j'&Ej'&Hc&Hp). rewrite Eja in Ej'. inversion Ej'; subst j'. subst k p.
      apply queued_in; auto.
Qed.

Lemma sim_init : forall s, RGood s -> TQ s -> TE s -> XI s ->
  Sim (s_conns (requeue_all s)) (restart s) (requeue_all s).
Proof.
  intros s G T E X. pose proof (pi_requeue_all s (conj G (conj T (conj E X)))) as (Gb&Tb&Eb&Xb).
  pose proof (requeue_shape s G X) as SH. set (b := requeue_all s) in *.
  destruct (restore_state (s_now s) (save s)) as (_&_&Hc&Hw&Hh&Hn&_). fold (restart s) in Hc, Hw, Hh, Hn.
  split; [|split; [apply restart_rgood; exact G|split; [exact Gb|split; [apply restart_tq; exact G|split; [exact Tb|split;
    [apply restart_te; exact G|exact Eb]]]]]].
  split; [|split; [apply (restart_rgood s G)|apply Gb]].
  constructor.
  - eapply Forall_impl; [|apply (sh_conns _ _ SH)]. intros c [H _]. exact H.
  - rewrite (sh_count _ _ SH), count_restart. reflexivity.
  - rewrite (sh_now _ _ SH), Hn. reflexivity.
  - rewrite (sh_ids _ _ SH), (restart_ids s G). reflexivity.
  - rewrite (sh_choices _ _ SH), restart_choices. reflexivity.
  - rewrite (sh_waiters _ _ SH), Hw. reflexivity.
  - rewrite (sh_hub _ _ SH), Hh. reflexivity.
  - rewrite Hc, app_nil_r. reflexivity.
  - intros x j H. rewrite (sh_jobs _ _ SH). apply restart_getjob_back. exact H.
  - intros x H. rewrite (sh_jobs _ _ SH). apply restart_none_done; assumption.
  - apply init_q_rel; [exact G|apply Gb|exact Xb|apply Gb|apply (sh_jobs _ _ SH)|apply (sh_conns _ _ SH)].
  - apply init_tq_rel; [exact G|apply (sh_jobs _ _ SH)|exact Tb|exact Eb].
  - intros w H. rewrite Hw in H. destruct H.
  - intros c H. rewrite Hh in H. destruct H as [[]|[]].
Qed.

Theorem restart_bisim_from_sim : forall s h2,
  Sim (s_conns (requeue_all s)) (restart s) (requeue_all s) ->
  Forall (fresh_op (map c_id (s_conns (requeue_all s)))) h2 ->
  Forall2 obs_eq (outs h2 (restart s)) (outs h2 (requeue_all s)).
Proof. intros s h2 S F. eapply sim_outs; eauto. Qed.

(* the relation is closed under whole continuations *)
Lemma sim_run : forall h2 dead a b, Sim dead a b -> Forall (fresh_op (map c_id dead)) h2 -> Sim dead (run h2 a) (run h2 b).
Proof.
  induction h2 as [|o r IH]; intros dead a b S F; [exact S|].
  inversion F as [|? ? Fo Fr]; subst. change (Sim dead (run r (fst (step a o))) (run r (fst (step b o)))).
  apply IH; [|exact Fr]. apply (sim_step dead a b o S Fo).
Qed.

(* the single-state invariants `Sim` asks for hold in every reachable state (restarts included) *)
Lemma reachable_sim_invariants : forall h, let s := rrun h init in RGood s /\ TQ s /\ TE s.
Proof.
  intros h s. destruct (rrun_tq h init rgood_init tq_init) as [G T]. split; [exact G|]. split; [exact T|].
  apply rrun_te; [apply rgood_init|apply te_init].
Qed.

(* non-vacuity of `Sim`: the initial state is related to itself, with no dropped connection *)
Example sim_init_state : Sim [] init init.
Proof.
  split; [|split; [apply rgood_init|split; [apply rgood_init|split; [apply tq_init|split; [apply tq_init|split; apply te_init]]]]].
  split; [|split; apply qs_init]. constructor; try reflexivity; try (intros; tauto); try (intros ? []);
    try constructor; try (intros x j H; discriminate H); try (intros c [[]|[]]).
Qed.

(* C18_restart_bisim: continuations after restore(save s) behave like continuations after "every callback still queued
   in the hub is lost, all connections are dropped, nobody is waiting", for ops that do not re-use a dropped
   connection id; outputs compared by obs_eq (Stats: count, numjobs and per-channel busy numbers only). *)
Theorem restart_bisim_state : forall s h2, RGood s -> TQ s -> TE s -> XI s ->
  Forall (fresh_op (map c_id (s_conns s))) h2 ->
  Forall2 obs_eq (outs h2 (restart s)) (outs h2 (requeue_all s)).
Proof.
  intros s h2 G T E X F. apply restart_bisim_from_sim; [apply sim_init; assumption|].
  rewrite (sh_cids _ _ (requeue_shape s G X)). exact F.
Qed.

Theorem restart_bisim : forall h h2, let s := rrun h init in
  Forall (fresh_op (map c_id (s_conns s))) h2 ->
  Forall2 obs_eq (outs h2 (restart s)) (outs h2 (requeue_all s)).
Proof.
  intros h h2 s F. destruct (reachable_sim_invariants h) as (G&T&E). fold s in G, T, E.
  apply restart_bisim_state; try assumption. apply rrun_xi. apply xi_init.
Qed.

(* non-vacuity: a state with a worker holding job 1, a blocked puller with job 2 in its mailbox (wake-up still in the
   hub), a client waiting for job 1, job 3 queued; the continuation pulls with fresh connections *)
Definition bisim_h : list rop :=
  [Op (Add 0 1 None None); Op (StartPull 1 [0]); Op (StartPull 2 [0]); Op (Add 0 0 None None);
   Op (Wait 3 (JAuto 1)); Op (Add 1 5 None None)].
Definition bisim_h2 : list op :=
  [StartPull 10 []; StartPull 11 []; StartPull 12 []; StartPull 13 []; Stats; Tick 200; RunLoop; Stats].
Definition delivered (o : out) : option (N * N) := match o with ODeliver c _ j => Some (c, j_serial j) | _ => None end.

Example restart_bisim_example :
  let s := rrun bisim_h init in
  map (fun c => (c_id c, c_st c, map snd (c_run c))) (s_conns s) = [(1, Idle, [1]); (2, BPull [0] (Some 2), []); (3, BWait 1, [])] /\
  s_hub s = [EvNotify 2] /\
  Forall (fresh_op (map c_id (s_conns s))) bisim_h2 /\
  map delivered (outs bisim_h2 (restart s)) = [Some (10, 2); Some (11, 1); Some (12, 3); None; None; None; None] /\
  map delivered (outs bisim_h2 (requeue_all s)) = [Some (10, 2); Some (11, 1); Some (12, 3); None; None; None; None] /\
  Forall2 obs_eq (outs bisim_h2 (restart s)) (outs bisim_h2 (requeue_all s)).
Proof.
  intro s. split; [vm_compute; reflexivity|]. split; [vm_compute; reflexivity|].
  assert (F : Forall (fresh_op (map c_id (s_conns s))) bisim_h2).
  { unfold bisim_h2. repeat (constructor; [intros c Hc Hd; vm_compute in Hc, Hd; intuition congruence|]). constructor. }
  split; [exact F|]. split; [vm_compute; reflexivity|]. split; [vm_compute; reflexivity|].
  apply (restart_bisim bisim_h bisim_h2). exact F.
Qed.
