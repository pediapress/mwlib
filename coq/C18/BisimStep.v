(* C18 — restart bisimulation: the relation `Core` is preserved, with equal outputs, by the primitives of the model
   (mark_finished, pushjob, preenall, deliver, pop_or_block), by connection death, hub events, killjobs, dropjobs,
   dropdead, push and the handletimeouts sweep; hence `Sim` is preserved by every op that does not mention a dropped
   connection, with observably equal outputs (sim_step), also along histories (sim_outs). *)
From Coq Require Import List NArith Bool Lia Arith Sorted.
From MW Require Import C16.Model C16.Proofs C17.Proofs C17.ProofsOrder C17.ProofsCount C17.ProofsLive C18.Proofs C18.ProofsIds
  C18.ProofsInv C18.ProofsTimeout C18.BisimBase C18.BisimTE.
Import ListNotations.
Open Scope N_scope.

(* for updates that leave most fields of both states alone: every field of Core0 is then the old one, or holds by
   reflexivity; what is left is what the update really touches *)
Ltac core_triv C :=
  let Qa := fresh "Qa" in let Qb := fresh "Qb" in
  destruct C as (C&Qa&Qb); split; [|split; [exact Qa|exact Qb]];
  constructor; sf; try (destruct C; assumption); try reflexivity.

Lemma core_set_tq : forall dead a b qa qb, Core dead a b ->
  (forall e, is_done (s_jobs a) (snd (snd e)) = false -> (In e qb <-> In e qa)) ->
  Core dead (set_tq qa a) (set_tq qb b).
Proof. intros dead a b qa qb C R. core_triv C. Qed.

Lemma core_set_now : forall dead a b v, Core dead a b -> Core dead (set_now v a) (set_now v b).
Proof. intros dead a b v C. core_triv C. Qed.

Lemma core_set_choices : forall dead a b v, Core dead a b -> Core dead (set_choices v a) (set_choices v b).
Proof. intros dead a b v C. core_triv C. Qed.

Lemma core_set_ids : forall dead a b v, Core dead a b -> Core dead (set_ids v a) (set_ids v b).
Proof. intros dead a b v C. core_triv C. Qed.

Lemma core_set_requeued : forall dead a b v v', Core dead a b -> Core dead (set_requeued v a) (set_requeued v' b).
Proof. intros dead a b v v' C. core_triv C. Qed.

Lemma core_set_handed : forall dead a b v v', Core dead a b -> Core dead (set_handed v a) (set_handed v' b).
Proof. intros dead a b v v' C. core_triv C. Qed.

Lemma core_set_conns : forall dead a b cs, Core dead a b -> Core dead (set_conns cs a) (set_conns (dead ++ cs) b).
Proof. intros dead a b cs C. core_triv C. Qed.

Lemma core_set_hub : forall dead a b h, Core dead a b -> Forall (fresh_ev dead) h -> Core dead (set_hub h a) (set_hub h b).
Proof.
  intros dead a b h C F. core_triv C. rewrite Forall_forall in F.
  intros c [H|H]; apply F in H; exact H.
Qed.

Lemma core_hub_fresh : forall dead a b, Core0 dead a b -> Forall (fresh_ev dead) (s_hub a).
Proof.
  intros dead a b C. apply Forall_forall. intros [c|c|x] H; cbn [fresh_ev]; auto; apply (c_fh _ _ _ C); auto.
Qed.

Lemma core_remove_waiter : forall dead a b c, Core dead a b ->
  Core dead (set_waiters (remove_waiter c (s_waiters a)) a) (set_waiters (remove_waiter c (s_waiters b)) b).
Proof.
  intros dead a b c C. rewrite (c_waiters _ _ _ (proj1 C)). core_triv C.
  intros w H. apply (c_fw _ _ _ C). eapply remove_waiter_In; eauto.
Qed.

Lemma core_get : forall dead a b c, Core0 dead a b -> ~ In c (map c_id dead) ->
  get_conn (s_conns b) c = get_conn (s_conns a) c.
Proof. intros dead a b c C F. rewrite (c_conns _ _ _ C). apply get_conn_dead. exact F. Qed.

Lemma core_put : forall dead a b x, Core dead a b -> ~ In (c_id x) (map c_id dead) ->
  Core dead (set_conns (put_conn (s_conns a) x) a) (set_conns (put_conn (s_conns b) x) b).
Proof.
  intros dead a b x C F. rewrite (c_conns _ _ _ (proj1 C)), put_conn_dead by exact F. core_triv C.
Qed.

Lemma is_done_setjob_mono : forall js x f y,
  (forall j, j_serial j = x -> j_serial (f j) = x) -> (forall j, j_done j = true -> j_done (f j) = true) ->
  is_done js y = true -> is_done (setjob x f js) y = true.
Proof.
  intros js x f y Hs Hd. unfold is_done. rewrite getjob_setjob by exact Hs.
  destruct (y =? x) eqn:E; [|auto]. apply N.eqb_eq in E. subst y.
  destruct (getjob js x) as [j|]; cbn [option_map]; auto.
Qed.

Lemma core_setjob : forall dead a b x f, Core dead a b ->
  (forall j, j_serial j = x -> j_serial (f j) = x) -> (forall j, j_done j = true -> j_done (f j) = true) ->
  Core dead (set_jobs (setjob x f (s_jobs a)) a) (set_jobs (setjob x f (s_jobs b)) b).
Proof.
  intros dead a b x f (C&Qa&Qb) Hs Hd. split; [|split; [exact Qa|exact Qb]].
  constructor; sf; try (destruct C; assumption).
  - intros y j. rewrite !getjob_setjob by exact Hs. destruct (y =? x) eqn:E; [|apply (c_jobs _ _ _ C)].
    destruct (getjob (s_jobs a) x) as [ja|] eqn:Ea; cbn [option_map]; [|discriminate].
    rewrite (c_jobs _ _ _ C _ _ Ea). cbn [option_map]. auto.
  - intros y. rewrite getjob_setjob by exact Hs. destruct (y =? x) eqn:E.
    + apply N.eqb_eq in E. subst y. destruct (getjob (s_jobs a) x) as [ja|] eqn:Ea; cbn [option_map]; [discriminate|].
      intros _. apply is_done_setjob_mono; auto. apply (c_done _ _ _ C). exact Ea.
    + intro H. apply is_done_setjob_mono; auto. apply (c_done _ _ _ C). exact H.
  - intro k. eapply filter_sub_eq; [|apply (c_q _ _ _ C)]. intros e H. unfold und in *.
    destruct (is_done (s_jobs a) (snd e)) eqn:D; [|reflexivity].
    rewrite (is_done_setjob_mono _ _ _ _ Hs Hd D) in H. discriminate.
  - intros e H. apply (c_tq _ _ _ C). destruct (is_done (s_jobs a) (snd (snd e))) eqn:D; [|reflexivity].
    rewrite (is_done_setjob_mono _ _ _ _ Hs Hd D) in H. discriminate.
Qed.

Lemma core_mark : forall dead a b x u, Core dead a b -> Core dead (mark_finished x u a) (mark_finished x u b).
Proof.
  intros dead a b x u C. unfold mark_finished.
  destruct (getjob (s_jobs a) x) as [j|] eqn:Ea.
  - rewrite (c_jobs _ _ _ (proj1 C) _ _ Ea). destruct (j_done j) eqn:Dj; [exact C|]. cbv zeta.
    set (fin := mkJob _ _ _ _ _ _ _ _ _ _ _ _).
    assert (C1 : Core dead (set_jobs (setjob x (fun _ => fin) (s_jobs a)) a) (set_jobs (setjob x (fun _ => fin) (s_jobs b)) b)).
    { apply core_setjob; [exact C| |]; intros; unfold fin; cbn; [eapply getjob_serial; eauto|reflexivity]. }
    destruct C as (C0&Qa&Qb). destruct C1 as (C1&_&_).
    split; [|split; [exact Qa|exact Qb]].
    constructor; sf; try (destruct C1; assumption).
    + tob C0. rewrite has_waiter_dead by apply (c_dead _ _ _ C0). reflexivity.
    + intros c H. apply (c_fh _ _ _ C0). destruct (has_waiter x (s_conns a)); [|exact H].
      destruct H as [H|H]; apply in_app_or in H; destruct H as [H|[H|[]]]; try discriminate; auto.
  - pose proof (c_done _ _ _ (proj1 C) _ Ea) as D. unfold is_done in D.
    destruct (getjob (s_jobs b) x) as [jb|]; [|exact C]. rewrite D. exact C.
Qed.

Lemma core_pushjob : forall dead a b x, Core dead a b -> is_done (s_jobs a) x = false ->
  Core dead (pushjob x a) (pushjob x b).
Proof.
  intros dead a b x (C&Qa&Qb) Dx. split; [|split; apply qs_pushjob; assumption].
  destruct (is_done_false _ _ Dx) as (j&Ej&Dj).
  unfold pushjob. rewrite Ej, (c_jobs _ _ _ C _ _ Ej). cbv zeta. sf. tob C.
  destruct (filter (watches (j_chan j)) (s_waiters a)) as [|a0 alts] eqn:EA.
  - constructor; sf; try (destruct C; assumption); try reflexivity.
    + intro k. rewrite !qget_set. destruct (k =? j_chan j) eqn:E; [|apply (c_q _ _ _ C)].
      change (match q_get (s_queues b) (j_chan j) with Some q => q | None => [] end) with (qget (s_queues b) (j_chan j)).
      change (match q_get (s_queues a) (j_chan j) with Some q => q | None => [] end) with (qget (s_queues a) (j_chan j)).
      rewrite (filter_ins _ _ (qget (s_queues b) (j_chan j)));
        [|apply qs_sorted_qget; exact Qb|unfold und; cbn [snd]; rewrite Dx; reflexivity].
      rewrite (filter_ins _ _ (qget (s_queues a) (j_chan j)));
        [|apply qs_sorted_qget; exact Qa|unfold und; cbn [snd]; rewrite Dx; reflexivity].
      rewrite (c_q _ _ _ C). reflexivity.
    + intros e H. rewrite !tins_In. rewrite (c_tq _ _ _ C e H). tauto.
  - set (w := nth _ (a0 :: alts) a0).
    assert (Hw : In w (s_waiters a)).
    { assert (H : In w (a0 :: alts)) by (apply nth_In_default; left; reflexivity).
      rewrite <- EA in H. apply filter_In in H. tauto. }
    pose proof (c_fw _ _ _ C _ Hw) as Fw.
    rewrite get_conn_dead by exact Fw. rewrite put_conn_dead by (cbn [c_id]; exact Fw).
    constructor; sf; try (destruct C; assumption); try reflexivity.
    + intros e H. rewrite !tins_In. rewrite (c_tq _ _ _ C e H). tauto.
    + intros w' H. apply (c_fw _ _ _ C). eapply remove_waiter_In; eauto.
    + intros c H. destruct H as [H|H]; apply in_app_or in H; destruct H as [H|[H|[]]]; try discriminate;
        try (apply (c_fh _ _ _ C); auto; fail). inversion H; subst. exact Fw.
Qed.

Lemma core_preenall : forall dead a b, Core dead a b -> Core dead (preenall a) (preenall b).
Proof.
  intros dead a b (C&Qa&Qb). split; [|split; apply qs_preenall; assumption].
  pose proof (core_isdone _ _ _ C) as DN.
  unfold preenall. constructor; sf; try (destruct C; assumption).
  intro k. rewrite (qget_map (preen (s_jobs b))), (qget_map (preen (s_jobs a))) by reflexivity.
  rewrite (preen_ext _ _ _ DN). rewrite !filter_preen. apply (c_q _ _ _ C).
Qed.

Definition headund (js : list job) (qs : list (N * list qkey)) : Prop :=
  forall k y r, q_get qs k = Some (y :: r) -> und js y = true.

Lemma headund_preenall : forall s, headund (s_jobs s) (s_queues (preenall s)).
Proof.
  intros s k y r H. unfold und. rewrite (preenall_head _ _ _ _ H). reflexivity.
Qed.

Lemma cand_transfer : forall js qa qb chs x, headund js qa -> headund js qb ->
  (forall k, filter (und js) (qget qa k) = filter (und js) (qget qb k)) ->
  cand qa (match chs with [] => map fst qa | _ => chs end) x ->
  cand qb (match chs with [] => map fst qb | _ => chs end) x.
Proof.
  intros js qa qb chs x Ha Hb F (k&rest&Hk&Hq).
  assert (Q : qget qa k = x :: rest) by (unfold qget; rewrite Hq; reflexivity).
  pose proof (F k) as Fk. rewrite Q in Fk. cbn [filter] in Fk. rewrite (Ha _ _ _ Hq) in Fk.
  unfold qget in Fk. destruct (q_get qb k) as [[|y r]|] eqn:Eb; cbn [filter] in Fk; try discriminate.
  rewrite (Hb _ _ _ Eb) in Fk. inversion Fk; subst y. exists k, r. split; [|exact Eb].
  destruct chs; [eapply q_get_dom; eauto|exact Hk].
Qed.

Lemma core_deliver : forall dead a b c chs x, Core dead a b -> is_done (s_jobs a) x = false -> ~ In c (map c_id dead) ->
  Core dead (fst (deliver c chs x a)) (fst (deliver c chs x b)) /\ snd (deliver c chs x b) = snd (deliver c chs x a).
Proof.
  intros dead a b c chs x C Dx Fc. destruct (is_done_false _ _ Dx) as (j&Ej&Dj).
  unfold deliver. rewrite Ej, (c_jobs _ _ _ (proj1 C) _ _ Ej), (core_get _ _ _ _ (proj1 C) Fc). cbv zeta. cbn [fst snd].
  split; [|reflexivity]. apply core_set_handed, core_put; assumption.
Qed.

Lemma core_pop_tail : forall dead a b ch, Core dead a b ->
  Core dead (set_queues (q_set (s_queues (preenall a)) ch (tl (qget (s_queues (preenall a)) ch))) (preenall a))
            (set_queues (q_set (s_queues (preenall b)) ch (tl (qget (s_queues (preenall b)) ch))) (preenall b)).
Proof.
  intros dead a b ch C. pose proof (core_preenall _ _ _ C) as (C1&Qa1&Qb1). destruct C as (C&Qa&Qb).
  pose proof (core_isdone _ _ _ C) as DN.
  split; [|split; apply qs_set; try assumption; apply sorted_tl; apply qs_sorted_qget; assumption].
  constructor; sf; try (destruct C1; assumption).
  intro k. rewrite !qget_set. destruct (k =? ch) eqn:E; [|apply (c_q _ _ _ C1)].
  unfold preenall. sf. rewrite (qget_map (preen (s_jobs b))), (qget_map (preen (s_jobs a))) by reflexivity.
  rewrite (preen_ext _ _ _ DN). apply preen_rel. apply (c_q _ _ _ C).
Qed.

Lemma core_pop : forall dead a b c chs, Core dead a b -> ~ In c (map c_id dead) ->
  Core dead (fst (pop_or_block c chs a)) (fst (pop_or_block c chs b)) /\
  snd (pop_or_block c chs b) = snd (pop_or_block c chs a).
Proof.
  intros dead a b c chs C Fc.
  pose proof (core_preenall _ _ _ C) as C1. pose proof (core_isdone _ _ _ (proj1 C)) as DN.
  assert (HA : headund (s_jobs a) (s_queues (preenall a))) by apply headund_preenall.
  assert (HB : headund (s_jobs a) (s_queues (preenall b))).
  { intros k y r H. rewrite <- (und_ext _ _ DN). eapply (headund_preenall b); eauto. }
  assert (HH : heads (s_queues (preenall b)) (match chs with [] => map fst (s_queues (preenall b)) | _ => chs end) =
               heads (s_queues (preenall a)) (match chs with [] => map fst (s_queues (preenall a)) | _ => chs end)).
  { apply heads_cand_eq. intro x. split; apply cand_transfer with (js := s_jobs a); auto; intro k;
      [|symmetry]; apply (c_q _ _ _ (proj1 C1)). }
  unfold pop_or_block. cbv zeta. rewrite HH.
  destruct (heads (s_queues (preenall a)) _) as [x|] eqn:Eh.
  - destruct (heads_spec _ _ _ Eh) as (k&rest&_&Hq). pose proof (HA _ _ _ Hq) as Ux. unfold und in Ux.
    apply negb_true_iff in Ux. destruct (is_done_false _ _ Ux) as (j&Ej&Dj).
    change (s_jobs (preenall a)) with (s_jobs a). change (s_jobs (preenall b)) with (s_jobs b).
    rewrite Ej, (c_jobs _ _ _ (proj1 C) _ _ Ej).
    apply core_deliver; [apply (core_pop_tail _ _ _ (j_chan j) C)|exact Ux|exact Fc].
  - destruct C1 as (C1&Qa1&Qb1). cbn [fst snd]. split; [|reflexivity].
    split; [|split; [exact Qa1|exact Qb1]]. sf. tob C1.
    rewrite get_conn_dead by exact Fc. rewrite put_conn_dead by exact Fc.
    constructor; sf; try (destruct C1; assumption); try reflexivity.
    intros w H. apply in_app_or in H. destruct H as [H|[H|[]]]; [apply (c_fw _ _ _ C1); exact H|subst w; exact Fc].
Qed.

Lemma core_shutdown : forall dead l a b, Core dead a b -> Core dead (shutdown_loop l a) (shutdown_loop l b).
Proof.
  induction l as [|[i w] r IH]; intros a b C; cbn [shutdown_loop]; [exact C|].
  rewrite (core_isdone _ _ _ (proj1 C)). destruct (is_done (s_jobs a) w) eqn:D; [apply IH; exact C|].
  apply IH. apply core_pushjob; [apply core_set_requeued; exact C|exact D].
Qed.

Lemma core_die : forall dead a b c, Core dead a b -> ~ In c (map c_id dead) ->
  Core dead (fst (die c a)) (fst (die c b)) /\ snd (die c b) = snd (die c a).
Proof.
  intros dead a b c C Fc. unfold die. cbv zeta. cbn [fst snd]. split; [|reflexivity].
  rewrite (core_get _ _ _ _ (proj1 C) Fc). apply core_shutdown. apply core_put; [exact C|exact Fc].
Qed.

Lemma core_run_event : forall dead a b e, Core dead a b -> fresh_ev dead e ->
  (forall ser, e = EvDone ser -> really_done (s_jobs a) ser) ->
  Core dead (fst (run_event e a)) (fst (run_event e b)) /\ snd (run_event e b) = snd (run_event e a).
Proof.
  intros dead a b e C Fe Hd. pose proof (core_isdone _ _ _ (proj1 C)) as DN.
  destruct e as [c|c|ser]; cbn [run_event fresh_ev] in *.
  - rewrite (core_get _ _ _ _ (proj1 C) Fe).
    destruct (c_st (get_conn (s_conns a) c)) as [|chs [x|]|w|]; try (split; [exact C|reflexivity]).
    rewrite DN. destruct (is_done (s_jobs a) x) eqn:D; [apply core_pop|apply core_deliver]; auto.
  - rewrite (core_get _ _ _ _ (proj1 C) Fe).
    destruct (c_st (get_conn (s_conns a) c)) as [|chs mb|w|].
    + apply core_die; auto.
    + apply core_die; [|exact Fe]. destruct mb as [x|]; [|apply core_remove_waiter; exact C].
      sf. rewrite DN. destruct (is_done (s_jobs a) x) eqn:D; [apply core_remove_waiter; exact C|].
      apply core_pushjob; [apply core_remove_waiter; exact C|exact D].
    + apply core_die; auto.
    + split; [exact C|reflexivity].
  - destruct (Hd ser eq_refl) as (j&Ej&Dj). pose proof (c_jobs _ _ _ (proj1 C) _ _ Ej) as Ejb.
    rewrite (c_conns _ _ _ (proj1 C)), (release_dead _ _ _ _ (c_dead _ _ _ (proj1 C))).
    rewrite (release_ext ser (s_jobs a) (s_jobs b)) by congruence.
    rewrite (has_waiter_dead _ _ _ (c_dead _ _ _ (proj1 C))), (c_ids _ _ _ (proj1 C)).
    destruct (release ser (s_jobs a) (s_conns a)) as [cs o]. cbn [fst snd]. rewrite Ej, Ejb.
    destruct (j_drop j && has_waiter ser (s_conns a) && id_is (s_ids a) (j_id j) ser); cbn [fst snd];
      (split; [|reflexivity]); [apply core_set_ids|]; apply core_set_conns; exact C.
Qed.

Lemma core_run_events : forall dead es a b, Core dead a b -> Forall (fresh_ev dead) es -> hub_ok (s_jobs a) es ->
  Core dead (fst (run_events es a)) (fst (run_events es b)) /\ snd (run_events es b) = snd (run_events es a).
Proof.
  induction es as [|e r IH]; intros a b C F H; cbn [run_events]; [split; [exact C|reflexivity]|].
  inversion F as [|? ? Fe Fr]; subst.
  destruct (core_run_event dead a b e C Fe) as [C1 O1]. { intros ser E. apply H. left. exact E. }
  pose proof (run_event_jobs e a) as J.
  destruct (run_event e a) as [a1 oa1], (run_event e b) as [b1 ob1]. cbn [fst snd] in *.
  destruct (IH a1 b1 C1 Fr) as [C2 O2]. { rewrite J. intros ser Hin. apply H. right. exact Hin. }
  destruct (run_events r a1) as [a2 oa2], (run_events r b1) as [b2 ob2]. cbn [fst snd] in *.
  split; [exact C2|congruence].
Qed.

Lemma core_killjobs : forall dead js a b, Core dead a b -> Core dead (killjobs js a) (killjobs js b).
Proof.
  induction js as [|i r IH]; intros a b C; cbn [killjobs]; [exact C|]. rewrite (c_ids _ _ _ (proj1 C)).
  destruct (id_lookup (s_ids a) i); apply IH; [apply core_mark|]; exact C.
Qed.

Lemma core_dropjobs : forall dead js a b, Core dead a b -> Core dead (dropjobs js a) (dropjobs js b).
Proof.
  induction js as [|i r IH]; intros a b C; cbn [dropjobs]; [exact C|]. rewrite (c_ids _ _ _ (proj1 C)).
  destruct (id_lookup (s_ids a) i); apply IH; [|exact C]. apply core_setjob; [exact C| |]; intros j H; cbn; exact H.
Qed.

Lemma core_dropdead : forall dead l a b, Core dead a b -> IdsOK a -> Core dead (dropdead_loop l a) (dropdead_loop l b).
Proof.
  induction l as [|i r IH]; intros a b C K; cbn [dropdead_loop]; [exact C|]. rewrite (c_ids _ _ _ (proj1 C)).
  destruct (id_lookup (s_ids a) i) as [ser|] eqn:El; [|apply IH; assumption].
  destruct (proj2 K i ser (id_lookup_In _ _ _ El)) as (j&Ej&_).
  assert (K1 : IdsOK (dropdead_loop [i] a)) by (apply dropdead_ids_ok; exact K).
  cbn [dropdead_loop] in K1. rewrite El, Ej in K1. cbv zeta in K1.
  rewrite Ej, (c_jobs _ _ _ (proj1 C) _ _ Ej). cbv zeta. rewrite ?(c_now _ _ _ (proj1 C)), ?(c_ids _ _ _ (proj1 C)).
  apply IH; [|exact K1].
  set (ex := match j_dl j with Some d => negb (d =? 0) && (d <? s_now a) | None => false end).
  assert (C1 : Core dead (if ex then set_ids (id_del (s_ids a) i) a else a) (if ex then set_ids (id_del (s_ids a) i) b else b))
    by (destruct ex; [apply core_set_ids|]; exact C).
  destruct (j_done j && negb (dl_truthy (j_dl j))); [|exact C1].
  apply core_setjob; [exact C1| |]; intros j0 H; cbn; exact H.
Qed.

(* nothing in the state refers to serial x *)
Definition NoSer (s : state) (x : N) : Prop :=
  getjob (s_jobs s) x = None /\
  (forall k e, In e (qget (s_queues s) k) -> snd e <> x) /\
  (forall e, In e (s_tq s) -> snd (snd e) <> x).

Lemma core_push : forall dead a b ch prio name tmo, Core dead a b -> IdsOK a ->
  NoSer a (s_count a + 1) -> NoSer b (s_count a + 1) ->
  Core dead (fst (push ch prio name tmo a)) (fst (push ch prio name tmo b)) /\
  snd (push ch prio name tmo b) = snd (push ch prio name tmo a).
Proof.
  intros dead a b ch prio name tmo C K (Na1&Na2&Na3) (Nb1&Nb2&Nb3).
  assert (F : forall j, j_serial j = s_count a + 1 -> j_done j = false ->
    Core dead (pushjob (s_count a + 1) (set_jobs (j :: s_jobs a) (set_count (s_count a + 1) a)))
              (pushjob (s_count a + 1) (set_jobs (j :: s_jobs b) (set_count (s_count a + 1) b)))).
  { intros j Hs Hd. apply core_pushjob; [|sf; unfold is_done; cbn [getjob]; rewrite Hs, N.eqb_refl; exact Hd].
    assert (U : forall e, snd e <> s_count a + 1 -> und (j :: s_jobs a) e = und (s_jobs a) e).
    { intros e He. unfold und, is_done. cbn [getjob]. rewrite Hs.
      destruct (s_count a + 1 =? snd e) eqn:E; [apply N.eqb_eq in E; congruence|reflexivity]. }
    destruct C as (C&Qa&Qb). split; [|split; [exact Qa|exact Qb]].
    constructor; sf; try (destruct C; assumption); try reflexivity.
    - intros x j0. cbn [getjob]. destruct (j_serial j =? x); [auto|apply (c_jobs _ _ _ C)].
    - intros x. unfold is_done. cbn [getjob]. destruct (j_serial j =? x); [discriminate|]. apply (c_done _ _ _ C).
    - intro k. transitivity (filter (und (s_jobs a)) (qget (s_queues b) k)).
      + apply filter_ext_in. intros e He. apply U. eapply Nb2; eauto.
      + rewrite (c_q _ _ _ C). symmetry. apply filter_ext_in. intros e He. apply U. eapply Na2; eauto.
    - intros e H. unfold is_done in H. cbn [getjob] in H. rewrite Hs in H.
      destruct (s_count a + 1 =? snd (snd e)) eqn:E.
      + apply N.eqb_eq in E. split; intro Hin; exfalso; [eapply Nb3|eapply Na3]; eauto.
      + apply (c_tq _ _ _ C). exact H. }
  unfold push. tob (proj1 C). cbv zeta.
  destruct name as [n|]; [|cbn [fst snd]; split; [apply F|]; reflexivity].
  destruct (id_lookup (s_ids a) (JName n)) as [ser|] eqn:El; [|cbn [fst snd]; split; [apply F|]; reflexivity].
  destruct (proj2 K _ _ (id_lookup_In _ _ _ El)) as (j&Ej&_). rewrite Ej, (c_jobs _ _ _ (proj1 C) _ _ Ej).
  destruct (err_is_killed (j_err j)); cbn [fst snd]; [split; [apply F|]; reflexivity|split; [exact C|reflexivity]].
Qed.

(* The two timeout heaps are not related structurally (the side that only dropped its connections holds stale and
   duplicate entries): it suffices that both are sorted and contain the same entries of UNFINISHED jobs. *)

Lemma core_timeouts : forall dead qa qb a b, Core dead a b -> tsorted qa -> tsorted qb ->
  (forall e, is_done (s_jobs a) (snd (snd e)) = false -> (In e qb <-> In e qa)) ->
  Core dead (timeouts_loop qa a) (timeouts_loop qb b).
Proof.
  intros dead qa. induction qa as [|ea ra IHa]; intros qb a b C Sa Sb R;
    pose proof (core_isdone _ _ _ (proj1 C)) as DN.
  - induction qb as [|eb rb IHb]; cbn [timeouts_loop].
    + apply core_set_tq; [exact C|]. intros e _. tauto.
    + rewrite DN. destruct (is_done (s_jobs a) (snd (snd eb))) eqn:D.
      * apply IHb; [eapply tsorted_tail; eauto|]. intros e He. split; [intro H|intros []]. apply (R e He). right. exact H.
      * exfalso. apply (proj1 (R eb D)). left; reflexivity.
  - cbn [timeouts_loop]. destruct (is_done (s_jobs a) (snd (snd ea))) eqn:Da.
    + apply IHa; auto; [eapply tsorted_tail; eauto|]. intros e He. split; intro H.
      * destruct (proj1 (R e He) H) as [E|E]; [subst e; exfalso; exact (eq_true_false_abs _ Da He)|exact E].
      * apply (R e He). right; exact H.
    + induction qb as [|eb rb IHb].
      * exfalso. apply (proj2 (R ea Da)). left; reflexivity.
      * cbn [timeouts_loop]. rewrite DN. destruct (is_done (s_jobs a) (snd (snd eb))) eqn:Db.
        -- apply IHb; [eapply tsorted_tail; eauto|]. intros e He. split; intro H.
           ++ apply (R e He). right; exact H.
           ++ destruct (proj2 (R e He) H) as [E|E]; [subst e; exfalso; exact (eq_true_false_abs _ Db He)|exact E].
        -- assert (E : eb = ea).
           { apply tkey_le_antisym.
             - eapply tsorted_head_le; [exact Sb|]. apply (R ea Da). left; reflexivity.
             - eapply tsorted_head_le; [exact Sa|]. apply (R eb Db). left; reflexivity. }
           subst eb. rewrite (c_now _ _ _ (proj1 C)). destruct (s_now a <? fst ea).
           ++ apply core_set_tq; assumption.
           ++ apply IHa; [apply core_mark; exact C|eapply tsorted_tail; eauto|eapply tsorted_tail; eauto|].
              intros e He.
              assert (He0 : is_done (s_jobs a) (snd (snd e)) = false).
              { destruct (is_done (s_jobs a) (snd (snd e))) eqn:D0; [|reflexivity].
                rewrite (tab_le_done _ _ _ (mark_tab_le _ _ _) D0) in He. discriminate. }
              assert (Ne : e <> ea).
              { intro; subst e. rewrite mark_done in He. discriminate. }
              split; intro H.
              ** destruct (proj1 (R e He0) (or_intror H)) as [E|E]; [congruence|exact E].
              ** destruct (proj2 (R e He0) (or_intror H)) as [E|E]; [congruence|exact E].
Qed.

Definition Sim (dead : list conn) (a b : state) : Prop :=
  Core dead a b /\ RGood a /\ RGood b /\ TQ a /\ TQ b /\ TE a /\ TE b.

Lemma noser_fresh : forall s, Inv s [] [] -> TE s -> forall x, s_count s < x -> NoSer s x.
Proof.
  intros s I K x Hx. split; [|split].
  - destruct (getjob (s_jobs s) x) eqn:E; [|reflexivity]. pose proof (inv_tab _ _ _ I _ _ E). lia.
  - intros k [p y] He. cbn [snd]. destruct (qget_In_some _ _ _ He) as (q&Hq&Hin). apply q_get_In in Hq.
    destruct (inv_q _ _ _ I _ _ _ _ Hq Hin) as (j&Ej&_). pose proof (inv_tab _ _ _ I _ _ Ej). lia.
  - intros [d [p y]] He. destruct (K _ He) as (j&E&_). cbn [snd] in *. pose proof (inv_tab _ _ _ I _ _ E). lia.
Qed.

Lemma core_step : forall dead a b o, Sim dead a b -> fresh_op (map c_id dead) o ->
  Core dead (fst (step a o)) (fst (step b o)) /\ Forall2 obs_eq (snd (step a o)) (snd (step b o)).
Proof.
  intros dead a b o (C&Ga&Gb&Ta&Tb&Ea&Eb) F.
  pose proof (core_isdone _ _ _ (proj1 C)) as DN.
  destruct Ga as ((Aa&Ha&Ia)&QSa&Ka). destruct Gb as ((Ab&Hb&Ib)&QSb&Kb).
  destruct o as [ch prio name tmo|c chs| |c i res e|c js|dt|c|k|c i|i|i v| |dt|js|]; cbn [step].
  - (* Add *)
    destruct (core_push dead a b ch prio name tmo C Ka) as [P1 P2].
    { apply noser_fresh; auto. lia. }
    { rewrite <- (c_count _ _ _ (proj1 C)). apply noser_fresh; auto. lia. }
    destruct (push ch prio name tmo a) as [a1 ia], (push ch prio name tmo b) as [b1 ib]. cbn [fst snd] in *. subst ib.
    split; [exact P1|apply obs_list_refl].
  - (* StartPull *)
    assert (Fc : ~ In c (map c_id dead)) by (apply F; left; reflexivity).
    unfold is_idle. rewrite (core_get _ _ _ _ (proj1 C) Fc).
    destruct (c_st (get_conn (s_conns a) c)); try (split; [exact C|apply obs_list_refl]).
    destruct (core_pop dead a b c chs C Fc) as [P1 P2]. split; [exact P1|apply obs_of_eq; exact P2].
  - (* RunLoop *)
    rewrite (c_hub _ _ _ (proj1 C)).
    destruct (core_run_events dead (s_hub a) (set_hub [] a) (set_hub [] b)) as [P1 P2];
      [apply core_set_hub; [exact C|constructor]|eapply core_hub_fresh; exact (proj1 C)|exact Ha|].
    split; [exact P1|apply obs_of_eq; exact P2].
  - (* Finish *)
    assert (Fc : ~ In c (map c_id dead)) by (apply F; left; reflexivity).
    unfold is_idle. rewrite (core_get _ _ _ _ (proj1 C) Fc).
    destruct (c_st (get_conn (s_conns a) c)); try (split; [exact C|apply obs_list_refl]).
    rewrite (c_ids _ _ _ (proj1 C)). destruct (id_lookup (s_ids a) i) as [ser|]; [|split; [exact C|apply obs_list_refl]].
    cbn [fst snd]. split; [|apply obs_list_refl].
    match goal with |- context [mark_finished ser ?u b] => pose proof (core_mark dead a b ser u C) as C1 end.
    rewrite (core_get _ _ _ c (proj1 C1) Fc). apply core_put; [exact C1|exact Fc].
  - (* Kill *)
    assert (Fc : ~ In c (map c_id dead)) by (apply F; left; reflexivity).
    unfold is_idle. rewrite (core_get _ _ _ _ (proj1 C) Fc).
    destruct (c_st (get_conn (s_conns a) c)); try (split; [exact C|apply obs_list_refl]).
    cbn [fst snd]. split; [|apply obs_list_refl].
    pose proof (core_killjobs dead js a b C) as C1.
    rewrite (core_get _ _ _ c (proj1 C1) Fc). apply core_put; [exact C1|exact Fc].
  - (* Tick *)
    cbn [fst snd]. split; [|apply obs_list_refl]. unfold handletimeouts. apply core_preenall.
    rewrite (c_now _ _ _ (proj1 C)).
    apply core_timeouts; [apply core_set_now; exact C|exact (proj1 Ta)|exact (proj1 Tb)|exact (c_tq _ _ _ (proj1 C))].
  - (* Disconnect *)
    assert (Fc : ~ In c (map c_id dead)) by (apply F; left; reflexivity).
    rewrite (core_get _ _ _ _ (proj1 C) Fc).
    destruct (c_st (get_conn (s_conns a) c)); cbn [fst snd]; (split; [|apply obs_list_refl]); try exact C;
      rewrite (c_hub _ _ _ (proj1 C)); (apply core_set_hub; [exact C|]); apply Forall_app;
      (split; [eapply core_hub_fresh; exact (proj1 C)|constructor; [exact Fc|constructor]]).
  - (* Choice *)
    cbn [fst snd]. split; [|apply obs_list_refl]. rewrite (c_choices _ _ _ (proj1 C)). apply core_set_choices. exact C.
  - (* Wait *)
    assert (Fc : ~ In c (map c_id dead)) by (apply F; left; reflexivity).
    unfold is_idle. rewrite (core_get _ _ _ _ (proj1 C) Fc).
    destruct (c_st (get_conn (s_conns a) c)); try (split; [exact C|apply obs_list_refl]).
    rewrite (c_ids _ _ _ (proj1 C)).
    destruct (id_lookup (s_ids a) i) as [ser|] eqn:El; [|split; [exact C|apply obs_list_refl]].
    destruct (proj2 Ka _ _ (id_lookup_In _ _ _ El)) as (j&Ej&_). rewrite Ej, (c_jobs _ _ _ (proj1 C) _ _ Ej).
    destruct (j_done j).
    + destruct (j_drop j && id_is (s_ids a) (j_id j) ser); cbn [fst snd]; (split; [|apply obs_list_refl]);
        [apply core_set_ids|]; exact C.
    + cbn [fst snd]. split; [|apply obs_list_refl]. rewrite ?(core_get _ _ _ c (proj1 C) Fc).
      apply core_put; [exact C|exact Fc].
  - (* Info *)
    cbn [fst snd]. split; [exact C|]. rewrite (c_ids _ _ _ (proj1 C)).
    destruct (id_lookup (s_ids a) i) as [ser|] eqn:El; [|apply obs_list_refl].
    destruct (proj2 Ka _ _ (id_lookup_In _ _ _ El)) as (j&Ej&_). rewrite Ej, (c_jobs _ _ _ (proj1 C) _ _ Ej).
    apply obs_list_refl.
  - (* SetInfo *)
    rewrite (c_ids _ _ _ (proj1 C)). destruct (id_lookup (s_ids a) i) as [ser|]; [|split; [exact C|apply obs_list_refl]].
    cbn [fst snd]. split; [|apply obs_list_refl]. apply core_setjob; [exact C| |]; intros j H; cbn; exact H.
  - (* Stats *)
    cbn [fst snd]. split; [exact C|]. constructor; [|constructor]. cbn [obs_eq].
    rewrite (c_count _ _ _ (proj1 C)), (c_ids _ _ _ (proj1 C)). split; [reflexivity|]. split; [reflexivity|].
    intro k. rewrite !busy_get_map. unfold count_undone.
    change (fun x : N * N => negb (is_done (s_jobs a) (snd x))) with (und (s_jobs a)).
    change (fun x : N * N => negb (is_done (s_jobs b) (snd x))) with (und (s_jobs b)).
    rewrite (filter_ext _ _ (und_ext _ _ DN)), (c_q _ _ _ (proj1 C)). reflexivity.
  - (* Advance *)
    cbn [fst snd]. split; [|apply obs_list_refl]. rewrite (c_now _ _ _ (proj1 C)). apply core_set_now. exact C.
  - (* Drop *)
    cbn [fst snd]. split; [|apply obs_list_refl]. apply core_dropjobs. exact C.
  - (* Watchdog *)
    cbn [fst snd]. split; [|apply obs_list_refl]. unfold dropdead. rewrite (c_ids _ _ _ (proj1 C)).
    apply core_dropdead; [exact C|exact Ka].
Qed.

Lemma sim_step : forall dead a b o, Sim dead a b -> fresh_op (map c_id dead) o ->
  Forall2 obs_eq (snd (step a o)) (snd (step b o)) /\ Sim dead (fst (step a o)) (fst (step b o)).
Proof.
  intros dead a b o S F. destruct (core_step dead a b o S F) as [C1 O1].
  destruct S as (C&Ga&Gb&Ta&Tb&Ea&Eb). split; [exact O1|].
  split; [exact C1|]. split; [apply step_rgood; exact Ga|]. split; [apply step_rgood; exact Gb|].
  split; [apply step_tq; [apply Ga|exact Ta]|]. split; [apply step_tq; [apply Gb|exact Tb]|].
  split; apply step_te; try assumption; [apply Ga|apply Gb].
Qed.

Lemma sim_outs : forall h2 dead a b, Sim dead a b -> Forall (fresh_op (map c_id dead)) h2 ->
  Forall2 obs_eq (outs h2 a) (outs h2 b).
Proof.
  induction h2 as [|o r IH]; intros dead a b S F; cbn [outs]; [constructor|].
  inversion F as [|? ? Fo Fr]; subst. destruct (sim_step dead a b o S Fo) as [O1 S1].
  apply Forall2_app; [exact O1|]. apply (IH dead); assumption.
Qed.
