(* C18 — restart bisimulation: two more single-state invariants of every state reachable with the full alphabet and
   restarts.  TE: every entry of timeoutq refers to a job object that exists, and carries the deadline and priority of
   that object while it is unfinished.  XI: channel keys of channel2q are unique, connection ids are unique, a Dead
   connection has no running jobs. *)
From Coq Require Import List NArith Bool Lia Arith Sorted.
From MW Require Import C16.Model C16.Proofs C17.Proofs C17.ProofsOrder C17.ProofsCount C17.ProofsLive C18.Proofs C18.ProofsIds
  C18.ProofsInv C18.ProofsTimeout.
Import ListNotations.
Open Scope N_scope.

Definition te_ok (js : list job) (e : tkey) : Prop :=
  exists j, getjob js (snd (snd e)) = Some j /\ (j_done j = false -> fst e = j_timeout j /\ fst (snd e) = j_prio j).

Definition TE (s : state) : Prop := forall e, In e (s_tq s) -> te_ok (s_jobs s) e.

Lemma te_same : forall s s', s_jobs s' = s_jobs s -> s_tq s' = s_tq s -> TE s -> TE s'.
Proof. intros s s' J Q K e H. rewrite J. apply K. rewrite <- Q. exact H. Qed.

Lemma te_ok_le : forall js js' e, tab_le js js' -> tmo_le js js' -> te_ok js e -> te_ok js' e.
Proof.
  intros js js' e T M (j&Ej&Hj). destruct (tab_le_some' _ _ _ _ T Ej) as (j'&Ej'&_). exists j'. split; [exact Ej'|].
  intro D. destruct (M _ _ Ej' D) as (j0&E0&D0&T0&P0). rewrite Ej in E0. inversion E0; subst j0.
  destruct (Hj D0) as [H1 H2]. split; congruence.
Qed.

Lemma step_te : forall s o, Inv s [] [] -> TE s -> TE (fst (step s o)).
Proof.
  apply (step_tab (fun js _ tq => forall e, In e tq -> te_ok js e)).
  - intros js ids tq x j E K e He. apply tins_In in He.
    destruct He as [He|He]; [subst e; exists j; cbn [fst snd]; auto|apply K; exact He].
  - intros js ids tq j N K e He. apply tins_In in He. destruct He as [He|He].
    + subst e. exists j. cbn [fst snd getjob]. rewrite N.eqb_refl. auto.
    + destruct (K e He) as (j0&E0&H0). exists j0. split; [|exact H0]. apply getjob_cons_old; [exact E0|congruence].
  - intros js js' ids tq T M K e He. exact (te_ok_le _ _ _ T M (K e He)).
  - auto.
  - intros js ids l tq _ K e He. apply K, in_or_app. right; exact He.
Qed.

Lemma restore_loop_tq_In : forall l s e, In e (s_tq (restore_loop l s)) ->
  In e (s_tq s) \/ exists j, In j l /\ e = (j_timeout j, (j_prio j, j_serial j)).
Proof.
  induction l as [|j r IH]; intros s e H; cbn [restore_loop] in H; [left; exact H|].
  destruct (j_done j).
  - apply IH in H. sf. destruct H as [H|(j'&Hj&He)]; [left; exact H|right; exists j'; split; [right; exact Hj|exact He]].
  - apply IH in H. sf. destruct H as [H|(j'&Hj&He)]; [|right; exists j'; split; [right; exact Hj|exact He]].
    apply tins_In in H. destruct H as [H|H]; [|left; exact H]. right. exists j. split; [left; reflexivity|exact H].
Qed.

Lemma getjob_In_some : forall l j, In j l -> getjob l (j_serial j) <> None.
Proof.
  induction l as [|y r IH]; intros j H; [destruct H|]. cbn [getjob].
  destruct (j_serial y =? j_serial j) eqn:E; [discriminate|]. destruct H as [H|H]; [subst; rewrite N.eqb_refl in E; discriminate|apply IH; exact H].
Qed.

Lemma restart_te : forall s, RGood s -> TE (restart s).
Proof.
  intros s ((A&_&I)&_&K) e H. destruct (restore_state (s_now s) (save s)) as (_&H2&_).
  unfold te_ok. unfold restart at 1. rewrite H2.
  unfold restart, restore in H. apply restore_loop_tq_In in H. destruct H as [[]|(j&Hj&He)].
  subst e. cbn [fst snd]. exists j. split; [|auto].
  apply getjob_In_nodup; [|exact Hj]. apply (sv_ser _ _ (save_ok s A I K)).
Qed.

Lemma te_init : TE init.
Proof. intros e []. Qed.

Lemma rrun_te : forall h s, RGood s -> TE s -> TE (rrun h s).
Proof.
  intros h s G K. refine (proj2 (rrun_invariant (fun s => RGood s /\ TE s) _ _ h s (conj G K))).
  - intros s0 o [G0 K0]. split; [apply step_rgood; exact G0|apply step_te; [apply G0|exact K0]].
  - intros s0 [G0 _]. split; [apply restart_rgood|apply restart_te]; exact G0.
Qed.

(* a dead connection runs nothing, and there is one record per connection id; XI: and one queue per channel *)
Definition KC (cs : list conn) : Prop :=
  (forall c, In c cs -> c_st c = Dead -> c_run c = []) /\ NoDup (map c_id cs).

Definition XI (s : state) : Prop := NoDup (map fst (s_queues s)) /\ KC (s_conns s).

Lemma q_set_keys_In : forall qs c l k, In k (map fst (q_set qs c l)) -> k = c \/ In k (map fst qs).
Proof.
  induction qs as [|[k0 m] r IH]; intros c l k H; cbn [q_set map fst In] in *.
  - destruct H as [H|[]]; auto.
  - destruct (k0 =? c) eqn:E; cbn [map fst In] in H; [right; exact H|].
    destruct H as [H|H]; [right; left; exact H|]. destruct (IH _ _ _ H); [left; auto|right; right; auto].
Qed.

Lemma q_set_keys : forall qs c l, NoDup (map fst qs) -> NoDup (map fst (q_set qs c l)).
Proof.
  induction qs as [|[k0 m] r IH]; intros c l N; cbn [q_set map fst]; [constructor; [intros []|constructor]|].
  cbn [map fst] in N. inversion N as [|? ? Hn Nr]; subst.
  destruct (k0 =? c) eqn:E; cbn [map fst]; [constructor; assumption|].
  constructor; [|apply IH; exact Nr]. intro H. apply q_set_keys_In in H. destruct H as [H|H]; [|contradiction].
  subst. rewrite N.eqb_refl in E. discriminate.
Qed.

Lemma map_keys : forall (f : list qkey -> list qkey) (qs : list (N * list qkey)), map fst (map (fun kq => (fst kq, f (snd kq))) qs) = map fst qs.
Proof. intros f qs. rewrite map_map. apply map_ext. reflexivity. Qed.

Lemma put_conn_ids_In : forall cs x k, In k (map c_id (put_conn cs x)) -> k = c_id x \/ In k (map c_id cs).
Proof.
  induction cs as [|y r IH]; intros x k H; cbn [put_conn map In] in *.
  - destruct H as [H|[]]; auto.
  - destruct (c_id y =? c_id x) eqn:E; cbn [map In] in H.
    + destruct H as [H|H]; [left; auto|right; right; exact H].
    + destruct H as [H|H]; [right; left; exact H|]. destruct (IH _ _ H); [left; auto|right; right; auto].
Qed.

Lemma kc_put : forall cs x, KC cs -> (c_st x = Dead -> c_run x = []) -> KC (put_conn cs x).
Proof.
  intros cs x [D N] Hx. split.
  - intros c H. apply put_conn_In in H. destruct H as [H|H]; [subst; exact Hx|apply D; exact H].
  - clear D Hx. induction cs as [|y r IH]; cbn [put_conn map]; [constructor; [intros []|constructor]|].
    cbn [map] in N. inversion N as [|? ? Hn Nr]; subst.
    destruct (c_id y =? c_id x) eqn:E; cbn [map].
    + apply N.eqb_eq in E. rewrite <- E. constructor; assumption.
    + constructor; [|apply IH; exact Nr]. intro H. apply put_conn_ids_In in H. destruct H as [H|H]; [|contradiction].
      rewrite H, N.eqb_refl in E. discriminate.
Qed.

Lemma release_ids : forall ser js cs, map c_id (fst (release ser js cs)) = map c_id cs.
Proof.
  intros ser js cs. induction cs as [|x r IH]; cbn [release]; [reflexivity|].
  destruct (release ser js r) as [r' o]. cbn [fst] in IH.
  destruct (c_st x) as [| | w|]; cbn [fst map]; try (rewrite IH; reflexivity).
  destruct (w =? ser); cbn [fst map c_id]; rewrite IH; reflexivity.
Qed.

Lemma release_In : forall ser js cs y, In y (fst (release ser js cs)) -> In y cs \/ c_st y = Idle.
Proof.
  intros ser js cs. induction cs as [|x r IH]; intros y H; cbn [release] in H; [destruct H|].
  destruct (release ser js r) as [r' o]. cbn [fst] in IH.
  assert (G : In y (x :: r') -> In y (x :: r) \/ c_st y = Idle).
  { intros [E|E]; [left; left; exact E|]. destruct (IH _ E); [left; right; auto|right; auto]. }
  destruct (c_st x) as [| | w|]; cbn [fst] in H; try (apply G; exact H).
  destruct (w =? ser); cbn [fst] in H; [|apply G; exact H].
  destruct H as [H|H]; [right; subst; reflexivity|]. destruct (IH _ H); [left; right; auto|right; auto].
Qed.

Lemma kc_release : forall ser js cs, KC cs -> KC (fst (release ser js cs)).
Proof.
  intros ser js cs [D N]. split; [|rewrite release_ids; exact N].
  intros c H Hd. apply release_In in H. destruct H as [H|H]; [apply D; assumption|congruence].
Qed.

Lemma xi_same : forall s s', s_queues s' = s_queues s -> s_conns s' = s_conns s -> XI s -> XI s'.
Proof. intros s s' Q C [A B]. split; [rewrite Q; exact A|rewrite C; exact B]. Qed.

Lemma pushjob_xi : forall x s, XI s -> XI (pushjob x s).
Proof.
  intros x s [A B]. unfold pushjob. destruct (getjob (s_jobs s) x) as [j|]; [|split; assumption]. cbv zeta. sf.
  destruct (filter (watches (j_chan j)) (s_waiters s)) as [|a0 r]; split; sf; try assumption.
  - apply q_set_keys. exact A.
  - apply kc_put; [exact B|]. cbn. discriminate.
Qed.

Lemma preenall_xi : forall s, XI s -> XI (preenall s).
Proof. intros s [A B]. unfold preenall. split; sf; [rewrite map_keys; exact A|exact B]. Qed.

Lemma deliver_xi : forall c chs x s, XI s -> XI (fst (deliver c chs x s)).
Proof.
  intros c chs x s [A B]. unfold deliver. destruct (getjob (s_jobs s) x) as [j|]; [|split; assumption]. cbv zeta. cbn [fst].
  split; sf; [exact A|]. apply kc_put; [exact B|]. cbn. discriminate.
Qed.

Lemma pop_xi : forall c chs s, XI s -> XI (fst (pop_or_block c chs s)).
Proof.
  intros c chs s K. unfold pop_or_block. cbv zeta. pose proof (preenall_xi s K) as [A B].
  destruct (heads (s_queues (preenall s)) _) as [x|].
  - destruct (getjob (s_jobs (preenall s)) (snd x)) as [j|]; [|split; assumption].
    apply deliver_xi. split; sf; [apply q_set_keys; exact A|exact B].
  - cbn [fst]. split; sf; [exact A|]. apply kc_put; [exact B|]. cbn. discriminate.
Qed.

Lemma shutdown_xi : forall l s, XI s -> XI (shutdown_loop l s).
Proof.
  induction l as [|[i w] r IH]; intros s K; cbn [shutdown_loop]; [exact K|].
  destruct (is_done (s_jobs s) w); [apply IH; exact K|]. apply IH. apply pushjob_xi. eapply xi_same; [| |exact K]; reflexivity.
Qed.

Lemma die_xi : forall c s, XI s -> XI (fst (die c s)).
Proof.
  intros c s [A B]. unfold die. cbv zeta. cbn [fst]. apply shutdown_xi. split; sf; [exact A|].
  apply kc_put; [exact B|]. reflexivity.
Qed.

Lemma run_event_xi : forall e s, XI s -> XI (fst (run_event e s)).
Proof.
  intros e s K. destruct e as [c|c|ser]; cbn [run_event].
  - destruct (c_st (get_conn (s_conns s) c)) as [|chs [x|]|w|]; try exact K.
    destruct (is_done (s_jobs s) x); [apply pop_xi|apply deliver_xi]; exact K.
  - destruct (c_st (get_conn (s_conns s) c)) as [|chs mb|w|]; try exact K; try (apply die_xi; exact K).
    apply die_xi. destruct mb as [x|]; [|eapply xi_same; [| |exact K]; reflexivity].
    sf. destruct (is_done (s_jobs s) x); [eapply xi_same; [| |exact K]; reflexivity|].
    apply pushjob_xi. eapply xi_same; [| |exact K]; reflexivity.
  - pose proof (kc_release ser (s_jobs s) (s_conns s) (proj2 K)) as R.
    destruct (release ser (s_jobs s) (s_conns s)) as [cs o]. cbn [fst] in R.
    destruct (getjob (s_jobs s) ser) as [j|]; [|split; sf; [apply K|exact R]].
    destruct (j_drop j && has_waiter ser (s_conns s) && id_is (s_ids s) (j_id j) ser); (split; sf; [apply K|exact R]).
Qed.

Lemma run_events_xi : forall es s, XI s -> XI (fst (run_events es s)).
Proof.
  induction es as [|e r IH]; intros s K; cbn [run_events]; [exact K|].
  pose proof (run_event_xi e s K) as K1. destruct (run_event e s) as [s1 o1]. cbn [fst] in K1.
  specialize (IH s1 K1). destruct (run_events r s1) as [s2 o2]. exact IH.
Qed.

Lemma step_xi : forall s o, XI s -> XI (fst (step s o)).
Proof.
  intros s o K. destruct o as [ch prio name tmo|c chs| |c i res e|c js|dt|c|k|c i|i|i v| |dt|js|]; cbn [step].
  - assert (F : forall j0, XI (pushjob (s_count s + 1) (set_jobs (j0 :: s_jobs s) (set_count (s_count s + 1) s)))).
    { intro j0. apply pushjob_xi. eapply xi_same; [| |exact K]; reflexivity. }
    assert (G : XI (fst (push ch prio name tmo s))).
    { unfold push. destruct name as [n|]; [|apply F].
      destruct (id_lookup (s_ids s) (JName n)) as [ser|]; [|apply F].
      destruct (getjob (s_jobs s) ser) as [j0|]; [|apply F].
      destruct (err_is_killed (j_err j0)); [apply F|exact K]. }
    destruct (push ch prio name tmo s) as [s1 i1]. exact G.
  - destruct (is_idle c s); [apply pop_xi; exact K|exact K].
  - apply run_events_xi. eapply xi_same; [| |exact K]; reflexivity.
  - destruct (is_idle c s) eqn:Ei; [|exact K]. destruct (id_lookup (s_ids s) i) as [ser|]; [|exact K]. cbn [fst].
    match goal with |- context [mark_finished ser ?u s] => destruct (mark_fields ser u s) as (Hq&Hc&_) end.
    split; sf; [rewrite Hq; apply K|]. rewrite Hc. apply kc_put; [apply K|]. cbn [c_st c_run].
    rewrite (is_idle_st _ _ Ei). discriminate.
  - destruct (is_idle c s) eqn:Ei; [|exact K]. cbn [fst]. pose proof (js_conns _ _ (killjobs_jstep js s)) as Hc.
    split; sf; [rewrite (js_queues _ _ (killjobs_jstep js s)); apply K|]. rewrite Hc. apply kc_put; [apply K|]. cbn [c_st c_run].
    rewrite (is_idle_st _ _ Ei). discriminate.
  - cbn [fst]. unfold handletimeouts. apply preenall_xi. pose proof (timeouts_jstep (s_tq s) (set_now (s_now s + dt) s)) as J.
    eapply xi_same; [exact (js_queues _ _ J)|exact (js_conns _ _ J)|exact K].
  - destruct (c_st (get_conn (s_conns s) c)); exact K.
  - exact K.
  - destruct (is_idle c s); [|exact K]. destruct (id_lookup (s_ids s) i) as [ser|]; [|exact K].
    destruct (getjob (s_jobs s) ser) as [j|]; [|exact K].
    destruct (j_done j); [destruct (j_drop j && id_is (s_ids s) (j_id j) ser); exact K|].
    cbn [fst]. split; sf; [apply K|]. apply kc_put; [apply K|]. cbn. discriminate.
  - exact K.
  - destruct (id_lookup (s_ids s) i); exact K.
  - exact K.
  - exact K.
  - cbn [fst]. eapply xi_same; [apply dropjobs_jstep|apply (dropjobs_eqd js s)|exact K].
  - cbn [fst]. eapply xi_same; [apply dropdead_jstep|apply (dropdead_eqd _ s)|exact K].
Qed.

Lemma restore_loop_xi : forall l s, XI s -> XI (restore_loop l s).
Proof.
  induction l as [|j r IH]; intros s K; cbn [restore_loop]; [exact K|].
  destruct (j_done j); apply IH; [eapply xi_same; [| |exact K]; reflexivity|].
  split; sf; [apply q_set_keys; apply K|apply K].
Qed.

Lemma xi_init : XI init.
Proof. split; [constructor|split; [intros c []|constructor]]. Qed.

Lemma restart_xi : forall s, XI (restart s).
Proof. intro s. unfold restart, restore. apply restore_loop_xi. eapply xi_same; [| |exact xi_init]; reflexivity. Qed.

Lemma rrun_xi : forall h s, XI s -> XI (rrun h s).
Proof. exact (rrun_invariant XI step_xi (fun s _ => restart_xi s)). Qed.

Lemma kc_get : forall cs c, KC cs -> In c cs -> get_conn cs (c_id c) = c.
Proof.
  intros cs c [_ N]. induction cs as [|y r IH]; intro H; [destruct H|]. cbn [get_conn]. cbn [map] in N.
  inversion N as [|? ? Hn Nr]; subst. destruct H as [H|H]; [subst; rewrite N.eqb_refl; reflexivity|].
  destruct (c_id y =? c_id c) eqn:E; [|apply IH; assumption].
  apply N.eqb_eq in E. exfalso. apply Hn. rewrite E. apply in_map. exact H.
Qed.

Lemma q_get_nodup : forall qs k q, NoDup (map fst qs) -> In (k, q) qs -> q_get qs k = Some q.
Proof.
  induction qs as [|[k0 m] r IH]; intros k q N H; [destruct H|]. cbn [q_get]. cbn [map fst] in N.
  inversion N as [|? ? Hn Nr]; subst. destruct H as [H|H]; [inversion H; subst; rewrite N.eqb_refl; reflexivity|].
  destruct (k0 =? k) eqn:E; [|apply IH; assumption].
  apply N.eqb_eq in E. subst. exfalso. apply Hn. apply in_map_iff. exists (k, q). split; [reflexivity|exact H].
Qed.
