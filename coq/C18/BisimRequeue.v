(* C18 — restart bisimulation: the reference state `requeue_all s` (hub emptied, every connection disconnected, two hub
   turns) and its shape.  Running the queued EvKill events leaves every connection Dead with no running jobs; job
   table, id table, count and clock are unchanged. *)
From Coq Require Import List NArith Bool Lia Arith Sorted.
From MW Require Import C16.Model C16.Proofs C17.Proofs C17.ProofsOrder C17.ProofsCount C17.ProofsLive C18.Proofs C18.ProofsIds
  C18.ProofsInv C18.ProofsTimeout C18.BisimBase C18.BisimTE.
Import ListNotations.
Open Scope N_scope.

Definition is_notify (e : event) : Prop := match e with EvNotify _ => True | _ => False end.

Lemma id_set_same : forall ids i v, id_lookup ids i = Some v -> id_set ids i v = ids.
Proof.
  induction ids as [|[k w] r IH]; intros i v H; cbn [id_lookup id_set] in *; [discriminate|].
  destruct (jid_eqb k i) eqn:E; [inversion H; reflexivity|]. rewrite IH by exact H. reflexivity.
Qed.

Lemma put_conn_ids_same : forall cs x, In (c_id x) (map c_id cs) -> map c_id (put_conn cs x) = map c_id cs.
Proof.
  induction cs as [|y r IH]; intros x H; [destruct H|]. cbn [put_conn map] in *.
  destruct (c_id y =? c_id x) eqn:E; cbn [map]; [apply N.eqb_eq in E; congruence|].
  destruct H as [H|H]; [rewrite H, N.eqb_refl in E; discriminate|]. rewrite IH by exact H. reflexivity.
Qed.

Definition addr_ok (js : list job) (ids : list (jid * N)) : Prop :=
  forall x j, getjob js x = Some j -> j_done j = false -> id_lookup ids (j_id j) = Some x.

Record LS (js : list job) (ids : list (jid * N)) (cnt now : N) (cids : list N) (t : state) : Prop := {
  ls_jobs : s_jobs t = js; ls_ids : s_ids t = ids; ls_count : s_count t = cnt; ls_now : s_now t = now;
  ls_cids : map c_id (s_conns t) = cids;
  ls_hub : Forall is_notify (s_hub t);
  ls_w : forall w, In w (s_waiters t) -> In (fst w) cids
}.

Lemma pushjob_ls : forall js ids cnt now cids, addr_ok js ids -> forall x t, LS js ids cnt now cids t -> is_done js x = false ->
  LS js ids cnt now cids (pushjob x t).
Proof.
  intros js ids cnt now cids ADDR x t L Dx. destruct (is_done_false _ _ Dx) as (j&Ej&Dj). unfold pushjob. rewrite (ls_jobs _ _ _ _ _ _ L), Ej. cbv zeta. sf.
  rewrite (ls_ids _ _ _ _ _ _ L), (id_set_same _ _ _ (ADDR _ _ Ej Dj)).
  destruct (filter (watches (j_chan j)) (s_waiters t)) as [|a0 alts] eqn:EA.
  - constructor; sf; try (destruct L; assumption); try reflexivity.
  - set (w := nth _ (a0 :: alts) a0).
    assert (Hw : In w (s_waiters t)).
    { assert (H : In w (a0 :: alts)) by (apply nth_In_default; left; reflexivity).
      rewrite <- EA in H. apply filter_In in H. tauto. }
    constructor; sf; try (destruct L; assumption); try reflexivity.
    + rewrite put_conn_ids_same; [apply (ls_cids _ _ _ _ _ _ L)|]. cbn [c_id]. rewrite (ls_cids _ _ _ _ _ _ L). apply (ls_w _ _ _ _ _ _ L). exact Hw.
    + apply Forall_app. split; [apply (ls_hub _ _ _ _ _ _ L)|constructor; [exact I|constructor]].
    + intros w' H. apply (ls_w _ _ _ _ _ _ L). eapply remove_waiter_In; eauto.
Qed.

Lemma ls_same : forall js ids cnt now cids t t', LS js ids cnt now cids t -> s_jobs t' = s_jobs t -> s_ids t' = s_ids t -> s_count t' = s_count t -> s_now t' = s_now t ->
  s_conns t' = s_conns t -> s_hub t' = s_hub t -> s_waiters t' = s_waiters t -> LS js ids cnt now cids t'.
Proof. intros js ids cnt now cids t t' [] H1 H2 H3 H4 H5 H6 H7. constructor; rewrite ?H1, ?H2, ?H3, ?H4, ?H5, ?H6, ?H7; assumption. Qed.

Lemma shutdown_ls : forall js ids cnt now cids, addr_ok js ids -> forall l t, LS js ids cnt now cids t ->
  LS js ids cnt now cids (shutdown_loop l t).
Proof.
  intros js ids cnt now cids ADDR. induction l as [|[i w] r IH]; intros t L; cbn [shutdown_loop]; [exact L|].
  destruct (is_done (s_jobs t) w) eqn:D; [apply IH; exact L|]. apply IH. apply pushjob_ls; [exact ADDR| |].
  - eapply ls_same; [exact L| | | | | | |]; reflexivity.
  - rewrite <- (ls_jobs _ _ _ _ _ _ L). exact D.
Qed.

Lemma die_ls : forall js ids cnt now cids, addr_ok js ids -> forall c t, LS js ids cnt now cids t -> In c cids ->
  LS js ids cnt now cids (fst (die c t)).
Proof.
  intros js ids cnt now cids ADDR c t L Hc. unfold die. cbv zeta. cbn [fst]. apply shutdown_ls; [exact ADDR|].
  constructor; sf; try (destruct L; assumption).
  rewrite put_conn_ids_same; [apply (ls_cids _ _ _ _ _ _ L)|]. cbn [c_id]. rewrite (ls_cids _ _ _ _ _ _ L). exact Hc.
Qed.

Lemma kill_ls : forall js ids cnt now cids, addr_ok js ids -> forall c t, LS js ids cnt now cids t -> In c cids ->
  LS js ids cnt now cids (fst (run_event (EvKill c) t)).
Proof.
  intros js ids cnt now cids ADDR c t L Hc. cbn [run_event].
  assert (L1 : LS js ids cnt now cids (set_waiters (remove_waiter c (s_waiters t)) t)).
  { constructor; sf; try (destruct L; assumption). intros w H. apply (ls_w _ _ _ _ _ _ L). eapply remove_waiter_In; eauto. }
  destruct (c_st (get_conn (s_conns t) c)) as [|chs mb|w|]; try (apply die_ls; assumption); [|exact L].
  apply die_ls; [exact ADDR| |exact Hc]. destruct mb as [x|]; [|exact L1]. sf.
  destruct (is_done (s_jobs t) x) eqn:D; [exact L1|]. apply pushjob_ls; [exact ADDR|exact L1|]. rewrite <- (ls_jobs _ _ _ _ _ _ L). exact D.
Qed.


(* connection c is dead and runs nothing *)
Definition DeadE (t : state) (c : N) : Prop :=
  c_st (get_conn (s_conns t) c) = Dead /\ c_run (get_conn (s_conns t) c) = [].

Lemma die_dead_self : forall c t, ~ In c (map fst (s_waiters t)) -> get_conn (s_conns (fst (die c t))) c = mkConn c Dead [].
Proof.
  intros c t NW. unfold die. cbv zeta. cbn [fst]. rewrite shutdown_conn_other by exact NW. sf.
  apply (get_put_same (s_conns t) (mkConn c Dead [])).
Qed.

Lemma kill_dead_self : forall c t, Inv t [] [] -> XI t -> DeadE (fst (run_event (EvKill c) t)) c.
Proof.
  intros c t I K. unfold DeadE. cbn [run_event]. destruct (c_st (get_conn (s_conns t) c)) as [|chs mb|w|] eqn:St.
  - rewrite die_dead_self; [split; reflexivity|]. eapply not_waiter; [exact I|]. intros chs'. rewrite St. discriminate.
  - rewrite die_dead_self; [split; reflexivity|].
    assert (N1 : ~ In c (map fst (s_waiters (set_waiters (remove_waiter c (s_waiters t)) t)))).
    { sf. apply remove_waiter_notin. apply (inv_wnd _ _ _ I). }
    destruct mb as [x|]; [|exact N1]. sf. destruct (is_done (s_jobs t) x); [exact N1|]. apply pushjob_not_waiter. exact N1.
  - rewrite die_dead_self; [split; reflexivity|]. eapply not_waiter; [exact I|]. intros chs'. rewrite St. discriminate.
  - cbn [fst]. split; [exact St|]. destruct (get_conn_In_or_new (s_conns t) c) as [H|H].
    + apply (proj1 (proj2 K)); assumption.
    + rewrite H in St. discriminate.
Qed.

Lemma kill_dead_other : forall c t c', Inv t [] [] -> DeadE t c' -> DeadE (fst (run_event (EvKill c) t)) c'.
Proof.
  intros c t c' I [D R].
  assert (NW : ~ In c' (map fst (s_waiters t))).
  { eapply not_waiter; [exact I|]. intros chs'. rewrite D. discriminate. }
  destruct (N.eq_dec c c') as [E|E].
  - subst c'. unfold DeadE. cbn [run_event]. rewrite D. split; assumption.
  - assert (G : get_conn (s_conns (fst (run_event (EvKill c) t))) c' = get_conn (s_conns t) c').
    { cbn [run_event]. destruct (c_st (get_conn (s_conns t) c)) as [|chs mb|w|]; try (apply die_conn_other; assumption); [|reflexivity].
      assert (N1 : ~ In c' (map fst (s_waiters (set_waiters (remove_waiter c (s_waiters t)) t)))).
      { sf. intro H. apply NW. apply in_map_iff in H. destruct H as (w0&Hf&Hin). apply in_map_iff. exists w0.
        split; [exact Hf|]. eapply remove_waiter_In; eauto. }
      destruct mb as [x|]; [|rewrite die_conn_other by assumption; reflexivity]. sf.
      destruct (is_done (s_jobs t) x); [rewrite die_conn_other by assumption; reflexivity|].
      rewrite die_conn_other; [|exact E|apply pushjob_not_waiter; exact N1].
      rewrite pushjob_conn_other by exact N1. reflexivity. }
    unfold DeadE. rewrite G. split; assumption.
Qed.

(* Disconnect of a Dead connection is a no-op, so all connections can be disconnected *)
Definition disconnect_all (s : state) : state :=
  fold_left (fun s c => fst (step s (Disconnect (c_id c)))) (s_conns s) s.

(* the hub is emptied first (a server stop loses undelivered wake-ups); the first RunLoop runs the kills, the second
   one the EvNotify events queued for pullers that died in the first (no-ops) *)
Definition requeue_all (s : state) : state :=
  set_choices [] (fst (step (fst (step (disconnect_all (set_hub [] s)) RunLoop)) RunLoop)).

(* what is known of every state reachable with restarts: RGood, the timeout heap complete (TQ) and sound (TE), one
   queue per channel and one record per connection (XI) *)
Definition PI (s : state) : Prop := RGood s /\ TQ s /\ TE s /\ XI s.

Lemma pi_step : forall s o, PI s -> PI (fst (step s o)).
Proof.
  intros s o (G&T&E&X). split; [apply step_rgood; exact G|]. split; [apply step_tq; [apply G|exact T]|].
  split; [apply step_te; [apply G|exact E]|apply step_xi; exact X].
Qed.

Lemma pi_same : forall s s', s_jobs s' = s_jobs s -> s_ids s' = s_ids s -> s_queues s' = s_queues s ->
  s_conns s' = s_conns s -> s_waiters s' = s_waiters s -> s_count s' = s_count s -> s_tq s' = s_tq s ->
  HubOK s' -> PI s -> PI s'.
Proof.
  intros s s' Hj Hi Hq Hc Hw Hn Ht Hh (((A&_&I)&Q&K)&T&E&X).
  split; [split; [split; [|split]|split]|split; [|split]].
  - eapply aux_same; [|exact A]; assumption.
  - exact Hh.
  - eapply inv_same; [exact I| | | | | |]; assumption.
  - eapply qs_same; [|exact Q]; assumption.
  - eapply idsok_same; [| |exact K]; assumption.
  - eapply tq_same; [| |exact T]; assumption.
  - eapply te_same; [| |exact E]; assumption.
  - eapply xi_same; [| |exact X]; assumption.
Qed.

Lemma pi_set_hub_nil : forall s, PI s -> PI (set_hub [] s).
Proof. intros s P. apply (pi_same s); try reflexivity; [intros ser []|exact P]. Qed.

Lemma pi_set_choices : forall s v, PI s -> PI (set_choices v s).
Proof.
  intros s v P. pose proof P as (((_&H&_)&_)&_). apply (pi_same s); try reflexivity; [|exact P].
  eapply hub_same; [| |exact H]; reflexivity.
Qed.

Lemma pi_fold : forall l s, PI s -> PI (fold_left (fun s c => fst (step s (Disconnect (c_id c)))) l s).
Proof. induction l as [|c r IH]; intros s P; cbn [fold_left]; [exact P|]. apply IH. apply pi_step. exact P. Qed.

Lemma pi_requeue_all : forall s, PI s -> PI (requeue_all s).
Proof.
  intros s P. unfold requeue_all, disconnect_all. apply pi_set_choices. apply pi_step. apply pi_step. apply pi_fold.
  apply pi_set_hub_nil. exact P.
Qed.

Lemma kills_run : forall js ids cnt now cids,
  (forall x j, getjob js x = Some j -> j_done j = false -> id_lookup ids (j_id j) = Some x) ->
  forall K t, Inv t [] [] -> XI t -> LS js ids cnt now cids t -> (forall c, In c K -> In c cids) ->
  Inv (fst (run_events (map EvKill K) t)) [] [] /\ XI (fst (run_events (map EvKill K) t)) /\
  LS js ids cnt now cids (fst (run_events (map EvKill K) t)) /\
  (forall c, In c K -> DeadE (fst (run_events (map EvKill K) t)) c) /\
  (forall c', DeadE t c' -> DeadE (fst (run_events (map EvKill K) t)) c').
Proof.
  intros js ids cnt now cids A. induction K as [|c r IH]; intros t I X L HK; cbn [map run_events].
  - cbn [fst]. split; [exact I|split; [exact X|split; [exact L|split; [intros c []|auto]]]].
  - assert (I1 : Inv (fst (run_event (EvKill c) t)) [] []) by (apply run_event_inv; [exact I|intros ser H; discriminate H]).
    pose proof (run_event_xi (EvKill c) t X) as X1.
    pose proof (kill_ls _ _ _ _ _ A c t L (HK c (or_introl eq_refl))) as L1.
    pose proof (kill_dead_self c t I X) as D1. pose proof (fun c' => kill_dead_other c t c' I) as O1.
    destruct (run_event (EvKill c) t) as [t1 o1]. cbn [fst] in *.
    specialize (IH t1 I1 X1 L1 (fun c0 H => HK c0 (or_intror H))).
    destruct (run_events (map EvKill r) t1) as [t2 o2]. cbn [fst] in *.
    destruct IH as (I2&X2&L2&D2&O2). split; [exact I2|split; [exact X2|split; [exact L2|split; [|auto]]]].
    intros c0 [E|H]; [subst; apply O2; exact D1|apply D2; exact H].
Qed.

Lemma disconnect_fold : forall s0 l h, exists K,
  fold_left (fun s c => fst (step s (Disconnect (c_id c)))) l (set_hub h s0) = set_hub (h ++ map EvKill K) s0 /\
  (forall c, In c K -> In c (map c_id l)) /\
  (forall c, In c l -> c_st (get_conn (s_conns s0) (c_id c)) = Dead \/ In (c_id c) K).
Proof.
  intros s0. induction l as [|c r IH]; intro h; cbn [fold_left].
  - exists []. cbn [map]. rewrite app_nil_r. repeat split; intros c [].
  - cbn [step]. sf. destruct (c_st (get_conn (s_conns s0) (c_id c))) eqn:St; cbn [fst].
    4: { destruct (IH h) as (K&E&H1&H2). exists K. split; [exact E|]. split; [intros c0 H; right; auto|].
         intros c0 [H|H]; [subst; left; exact St|apply H2; exact H]. }
    all: destruct (IH (h ++ [EvKill (c_id c)])) as (K&E&H1&H2); exists (c_id c :: K);
      (split; [cbn [map]; rewrite <- app_assoc in E; exact E|]);
      (split; [intros c0 [H|H]; [left; exact H|right; auto]|]);
      intros c0 [H|H]; [subst; right; left; reflexivity|destruct (H2 _ H); [left; assumption|right; right; assumption]].
Qed.

Lemma notify_noop : forall es u, (forall c chs mb, c_st (get_conn (s_conns u) c) <> BPull chs mb) ->
  Forall is_notify es -> run_events es u = (u, []).
Proof.
  induction es as [|e r IH]; intros u H F; cbn [run_events]; [reflexivity|].
  inversion F as [|? ? Fe Fr]; subst. destruct e as [c|c|x]; cbn [is_notify] in Fe; try contradiction.
  cbn [run_event]. destruct (c_st (get_conn (s_conns u) c)) as [|chs mb|w|] eqn:St;
    try (rewrite (IH u H Fr); reflexivity). exfalso. eapply H; eauto.
Qed.

(* b has the tables of s, an empty hub, no waiters, and only dead connections that run nothing *)
Record Shape (s b : state) : Prop := {
  sh_hub : s_hub b = []; sh_waiters : s_waiters b = []; sh_choices : s_choices b = [];
  sh_conns : Forall (fun c => c_st c = Dead /\ c_run c = []) (s_conns b);
  sh_jobs : s_jobs b = s_jobs s; sh_ids : s_ids b = s_ids s; sh_count : s_count b = s_count s; sh_now : s_now b = s_now s;
  sh_cids : map c_id (s_conns b) = map c_id (s_conns s)
}.

Lemma requeue_shape : forall s, RGood s -> XI s -> Shape s (requeue_all s).
Proof.
  intros s G X. destruct G as ((A&H&I)&Q&K).
  destruct (disconnect_fold s (s_conns s) []) as (KL&E&H1&H2).
  set (t0 := set_hub [] s).
  assert (I0 : Inv t0 [] []) by (eapply inv_same; [exact I| | | | | |]; reflexivity).
  assert (X0 : XI t0) by (eapply xi_same; [| |exact X]; reflexivity).
  assert (L0 : LS (s_jobs s) (s_ids s) (s_count s) (s_now s) (map c_id (s_conns s)) t0).
  { constructor; try reflexivity; [constructor|]. intros [c chs] Hw. cbn [fst].
    pose proof (inv_wait _ _ _ I _ _ Hw) as St. destruct (get_conn_In_or_new (s_conns s) c) as [Hin|Hn].
    - apply in_map_iff. exists (get_conn (s_conns s) c). split; [apply get_conn_id|exact Hin].
    - rewrite Hn in St. discriminate. }
  destruct (kills_run _ _ _ _ _ (fun x j Ej Dj => inv_addr _ _ _ I x j Ej Dj eq_refl) KL t0 I0 X0 L0 H1) as (I1&X1&L1&D1&O1).
  unfold requeue_all, disconnect_all. change (s_conns (set_hub [] s)) with (s_conns s). rewrite E. cbn [app].
  cbn [step]. sf. change (set_hub [] (set_hub (map EvKill KL) s)) with t0.
  destruct (run_events (map EvKill KL) t0) as [t1 o1]. cbn [fst] in *.
  assert (AD : forall c, In c (map c_id (s_conns s)) -> DeadE t1 c).
  { intros c Hc. apply in_map_iff in Hc. destruct Hc as (c0&Hid&Hin). subst c. destruct (H2 _ Hin) as [Hd|Hk]; [|apply D1; exact Hk].
    apply O1. unfold DeadE, t0. sf. split; [exact Hd|]. rewrite (kc_get _ _ (proj2 X) Hin) in *.
    apply (proj1 (proj2 X)); assumption. }
  assert (FD : Forall (fun c => c_st c = Dead /\ c_run c = []) (s_conns t1)).
  { apply Forall_forall. intros y Hy. assert (Hc : In (c_id y) (map c_id (s_conns s))).
    { rewrite <- (ls_cids _ _ _ _ _ _ L1). apply in_map. exact Hy. }
    pose proof (AD _ Hc) as [P1 P2]. rewrite (kc_get _ _ (proj2 X1) Hy) in *. split; assumption. }
  assert (NB : forall c chs mb, c_st (get_conn (s_conns t1) c) <> BPull chs mb).
  { intros c chs mb St. destruct (get_conn_In_or_new (s_conns t1) c) as [Hin|Hn].
    - rewrite Forall_forall in FD. rewrite (proj1 (FD _ Hin)) in St. discriminate.
    - rewrite Hn in St. discriminate. }
  rewrite (notify_noop (s_hub t1) (set_hub [] t1) NB (ls_hub _ _ _ _ _ _ L1)). cbn [fst].
  constructor; sf; try (destruct L1; assumption); try reflexivity.
  destruct (s_waiters t1) as [|[c chs] r] eqn:Ew; [reflexivity|]. exfalso.
  assert (Hw : In (c, chs) (s_waiters t1)) by (rewrite Ew; left; reflexivity).
  apply (NB c chs None). apply (inv_wait _ _ _ I1 _ _ Hw).
Qed.
