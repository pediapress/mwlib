(* C18 — "unfinished jobs are ... still subject to their timeout": __setstate__ rebuilds the timeout heap from the
   unfinished jobs (jobs.py:87-98); the first handletimeouts sweep at or after a restored job's deadline finishes it
   with error "timeout" (unless it was finished before).  The timeout heap is modelled by its sorted view (Model.v
   s_tq, kept sorted by tins); handletimeouts (jobs.py:139-151) pops while the head's deadline has passed. *)
From Coq Require Import List NArith Bool Lia Arith Sorted.
From MW Require Import C16.Model C16.Proofs C17.Proofs C17.ProofsOrder C17.ProofsCount C18.Proofs C18.ProofsIds C18.ProofsInv.
Import ListNotations.
Open Scope N_scope.

Definition tkey_le (a b : tkey) : Prop := tkey_lt b a = false.

Lemma tkey_lt_iff : forall a b, tkey_lt a b = true <->
  fst a < fst b \/ (fst a = fst b /\ key_lt (snd a) (snd b) = true).
Proof.
  intros a b. unfold tkey_lt.
  rewrite orb_true_iff, andb_true_iff, N.ltb_lt, N.eqb_eq. reflexivity.
Qed.

Lemma tkey_le_iff : forall a b, tkey_le a b <->
  fst a < fst b \/ (fst a = fst b /\ key_le (snd a) (snd b)).
Proof.
  intros a b. unfold tkey_le, key_le.
  rewrite <- not_true_iff_false, tkey_lt_iff.
  destruct (key_lt (snd b) (snd a)); intuition (discriminate || lia).
Qed.

Ltac tkey_cases := rewrite ?tkey_le_iff, ?tkey_lt_iff in *; key_cases.

Lemma tkey_le_trans : forall a b c, tkey_le a b -> tkey_le b c -> tkey_le a c.
Proof. intros [a1 [a2 a3]] [b1 [b2 b3]] [c1 [c2 c3]] H1 H2. tkey_cases. Qed.

Lemma tkey_lt_le : forall a b, tkey_lt a b = true -> tkey_le a b.
Proof. intros [a1 [a2 a3]] [b1 [b2 b3]] H. tkey_cases. Qed.

Lemma tkey_le_fst : forall a b, tkey_le a b -> fst a <= fst b.
Proof. intros [a1 [a2 a3]] [b1 [b2 b3]] H. tkey_cases. Qed.

Definition tsorted (q : list tkey) : Prop := StronglySorted tkey_le q.

Lemma tsorted_tins : forall x q, tsorted q -> tsorted (tins x q).
Proof.
  intros x q. induction q as [|y r IH]; intro H; cbn [tins].
  - constructor; constructor.
  - inversion H as [|? ? Hr HF]; subst. destruct (tkey_lt x y) eqn:E.
    + constructor; [exact H|]. constructor; [apply tkey_lt_le; exact E|].
      eapply Forall_impl; [|exact HF]. intros z Hz. eapply tkey_le_trans; [apply tkey_lt_le; exact E|exact Hz].
    + constructor; [apply IH; exact Hr|]. apply Forall_forall. intros z Hz. apply tins_In in Hz.
      destruct Hz as [Hz|Hz]; [subst; exact E|]. rewrite Forall_forall in HF. apply HF. exact Hz.
Qed.

Lemma tkey_le_refl : forall a, tkey_le a a.
Proof. intros [a0 [a1 a2]]. tkey_cases. Qed.

Lemma tkey_le_antisym : forall a b, tkey_le a b -> tkey_le b a -> a = b.
Proof.
  intros [a0 [a1 a2]] [b0 [b1 b2]] H1 H2.
  assert (a0 = b0 /\ a1 = b1 /\ a2 = b2) as (E0&E1&E2) by tkey_cases.
  subst; reflexivity.
Qed.

Lemma tsorted_head_le : forall x r y, tsorted (x :: r) -> In y (x :: r) -> tkey_le x y.
Proof.
  intros x r y S H. inversion S as [|? ? _ F]; subst. destruct H as [H|H]; [subst; apply tkey_le_refl|].
  rewrite Forall_forall in F. apply F. exact H.
Qed.

Lemma tsorted_tail : forall x r, tsorted (x :: r) -> tsorted r.
Proof. intros x r S. inversion S; assumption. Qed.

Lemma tsorted_suffix : forall l q, tsorted (l ++ q) -> tsorted q.
Proof. induction l as [|x l IH]; intros q S; [exact S|]. apply IH. exact (tsorted_tail _ _ S). Qed.

Lemma timeouts_done_mono : forall q s x, is_done (s_jobs s) x = true -> is_done (s_jobs (timeouts_loop q s)) x = true.
Proof. intros q s x. apply tab_le_done, timeouts_jstep. Qed.

(* every heap entry whose deadline has passed belongs to a finished job after the sweep *)
Lemma timeouts_loop_spec : forall q s, tsorted q ->
  forall d p x, In (d, (p, x)) q -> d <= s_now s -> is_done (s_jobs (timeouts_loop q s)) x = true.
Proof.
  induction q as [|e r IH]; intros s TS d p x Hin Hd; [destruct Hin|]. cbn [timeouts_loop].
  inversion TS as [|? ? TSr HF]; subst. rewrite Forall_forall in HF.
  destruct (is_done (s_jobs s) (snd (snd e))) eqn:De.
  - destruct Hin as [He|Hr]; [subst e; cbn [snd] in De; apply timeouts_done_mono; exact De|eapply IH; eauto].
  - destruct (s_now s <? fst e) eqn:Enow.
    + apply N.ltb_lt in Enow. exfalso. destruct Hin as [He|Hr].
      * subst e. cbn [fst] in Enow. lia.
      * pose proof (tkey_le_fst _ _ (HF _ Hr)) as H. cbn [fst] in H. lia.
    + destruct (mark_fields (snd (snd e)) (upd_err e_timeout) s) as (_&_&_&_&_&Hnow&_).
      destruct Hin as [He|Hr].
      * subst e. cbn [snd]. apply timeouts_done_mono. apply mark_done.
      * eapply IH; eauto. rewrite Hnow. exact Hd.
Qed.

(* a job that the sweep finds unfinished and leaves finished has error "timeout" *)
Lemma timeouts_loop_err : forall q s x j, getjob (s_jobs s) x = Some j -> j_done j = false ->
  forall j', getjob (s_jobs (timeouts_loop q s)) x = Some j' -> j_done j' = true -> j_err j' = e_timeout.
Proof.
  induction q as [|e r IH]; intros s x j E D j' E' D'; cbn [timeouts_loop] in E'.
  - sf. congruence.
  - destruct (is_done (s_jobs s) (snd (snd e))) eqn:De; [exact (IH s x j E D j' E' D')|].
    destruct (s_now s <? fst e); [sf; congruence|].
    set (y := snd (snd e)) in *. set (s1 := mark_finished y (upd_err e_timeout) s) in *.
    destruct (N.eq_dec y x) as [Ey|Ey].
    + (* this very job is timed out now; later marks leave a finished job alone *)
      subst y. assert (E1 : exists j1, getjob (s_jobs s1) x = Some j1 /\ j_done j1 = true /\ j_err j1 = e_timeout).
      { unfold s1, mark_finished. rewrite Ey, E, D. sf.
        rewrite getjob_setjob by (intros; cbn; eapply getjob_serial; eauto). rewrite N.eqb_refl, E. cbn.
        eexists; split; [reflexivity|]. split; reflexivity. }
      destruct E1 as (j1&E1&D1&R1).
      destruct (timeouts_fin_le r s1 x j1 E1 D1) as (j2&E2&_&R2&_). fold s1 in E'. rewrite E' in E2. inversion E2; subst j2. congruence.
    + (* another job is timed out: x is untouched *)
      assert (E1 : getjob (s_jobs s1) x = Some j).
      { unfold s1, mark_finished. destruct (getjob (s_jobs s) y) as [jy|] eqn:Ejy; [|exact E].
        destruct (j_done jy); [exact E|]. sf.
        rewrite getjob_setjob by (intros; cbn; eapply getjob_serial; eauto).
        destruct (x =? y) eqn:Exy; [apply N.eqb_eq in Exy; congruence|exact E]. }
      exact (IH s1 x j E1 D j' E' D').
Qed.

Lemma restore_loop_ts : forall l s, tsorted (s_tq s) -> tsorted (s_tq (restore_loop l s)).
Proof.
  apply (restore_loop_ind (fun s => tsorted (s_tq s))). intros j s TS. unfold restore1.
  destruct (j_done j); [exact TS|]. apply tsorted_tins. exact TS.
Qed.

Lemma restart_ts : forall s, tsorted (s_tq (restart s)).
Proof. intro s. unfold restart, restore. apply restore_loop_ts. constructor. Qed.

(* the timeout heap holds, for every unfinished job, an entry with the job's deadline; TQ: and it is sorted *)
Definition TQC (s : state) : Prop :=
  forall x j, getjob (s_jobs s) x = Some j -> j_done j = false -> In (j_timeout j, (j_prio j, x)) (s_tq s).
Definition TQ (s : state) : Prop := tsorted (s_tq s) /\ TQC s.

Lemma tq_same : forall s s', s_jobs s' = s_jobs s -> s_tq s' = s_tq s -> TQ s -> TQ s'.
Proof. intros s s' J Q [S C]. split; [rewrite Q; exact S|]. intros x j E D. rewrite Q. rewrite J in E. apply C; assumption. Qed.

Lemma step_tq : forall s o, Inv s [] [] -> TQ s -> TQ (fst (step s o)).
Proof.
  apply (step_tab (fun js _ tq => tsorted tq /\
           forall x j, getjob js x = Some j -> j_done j = false -> In (j_timeout j, (j_prio j, x)) tq)).
  - intros js ids tq x j _ [S C]. split; [apply tsorted_tins; exact S|].
    intros y jy E D. apply tins_In. right. apply C; assumption.
  - intros js ids tq j _ [S C]. split; [apply tsorted_tins; exact S|].
    intros y jy E D. apply tins_In. cbn [getjob] in E. destruct (j_serial j =? y) eqn:Ey.
    + apply N.eqb_eq in Ey. subst y. inversion E; subst jy. left; reflexivity.
    + right. apply C; assumption.
  - intros js js' ids tq _ M [S C]. split; [exact S|].
    intros x j' E D. destruct (M x j' E D) as (j&E0&D0&T0&P0). rewrite <- T0, <- P0. apply C; assumption.
  - auto.
  - (* an unfinished job's entry is not among the popped ones *)
    intros js ids l tq Hl [S C]. split; [exact (tsorted_suffix _ _ S)|].
    intros x j E D. destruct (in_app_or _ _ _ (C x j E D)) as [H|H]; [|exact H].
    apply Hl in H. cbn [snd] in H. unfold is_done in H. rewrite E in H. congruence.
Qed.

Lemma restart_tq : forall s, RGood s -> TQ (restart s).
Proof.
  intros s ((A&_&I)&_&K). split; [apply restart_ts|]. intros x j E D.
  (* every job of the restarted table is a saved one *)
  destruct (restore_state (s_now s) (save s)) as (_&H2&_). unfold restart in E. rewrite H2 in E.
  pose proof (getjob_In _ _ _ E) as Hin. rewrite <- (getjob_serial _ _ _ E).
  unfold restart, restore. apply restore_loop_queued; assumption.
Qed.

Lemma tq_init : TQ init.
Proof. split; [constructor|intros x j H; discriminate H]. Qed.

Lemma rrun_tq : forall h s, RGood s -> TQ s -> RGood (rrun h s) /\ TQ (rrun h s).
Proof.
  intros h s G K. apply (rrun_invariant (fun s => RGood s /\ TQ s)); [| |split; assumption].
  - intros s0 o [G0 K0]. split; [apply step_rgood; exact G0|apply step_tq; [apply G0|exact K0]].
  - intros s0 [G0 _]. split; [apply restart_rgood|apply restart_tq]; exact G0.
Qed.

(* a handletimeouts sweep (Tick) whose clock reading is at or past the deadline of an unfinished job finishes it with
   error "timeout" *)
Lemma tick_times_out : forall s x j dt, TQ s ->
  getjob (s_jobs s) x = Some j -> j_done j = false -> j_timeout j <= s_now s + dt ->
  exists j', getjob (s_jobs (fst (step s (Tick dt)))) x = Some j' /\ j_done j' = true /\ j_err j' = e_timeout.
Proof.
  intros s x j dt [S C] E D Hd. pose proof (C x j E D) as Htq.
  cbn [step fst]. unfold handletimeouts, preenall. sf.
  set (s1 := set_now (s_now s + dt) s).
  pose proof (timeouts_loop_spec (s_tq s) s1 S _ _ _ Htq Hd) as DONE. unfold is_done in DONE.
  change (s_tq s1) with (s_tq s).
  destruct (getjob (s_jobs (timeouts_loop (s_tq s) s1)) x) as [j'|] eqn:Ej'.
  - exists j'. split; [reflexivity|]. split; [exact DONE|]. eapply (timeouts_loop_err (s_tq s) s1 x j); eauto.
  - (* the job table never forgets *)
    pose proof (js_tab _ _ (timeouts_jstep (s_tq s) s1) x) as T. change (s_jobs s1) with (s_jobs s) in T.
    rewrite E, Ej' in T. destruct T.
Qed.
