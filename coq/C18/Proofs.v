(* C18 — lemmas about save / restore (pickle round trip of the queue). *)
From Coq Require Import List NArith Bool Lia Arith.
From MW Require Import C16.Model C16.Proofs.
Import ListNotations.
Open Scope N_scope.

(* one iteration of the loop in __setstate__ (jobs.py:87-96) *)
Definition restore1 (j : job) (s : state) : state :=
  let s1 := set_ids (id_set (s_ids s) (j_id j) (j_serial j)) (set_jobs (s_jobs s ++ [j]) s) in
  if j_done j then s1
  else
    let s2 := set_tq (tins (j_timeout j, (j_prio j, j_serial j)) (s_tq s1)) s1 in
    let q := match q_get (s_queues s2) (j_chan j) with Some q => q | None => [] end in
    set_queues (q_set (s_queues s2) (j_chan j) (ins (j_prio j, j_serial j) q)) s2.

Lemma restore_loop_cons : forall j r s, restore_loop (j :: r) s = restore_loop r (restore1 j s).
Proof. intros j r s. cbn [restore_loop]. unfold restore1. destruct (j_done j); reflexivity. Qed.

(* what every iteration preserves, the loop preserves *)
Lemma restore_loop_ind : forall P : state -> Prop,
  (forall j s, P s -> P (restore1 j s)) -> forall l s, P s -> P (restore_loop l s).
Proof.
  intros P H. induction l as [|j r IH]; intros s K; [exact K|]. rewrite restore_loop_cons. apply IH, H, K.
Qed.

Lemma restore1_fields : forall j s,
  s_jobs (restore1 j s) = s_jobs s ++ [j] /\ s_ids (restore1 j s) = id_set (s_ids s) (j_id j) (j_serial j) /\
  s_count (restore1 j s) = s_count s /\ s_conns (restore1 j s) = s_conns s /\ s_waiters (restore1 j s) = s_waiters s /\
  s_hub (restore1 j s) = s_hub s /\ s_now (restore1 j s) = s_now s /\ s_cnt (restore1 j s) = s_cnt s /\
  s_choices (restore1 j s) = s_choices s.
Proof. intros j s. unfold restore1. destruct (j_done j); repeat split. Qed.

Lemma restore_loop_fields : forall l s,
  s_count (restore_loop l s) = s_count s /\ s_jobs (restore_loop l s) = s_jobs s ++ l /\
  s_conns (restore_loop l s) = s_conns s /\ s_waiters (restore_loop l s) = s_waiters s /\
  s_hub (restore_loop l s) = s_hub s /\ s_now (restore_loop l s) = s_now s /\ s_cnt (restore_loop l s) = s_cnt s.
Proof.
  induction l as [|j r IH]; intro s.
  - cbn [restore_loop]. rewrite app_nil_r. repeat split.
  - rewrite restore_loop_cons. destruct (IH (restore1 j s)) as (H1&H2&H3&H4&H5&H6&H7).
    destruct (restore1_fields j s) as (J&_&F1&F3&F4&F5&F6&F7&_).
    rewrite J, <- app_assoc in H2. repeat split; [congruence|exact H2|congruence..].
Qed.

(* the restarted server: same id counter, every saved job record verbatim, nobody connected,
   nobody waiting, nothing pending, counters reset *)
Lemma restore_state : forall now sv,
  let s := restore now sv in
  s_count s = fst sv /\ s_jobs s = snd sv /\ s_conns s = [] /\ s_waiters s = [] /\ s_hub s = [] /\
  s_now s = now /\ s_cnt s = [].
Proof. intros now sv. exact (restore_loop_fields (snd sv) (set_now now (set_count (fst sv) init))). Qed.

(* every job registered in id2job is saved with all its fields *)
Lemma save_keeps : forall s i x j,
  id_lookup (s_ids s) i = Some x -> getjob (s_jobs s) x = Some j -> In j (snd (save s)) /\ fst (save s) = s_count s.
Proof.
  intros s i x j El E. split; [|reflexivity]. unfold save. cbn [snd]. apply id_lookup_In in El.
  induction (s_ids s) as [|[k w] r IH]; [destruct El|]. cbn [collect].
  destruct El as [H|H].
  - inversion H; subst. rewrite E. left; reflexivity.
  - destruct (getjob (s_jobs s) w); [right|]; apply IH; exact H.
Qed.

Lemma tins_In : forall k q y, In y (tins k q) <-> y = k \/ In y q.
Proof.
  intros k q y. induction q as [|z r IH]; cbn [tins].
  - cbn. intuition.
  - destruct (tkey_lt k z); cbn [In]; [intuition|]. rewrite IH. intuition.
Qed.

Lemma q_get_set_same : forall qs c l, q_get (q_set qs c l) c = Some l.
Proof.
  induction qs as [|[k m] r IH]; intros c l; cbn [q_set q_get].
  - rewrite N.eqb_refl. reflexivity.
  - destruct (k =? c) eqn:E; cbn [q_get]; rewrite E; [reflexivity|apply IH].
Qed.

Lemma q_get_set_other : forall qs c l k, k <> c -> q_get (q_set qs c l) k = q_get qs k.
Proof.
  induction qs as [|[k0 m] r IH]; intros c l k H; cbn [q_set q_get].
  - destruct (c =? k) eqn:E; [apply N.eqb_eq in E; congruence|reflexivity].
  - destruct (k0 =? c) eqn:E; cbn [q_get].
    + apply N.eqb_eq in E. subst k0. destruct (c =? k) eqn:E2; [apply N.eqb_eq in E2; congruence|reflexivity].
    + destruct (k0 =? k); [reflexivity|apply IH; exact H].
Qed.

(* an iteration keeps what is queued and what is on the timeout heap, and adds the entries of an unfinished job *)
Lemma restore1_keeps_q : forall j s ch e, In e (qget (s_queues s) ch) -> In e (qget (s_queues (restore1 j s)) ch).
Proof.
  intros j s ch e H. unfold restore1. destruct (j_done j); [exact H|]. cbv zeta. sf.
  unfold qget. destruct (N.eq_dec ch (j_chan j)) as [Ec|Ec].
  - subst ch. rewrite q_get_set_same. apply ins_In. right. exact H.
  - rewrite q_get_set_other by exact Ec. exact H.
Qed.

Lemma restore1_keeps_tq : forall j s t, In t (s_tq s) -> In t (s_tq (restore1 j s)).
Proof.
  intros j s t H. unfold restore1. destruct (j_done j); [exact H|]. cbv zeta. sf. apply tins_In. right; exact H.
Qed.

Lemma restore1_queued : forall j s, j_done j = false ->
  In (j_prio j, j_serial j) (qget (s_queues (restore1 j s)) (j_chan j)) /\
  In (j_timeout j, (j_prio j, j_serial j)) (s_tq (restore1 j s)).
Proof.
  intros j s D. unfold restore1. rewrite D. cbv zeta. sf. split.
  - unfold qget. rewrite q_get_set_same. apply ins_In. left; reflexivity.
  - apply tins_In. left; reflexivity.
Qed.

(* every unfinished saved job is queued in its channel and is on the timeout heap with its deadline *)
Lemma restore_loop_queued : forall l s j, In j l -> j_done j = false ->
  In (j_prio j, j_serial j) (qget (s_queues (restore_loop l s)) (j_chan j)) /\
  In (j_timeout j, (j_prio j, j_serial j)) (s_tq (restore_loop l s)).
Proof.
  induction l as [|j0 r IH]; intros s j Hin D; [destruct Hin|]. rewrite restore_loop_cons.
  destruct Hin as [Hin|Hin]; [subst j0|apply IH; assumption].
  apply (restore_loop_ind (fun s' => In (j_prio j, j_serial j) (qget (s_queues s') (j_chan j)) /\
                                     In (j_timeout j, (j_prio j, j_serial j)) (s_tq s'))).
  - intros j' s' [H1 H2]. split; [apply restore1_keeps_q; exact H1|apply restore1_keeps_tq; exact H2].
  - apply restore1_queued. exact D.
Qed.

Lemma restart_preserves : forall s i x j,
  id_lookup (s_ids s) i = Some x -> getjob (s_jobs s) x = Some j ->
  let s' := restart s in
  In j (s_jobs s') /\ s_count s' = s_count s /\ s_conns s' = [] /\ s_waiters s' = [] /\ s_hub s' = [] /\
  (j_done j = false ->
     In (j_prio j, j_serial j) (qget (s_queues s') (j_chan j)) /\
     In (j_timeout j, (j_prio j, j_serial j)) (s_tq s')).
Proof.
  intros s i x j El E s'. destruct (save_keeps s i x j El E) as [Hin Hc].
  destruct (restore_state (s_now s) (save s)) as (H1&H2&H3&H4&H5&H6&H7).
  change (restore (s_now s) (save s)) with s' in *.
  split; [rewrite H2; exact Hin|]. split; [congruence|]. split; [exact H3|]. split; [exact H4|]. split; [exact H5|].
  intro D. unfold s', restart, restore. apply restore_loop_queued; auto.
Qed.
