(* C01 — resolve_entity lets no exception escape; compute_path returns one state per count and generates at most
   6*32 states per step, for every sorter that permutes its input; the two insertion sorts do. *)
From Coq Require Import List NArith ZArith Bool Arith Lia Permutation.
From MW Require Import Common.Str C01.Model.
Import ListNotations.

Lemma chr_py_raises guard z e : chr_py guard z = Raise e -> e = EOverflow \/ e = EValue.
Proof.
  unfold chr_py. intros H.
  destruct ((z <? -2147483648) || (z >? 2147483647))%Z; [inversion H; auto|].
  destruct ((z <? 0) || (z >=? 1114112))%Z; [inversion H; auto|].
  destruct (guard && ((55296 <=? z) && (z <=? 57343))%Z); [inversion H; auto | discriminate].
Qed.

Lemma int_then_chr_raises pyint guard base d e :
  int_then_chr pyint guard base d = Raise e -> e = EOverflow \/ e = EValue.
Proof.
  unfold int_then_chr. destruct (pyint base d) as [z|]; intros H.
  - eapply chr_py_raises; eauto.
  - inversion H; auto.
Qed.

Lemma caught_in_In l e : In e l -> caught_in l e = true.
Proof.
  intros H. unfold caught_in. apply existsb_exists. exists e. split; [exact H|]. destruct e; reflexivity.
Qed.

(* Every string the two callers can pass (tokenizer rule `entity` and re `&[^;]*;`) has the shape '&' body ';'.
   For such strings, any int(), any name table with valid code points: no exception escapes. *)
Lemma resolve_entity_total pyint name2cp caught guard :
  (forall s z, name2cp s = Some z -> (0 <= z < 1114112)%Z) ->
  In EValue caught -> In EOverflow caught ->
  forall body, exists s, resolve_entity pyint name2cp caught guard (38%N :: body ++ [59%N]) = Ok s.
Proof.
  intros Hname HV HO body. unfold resolve_entity.
  assert (Hnamed : forall z, (0 <= z < 1114112)%Z -> exists c, chr_py false z = Ok c).
  { intros z Hz. unfold chr_py.
    replace ((z <? -2147483648) || (z >? 2147483647))%Z with false by lia.
    replace ((z <? 0) || (z >=? 1114112))%Z with false by lia. cbn. eauto. }
  destruct body as [|c1 body]; cbn [app nth_error].
  - (* "&;" *) change (N.eqb 59 35) with false. cbv iota.
    destruct (name2cp (slice_to_m1 1 [38%N; 59%N])) as [z|] eqn:E; [|eauto].
    apply Hname in E. destruct (Hnamed z E) as [c ->]. eauto.
  - destruct (N.eqb c1 35) eqn:E1.
    + (* numeric *)
      assert (Hc : exists c2, nth_error (body ++ [59%N]) 0 = Some c2).
      { destruct body; cbn; eauto. }
      destruct Hc as [c2 Hc]. cbn [nth_error] in Hc. rewrite Hc.
      match goal with |- context [match ?a with Ok _ => _ | Raise _ => _ end] => destruct a as [c|e] eqn:Ea end; [eauto|].
      assert (He : e = EOverflow \/ e = EValue).
      { destruct (N.eqb c2 120 || N.eqb c2 88); eapply int_then_chr_raises; eauto. }
      destruct He as [-> | ->]; rewrite caught_in_In by assumption; eauto.
    + destruct (name2cp _) as [z|] eqn:E; [|eauto].
      apply Hname in E. destruct (Hnamed z E) as [c ->]. eauto.
Qed.

Lemma next2_len s : length (next2 s) = 1. Proof. reflexivity. Qed.
Lemma next3_len s : length (next3 s) = 2. Proof. reflexivity. Qed.
Lemma next4_len s : length (next4 s) = 2. Proof. reflexivity. Qed.
Lemma next5_len s : length (next5 s) = 6. Proof. reflexivity. Qed.

Lemma get_next_ok count s : 2 <= count ->
  exists l, get_next count s = Ok l /\ 1 <= length l <= 6.
Proof.
  intros H. unfold get_next.
  destruct (count <? 2) eqn:E; [apply Nat.ltb_lt in E; lia|].
  destruct (count =? 2); [exists (next2 s); split; [reflexivity|rewrite next2_len; lia]|].
  destruct (count =? 3); [exists (next3 s); split; [reflexivity|rewrite next3_len; lia]|].
  destruct (count =? 4); [exists (next4 s); split; [reflexivity|rewrite next4_len; lia]|].
  destruct (count =? 5); eexists; (split; [reflexivity|rewrite next5_len; lia]).
Qed.

Definition hist_len (n : nat) (p : pst) : Prop := length (snd p) = n.

Lemma expand_ok count states n : 2 <= count ->
  Forall (hist_len n) states ->
  exists new, expand count states = Ok new /\
    length states <= length new <= 6 * length states /\ Forall (hist_len (S n)) new.
Proof.
  intros Hc. induction states as [|[s hist] rest IH]; intros HF.
  - exists []. cbn. repeat split; auto; lia.
  - inversion HF as [|? ? Hh Hr]; subst.
    destruct (get_next_ok count s Hc) as [ns [Hns Hl]].
    destruct (IH Hr) as [more [Hm [Hlen Hfa]]].
    cbn [expand]. rewrite Hns, Hm. eexists. split; [reflexivity|].
    rewrite app_length, map_length. cbn [length]. unfold pst in *. split; [lia|].
    apply Forall_app. split; [|exact Hfa].
    apply Forall_forall. intros x Hx. apply in_map_iff in Hx as [y [<- _]].
    unfold hist_len in *. cbn in *. lia.
Qed.

Lemma Forall_perm {A} (P : A -> Prop) l l' : Permutation l l' -> Forall P l' -> Forall P l.
Proof.
  intros Hp HF. apply Forall_forall. intros x Hx.
  eapply Forall_forall in HF; [exact HF|]. eapply Permutation_in; eauto.
Qed.

Lemma firstn_incl {A} k : forall l : list A, incl (firstn k l) l.
Proof.
  induction k as [|k IH]; intros [|y l] x H; cbn [firstn] in H; try destruct H as [].
  - left. assumption.
  - right. apply IH. assumption.
Qed.

Lemma dedup_incl seen l : incl (dedup seen l) l.
Proof.
  revert seen; induction l as [|y r IH]; intros seen x H; cbn [dedup] in H; [exact H|].
  destruct (existsb (st_eqb (fst y)) seen).
  - right. eapply IH; eauto.
  - destruct H as [<-|H]; [left; reflexivity|right; eapply IH; eauto].
Qed.

Lemma dedup_length seen l : length (dedup seen l) <= length l.
Proof.
  revert seen; induction l as [|y r IH]; intros seen; cbn [dedup length]; [lia|].
  destruct (existsb (st_eqb (fst y)) seen); [specialize (IH seen)|specialize (IH (fst y :: seen))]; cbn [length]; lia.
Qed.

Lemma dedup_nonempty l : l <> [] -> dedup [] l <> [].
Proof. destruct l as [|y r]; [congruence|]. intros _. cbn. discriminate. Qed.

Lemma sum_le_bound b w : Forall (fun k => k <= b) w -> fold_right plus 0 w <= b * length w.
Proof.
  induction 1 as [|k w Hk _ IH]; cbn [fold_right length]; [lia|]. rewrite Nat.mul_succ_r. lia.
Qed.

Lemma removelast_length {A} (l : list A) : length (removelast l) = length l - 1.
Proof.
  induction l as [|x l IH]; [reflexivity|]. destruct l as [|y l]; [reflexivity|].
  change (removelast (x :: y :: l)) with (x :: removelast (y :: l)). cbn [length] in *. lia.
Qed.

Section WithSorter.
  Variable sorter : list pst -> list pst.
  Hypothesis sorter_perm : forall l, Permutation (sorter l) l.

  Lemma prune_ok new n : 1 <= length new -> Forall (hist_len n) new ->
    exists kept, prune (sorter new) = Ok kept /\ 1 <= length kept <= 32 /\ Forall (hist_len n) kept.
  Proof.
    intros Hl HF.
    assert (Hlen : length (sorter new) = length new) by (apply Permutation_length, sorter_perm).
    assert (HF' : Forall (hist_len n) (sorter new)) by (eapply Forall_perm; [apply sorter_perm|exact HF]).
    pose proof (incl_Forall (dedup_incl [] (sorter new)) HF') as HFd.
    assert (Hne : dedup [] (sorter new) <> []).
    { apply dedup_nonempty. intros E. rewrite E in Hlen. cbn in Hlen. lia. }
    unfold prune. destruct (dedup [] (sorter new)) as [|best rest] eqn:E; [congruence|].
    destruct (is_zero (fst best)).
    - eexists. split; [reflexivity|]. split; [cbn; lia|]. inversion HFd; subst. constructor; auto.
    - eexists. split; [reflexivity|]. split.
      + rewrite firstn_length. cbn [length]. lia.
      + exact (incl_Forall (firstn_incl 32 _) HFd).
  Qed.

  Lemma steps_ok counts : Forall (fun c => 2 <= c) counts ->
    forall states n work, 1 <= length states <= 32 -> Forall (hist_len n) states ->
    exists final w, steps sorter counts states work = Ok (final, rev work ++ w) /\
      1 <= length final <= 32 /\ Forall (hist_len (n + length counts)) final /\
      length w = length counts /\ Forall (fun k => k <= 192) w.
  Proof.
    induction counts as [|c cs IH]; intros HC states n work Hl HF.
    - exists states, []. cbn. rewrite app_nil_r, Nat.add_0_r. repeat split; auto; lia.
    - inversion HC as [|? ? Hc Hcs]; subst.
      destruct (expand_ok c states n Hc HF) as [new [Hnew [Hlen Hfa]]].
      destruct (prune_ok new (S n)) as [kept [Hk [Hkl Hkf]]]; [lia|exact Hfa|].
      destruct (IH Hcs kept (S n) (length new :: work) Hkl Hkf) as [final [w [Hs [Hfl [Hff [Hwl Hwf]]]]]].
      exists final, (length new :: w). cbn [steps]. rewrite Hnew, Hk, Hs.
      split; [cbn [rev]; rewrite <- app_assoc; reflexivity|].
      split; [exact Hfl|]. split.
      + replace (n + length (c :: cs)) with (S n + length cs) by (cbn; lia). exact Hff.
      + split; [cbn; lia|]. constructor; [lia|exact Hwf].
  Qed.

  (* compute_path never raises (count >= 2 is what the scanner's rule "'" "'"+ delivers), keeps at most 32
     states after every step, generates at most 6*32 states per step, and returns one state per count. *)
  Lemma compute_path_bounded counts : Forall (fun c => 2 <= c) counts ->
    exists path work, compute_path_work sorter counts = Ok (path, work) /\
      length path = length counts /\ length work = length counts /\
      Forall (fun k => k <= 192) work /\ fold_right plus 0 work <= 192 * length counts.
  Proof.
    intros HC.
    destruct (steps_ok counts HC [(init_st, [])] 0 []) as [final [w [Hs [Hfl [Hff [Hwl Hwf]]]]]];
      [cbn; lia | repeat constructor|].
    cbn [rev app] in Hs. unfold compute_path_work. rewrite Hs.
    destruct final as [|[s hist] rest]; [cbn in Hfl; lia|].
    inversion Hff as [|? ? Hh _]; subst. unfold hist_len in Hh. cbn in Hh.
    assert (Hp : length (rev (removelast (s :: hist))) = length counts).
    { rewrite rev_length, removelast_length. cbn [length]. lia. }
    rewrite Hp, Nat.eqb_refl. eexists _, _. split; [reflexivity|].
    repeat split; auto.
    rewrite <- Hwl. apply sum_le_bound. exact Hwf.
  Qed.
End WithSorter.

Lemma insert_perm x l : Permutation (insert_by_score x l) (x :: l).
Proof.
  induction l as [|y r IH]; cbn [insert_by_score]; [reflexivity|].
  destruct (score (fst x) <? score (fst y)); [reflexivity|].
  rewrite IH. apply perm_swap.
Qed.

Lemma stable_sort_perm l : Permutation (stable_sort l) l.
Proof.
  induction l as [|x l IH]; [reflexivity|].
  unfold stable_sort in *. cbn [fold_right]. rewrite insert_perm. constructor. exact IH.
Qed.

Lemma insert_le_perm x l : Permutation (insert_by_score_le x l) (x :: l).
Proof.
  induction l as [|y r IH]; cbn [insert_by_score_le]; [reflexivity|].
  destruct (score (fst x) <=? score (fst y)); [reflexivity|].
  rewrite IH. apply perm_swap.
Qed.

Lemma antistable_sort_perm l : Permutation (antistable_sort l) l.
Proof.
  induction l as [|x l IH]; [reflexivity|].
  unfold antistable_sort in *. cbn [fold_right]. rewrite insert_le_perm. constructor. exact IH.
Qed.
