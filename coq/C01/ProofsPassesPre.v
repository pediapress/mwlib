(* C01 — termination/totality of the loop of ParsePreformatted.run (model: C01/PassesPre.v).
   Measure: len(tokens) - i.  Every iteration advances i, except the newline that closes an open " " line, which
   replaces tokens[start:i+1] by one node (i := start+1) or deletes them (merged into the preceding preformatted
   node, i := start): both shrink len(tokens) - i by exactly one. *)
From Coq Require Import List NArith Arith Bool Lia.
From MW Require Import C01.Passes C01.ProofsPasses C01.PassesPre.
Import ListNotations.

Definition pre_mu (s : xstate) : nat := length (x_toks s) - x_i s.
Definition pre_inv (s : xstate) : Prop :=
  x_i s <= length (x_toks s) /\ opened anywhere (x_i s) (x_start s).

Lemma pre_handle_spec : forall toks i st, st < i -> i < length toks ->
  exists toks' i', pre_handle toks i st = POk (toks', i')
                   /\ i' <= length toks' /\ length toks' - i' = length toks - i - 1.
Proof.
  intros toks i st Hs Hi. unfold pre_handle.
  set (sub := slice (st + 1) (i + 1) toks).
  assert (Hfresh : exists toks' i',
            POk (splice st (i + 1) [GTok XPreformatted 0%N sub] toks, st + 1) = POk (toks', i')
            /\ i' <= length toks' /\ length toks' - i' = length toks - i - 1).
  { do 2 eexists. split; [reflexivity|]. rewrite splice_length by lia. cbn [length]. lia. }
  destruct st as [|p]; [exact Hfresh|].
  destruct (nth_error_in_range _ toks p ltac:(lia)) as [prev Hp]. rewrite Hp.
  destruct (is_preformatted prev); [|exact Hfresh].
  do 2 eexists. split; [reflexivity|]. rewrite set_nth_length, splice_length by lia. cbn [length]. lia.
Qed.

Lemma pre_step_ok : forall s, pre_inv s ->
  step_ok pre_inv pre_mu (fun _ => True) s (pre_step s).
Proof.
  intros [i start toks] [Hi Hs]. unfold pre_step. cbn [x_i x_start x_toks] in *.
  apply step_ok_at_index; [intros t Elt Ht|intros _; exact I].
  assert (Hadv : forall start', opened anywhere (S i) start' ->
            pre_inv (mkxstate (S i) start' toks) /\ pre_mu (mkxstate (S i) start' toks) < pre_mu (mkxstate i start toks)).
  { intros start' H'. split.
    - unfold pre_inv; cbn [x_i x_start x_toks]. split; [lia|exact H'].
    - unfold pre_mu; cbn [x_i x_toks]. lia. }
  pose proof (opened_le _ i (S i) _ (Nat.le_succ_diag_r i) Hs) as Hkeep.
  assert (Hdflt : step_ok pre_inv pre_mu (fun _ => True) (mkxstate i start toks)
                    (if pre_resets t then Continue (mkxstate (S i) None toks)
                     else @Continue xstate (list xtok) (mkxstate (S i) start toks))).
  { destruct (pre_resets t); [apply Hadv; exact I|apply Hadv; exact Hkeep]. }
  destruct (gkind t) eqn:Ek; try (destruct start; exact Hdflt).
  - (* t_pre *)
    apply Hadv. apply opened_here. exact I.
  - (* t_newline *)
    destruct start as [st|]; [|exact Hdflt]. destruct Hs as [Hs _].
    destruct (pre_handle_spec toks i st Hs Elt) as (toks' & i' & Hh & Hle & Hmu). rewrite Hh. split.
    + unfold pre_inv; cbn [x_i x_start x_toks]. split; [exact Hle|exact I].
    + unfold pre_mu; cbn [x_i x_toks]. lia.
Qed.

Lemma pre_inv_init : forall toks, pre_inv (pre_init toks).
Proof. intros toks. unfold pre_inv, pre_init; cbn [x_i x_start x_toks]. split; [lia|exact I]. Qed.

Theorem pre_run_bound : forall fuel toks, 1 * length toks < fuel ->
  exists r iters, pre_run fuel toks = POk (r, iters) /\ iters <= 1 * length toks.
Proof.
  intros fuel toks Hf. apply (iter_run pre_step pre_inv pre_mu _ pre_step_ok); [apply pre_inv_init| |exact Hf].
  unfold pre_mu, pre_init; cbn [x_i x_toks]. lia.
Qed.
