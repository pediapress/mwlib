(* C01 — termination/totality of the loops of the table parser (models: C01/PassesTable.v).
   TableCellParser.run / TableRowParser.run: measure len(tokens) - index; an iteration advances the index, or closes
   the open cell / row: tokens[start:index] (or [start:index+1]) is replaced by one node and index := start+2
   (resp. start+1) — len(tokens) - index shrinks by exactly one.  Invariant: `start` points before the index, at a
   cell start token (so tokens[start].text is a string), and after a close at the token that ended the cell / row.
   TableParser.run: measure 2*(len(tokens) - index) + len(stack); a table start pushes the index, a table end pops and
   replaces tokens[start:index+1] by the table node; `while stack: make_table()` pops once per iteration.  Invariant:
   the stack holds positions of table start tokens, strictly increasing towards the top, the top below the index
   (`stack_ok`; the model keeps the top of the stack first).
   The nested calls (TableCellParser on the children of a row, TableRowParser on the children of a table) are total by
   the theorems for the inner passes. *)
From Coq Require Import List NArith Arith Bool Lia.
From MW Require Import C01.Passes C01.ProofsPasses C01.PassesPre C01.PassesTable.
Import ListNotations.

Lemma nth_error_skipn0 : forall A n (l : list A), nth_error (skipn n l) 0 = nth_error l n.
Proof.
  induction n as [|n IH]; intros l.
  - destruct l; reflexivity.
  - destruct l as [|x l]; [reflexivity|]. cbn [skipn nth_error]. apply IH.
Qed.

Lemma nth_error_firstn_lt : forall A n (l : list A) e, e < n -> nth_error (firstn n l) e = nth_error l e.
Proof.
  induction n as [|n IH]; intros l e H; [lia|].
  destruct l as [|x l]; [destruct e; reflexivity|].
  destruct e as [|e]; cbn [firstn nth_error]; [reflexivity|]. apply IH. lia.
Qed.

Lemma nth_error_splice_before : forall A a b (x l : list A) e, e < a -> a <= length l ->
  nth_error (splice a b x l) e = nth_error l e.
Proof.
  intros A a b x l e He Ha. unfold splice.
  rewrite nth_error_app1 by (rewrite firstn_length; lia). apply nth_error_firstn_lt. exact He.
Qed.

Lemma nth_error_splice_next : forall A a b (x : A) (l : list A), a <= b -> a <= length l ->
  nth_error (splice a b [x] l) (a + 1) = nth_error l b.
Proof.
  intros A a b x l Hab Ha. unfold splice. rewrite Nat.max_r by lia.
  rewrite nth_error_app2 by (rewrite firstn_length; lia).
  rewrite firstn_length. replace (a + 1 - Nat.min a (length l)) with 1 by lia.
  cbn [app nth_error]. apply nth_error_skipn0.
Qed.

Lemma cell_start_has_text : forall t : ttok, is_cell_start t = true -> text_none t = false.
Proof. intros [k i ks]. unfold is_cell_start, text_none. cbn [gkind]. destruct k; intros H; try discriminate; reflexivity. Qed.

Definition cell_start_at : list ttok -> nat -> Prop := at_pos (fun t => is_cell_start t = true).

Definition cell_mu (s : cstate) : nat := length (tc_toks s) - tc_i s.
Definition cell_inv (s : cstate) : Prop :=
  tc_i s <= length (tc_toks s) /\ opened (cell_start_at (tc_toks s)) (tc_i s) (tc_start s).

Lemma make_cell_spec : forall toks st index sk hdr, st < index -> index <= length toks -> cell_start_at toks st ->
  exists toks' hdr', make_cell toks st index sk hdr = POk (toks', hdr')
    /\ length toks' = st + 1 + (length toks - index)
    /\ nth_error toks' (st + 1) = nth_error toks index.
Proof.
  intros toks st index sk hdr Hst Hidx (s & Hs & Hcs). unfold make_cell. rewrite Hs, (cell_start_has_text s Hcs).
  do 2 eexists. split; [reflexivity|]. split.
  - rewrite splice_length by lia. cbn [length]. lia.
  - apply nth_error_splice_next; lia.
Qed.

Lemma cell_step_ok : forall s, cell_inv s ->
  step_ok cell_inv cell_mu (fun _ => True) s (cell_step s).
Proof.
  intros [i start hdr toks] [Hi Hs]. unfold cell_step. cbn [tc_i tc_start tc_hdr tc_toks] in *.
  apply step_ok_at_index; [intros t Elt Ht|intros Elt].
  - assert (Hadv : forall start' hdr', opened (cell_start_at toks) (S i) start' ->
              cell_inv (mkcstate (S i) start' hdr' toks)
              /\ cell_mu (mkcstate (S i) start' hdr' toks) < cell_mu (mkcstate i start hdr toks)).
    { intros start' hdr' H'. split.
      - unfold cell_inv; cbn [tc_i tc_start tc_toks]. split; [lia|exact H'].
      - unfold cell_mu; cbn [tc_i tc_toks]. lia. }
    pose proof (opened_le _ i (S i) _ (Nat.le_succ_diag_r i) Hs) as Hkeep.
    destruct (is_cell_start t) eqn:Ecs.
    + (* a cell start *)
      destruct start as [st|].
      * destruct Hs as (Hlt & Hs0).
        destruct (make_cell_spec toks st i 0 hdr Hlt (Nat.lt_le_incl _ _ Elt) Hs0) as (toks' & hdr' & Hm & Hl & Hn).
        rewrite Hm. split.
        -- unfold cell_inv; cbn [tc_i tc_start tc_toks]. split; [lia|].
           replace (st + 2) with (S (st + 1)) by lia. apply opened_here.
           exists t. rewrite Hn. split; [exact Ht|exact Ecs].
        -- unfold cell_mu; cbn [tc_i tc_toks]. lia.
      * apply Hadv. apply opened_here. exists t. split; [exact Ht|exact Ecs].
    + destruct (is_cell_end t) eqn:Ece; [|apply Hadv; exact Hkeep].
      (* a cell end *)
      destruct start as [st|]; [|apply Hadv; exact I].
      destruct Hs as (Hlt & Hs0).
      destruct (make_cell_spec toks st (i + 1) 1 hdr ltac:(lia) ltac:(lia) Hs0) as (toks' & hdr' & Hm & Hl & _).
      rewrite Hm. split.
      * unfold cell_inv; cbn [tc_i tc_start tc_toks]. split; [lia|exact I].
      * unfold cell_mu; cbn [tc_i tc_toks]. lia.
  - (* after the loop *)
    destruct start as [st|]; [|exact I].
    destruct Hs as (Hlt & Hs0).
    destruct (make_cell_spec toks st i 0 hdr Hlt Hi Hs0) as (toks' & hdr' & Hm & _).
    rewrite Hm. exact I.
Qed.

Lemma cell_inv_init : forall toks, cell_inv (cell_init toks).
Proof. intros toks. unfold cell_inv, cell_init; cbn [tc_i tc_start tc_toks]. split; [lia|exact I]. Qed.

(* TableCellParser.run: any fuel above len is enough; nothing is raised (tokens[start].text is never None) *)
Theorem cell_run_bound : forall fuel toks, 1 * length toks < fuel ->
  exists r iters, cell_run fuel toks = POk (r, iters) /\ iters <= 1 * length toks.
Proof.
  intros fuel toks Hf. apply (iter_run cell_step cell_inv cell_mu _ cell_step_ok); [apply cell_inv_init| |exact Hf].
  unfold cell_mu, cell_init; cbn [tc_i tc_toks]. lia.
Qed.

Lemma cell_full_total : forall toks, exists r, cell_full toks = POk r.
Proof.
  intros toks. destruct (cell_run_bound (cell_fuel toks) toks) as (r & k & Hr & _); [unfold cell_fuel; lia|].
  exists r. unfold cell_full. rewrite Hr. reflexivity.
Qed.

Lemma row_node_total : forall children rbt, exists row, row_node children rbt = POk row.
Proof.
  intros children rbt. unfold row_node.
  destruct (cell_full_total (if should_find rbt then row_mod children else children)) as [kids Hk].
  rewrite Hk. eexists. reflexivity.
Qed.

Definition row_mu (s : rstate) : nat := length (r_toks s) - r_i s.
Definition row_inv (s : rstate) : Prop :=
  r_i s <= length (r_toks s) /\ opened anywhere (r_i s) (r_start s).

Lemma row_step_ok : forall s, row_inv s ->
  step_ok row_inv row_mu (fun _ => True) s (row_step s).
Proof.
  intros [i start rs rbt toks] [Hi Hs]. unfold row_step. cbn [r_i r_start r_rs r_rbt r_toks] in *.
  apply step_ok_at_index; [intros t Elt Ht|intros Elt].
  - assert (Hadv : forall start' rs' rbt', opened anywhere (S i) start' ->
              row_inv (mkrstate (S i) start' rs' rbt' toks)
              /\ row_mu (mkrstate (S i) start' rs' rbt' toks) < row_mu (mkrstate i start rs rbt toks)).
    { intros start' rs' rbt' H'. split.
      - unfold row_inv; cbn [r_i r_start r_toks]. split; [lia|exact H'].
      - unfold row_mu; cbn [r_i r_toks]. lia. }
    pose proof (opened_here anywhere i I) as Hhere.
    destruct start as [st|].
    + pose proof (opened_le _ i (S i) _ (Nat.le_succ_diag_r i) Hs) as Hkeep. destruct Hs as [Hs _].
      destruct (is_row_start t) eqn:Ers.
      * (* a row start closes the open row *)
        destruct (row_node_total (slice (st + rs) i toks) rbt) as [row Hrow]. rewrite Hrow.
        rewrite nth_error_splice_next by lia. rewrite Ht. split.
        -- unfold row_inv; cbn [r_i r_start r_toks]. rewrite splice_length by lia. cbn [length].
           split; [lia|]. split; [lia|exact I].
        -- unfold row_mu; cbn [r_i r_toks]. rewrite splice_length by lia. cbn [length]. lia.
      * destruct (is_row_end t) eqn:Ere; [|apply Hadv; exact Hkeep].
        (* a row end *)
        destruct (row_node_total (slice (st + rs) i toks) rbt) as [row Hrow]. rewrite Hrow. split.
        -- unfold row_inv; cbn [r_i r_start r_toks]. rewrite splice_length by lia. cbn [length].
           split; [lia|exact I].
        -- unfold row_mu; cbn [r_i r_toks]. rewrite splice_length by lia. cbn [length]. lia.
    + destruct (is_cell_start t); [apply Hadv; exact Hhere|].
      destruct (is_row_start t); [apply Hadv; exact Hhere|apply Hadv; exact I].
  - destruct start as [st|]; [|exact I].
    destruct (row_node_total (skipn (st + rs) toks) rbt) as [row Hrow]. rewrite Hrow. exact I.
Qed.

Lemma row_inv_init : forall toks, row_inv (row_init toks).
Proof. intros toks. unfold row_inv, row_init; cbn [r_i r_start r_toks]. split; [lia|exact I]. Qed.

(* TableRowParser.run (with the nested TableCellParser runs): any fuel above len is enough; nothing is raised *)
Theorem row_run_bound : forall fuel toks, 1 * length toks < fuel ->
  exists r iters, row_run fuel toks = POk (r, iters) /\ iters <= 1 * length toks.
Proof.
  intros fuel toks Hf. apply (iter_run row_step row_inv row_mu _ row_step_ok); [apply row_inv_init| |exact Hf].
  unfold row_mu, row_init; cbn [r_i r_toks]. lia.
Qed.

Lemma row_full_total : forall toks, exists r, row_full toks = POk r.
Proof.
  intros toks. destruct (row_run_bound (row_fuel toks) toks) as (r & k & Hr & _); [unfold row_fuel; lia|].
  exists r. unfold row_full. rewrite Hr. reflexivity.
Qed.

Lemma table_start_has_text : forall t : ttok, is_table_start t = true -> text_none t = false.
Proof. intros [k i ks]. unfold is_table_start, text_none. cbn [gkind]. destruct k; intros H; try discriminate; reflexivity. Qed.

Definition table_start_at : list ttok -> nat -> Prop := at_pos (fun t => is_table_start t = true).

(* the stack, top first: positions of table start tokens, the top below `bound`, each below the one above it *)
Fixpoint stack_ok (bound : nat) (toks : list ttok) (stack : list nat) : Prop :=
  match stack with
  | [] => True
  | st :: rest => st < bound /\ table_start_at toks st /\ stack_ok st toks rest
  end.

Lemma stack_ok_transfer : forall rest b b' toks toks',
  stack_ok b toks rest -> b <= b' -> (forall e, e < b -> nth_error toks' e = nth_error toks e) ->
  stack_ok b' toks' rest.
Proof.
  induction rest as [|st rest IH]; intros b b' toks toks' H Hb Hsame; cbn [stack_ok] in *; [exact I|].
  destruct H as (Hlt & (t & Ht & Hts) & Hrest).
  split; [lia|]. split.
  - exists t. rewrite Hsame by exact Hlt. auto.
  - apply (IH st st toks toks' Hrest (Nat.le_refl _)). intros e He. apply Hsame. lia.
Qed.

Lemma stack_ok_le : forall stack b b' toks, stack_ok b toks stack -> b <= b' -> stack_ok b' toks stack.
Proof. intros stack b b' toks H Hb. apply (stack_ok_transfer stack b b' toks toks H Hb). reflexivity. Qed.

Definition tab_mu (s : tstate) : nat := 2 * (length (t_toks s) - t_i s) + length (t_stack s).
Definition tab_inv (s : tstate) : Prop := stack_ok (t_i s) (t_toks s) (t_stack s).

(* make_table() for the top of the stack: tokens[st:index+1] become one table node, the tokens below st stay *)
Lemma make_table_pop : forall toks st rest index, stack_ok index toks (st :: rest) ->
  exists toks', make_table toks st index = POk toks'
    /\ length toks' = st + 1 + (length toks - (index + 1))
    /\ stack_ok st toks' rest.
Proof.
  intros toks st rest index (Hlt & (s & Hs & Hts) & Hrest). unfold make_table. rewrite Hs, (table_start_has_text s Hts).
  assert (Hst : st < length toks) by (apply nth_error_Some; rewrite Hs; discriminate).
  destruct (row_full_total (match gkind s with TBegin => table_mod (slice (st + 1) index toks)
                                          | _ => slice (st + 1) index toks end)) as [rows Hr].
  rewrite Hr. eexists. split; [reflexivity|]. split.
  - rewrite splice_length by lia. cbn [length]. lia.
  - apply (stack_ok_transfer rest st st toks _ Hrest (Nat.le_refl _)).
    intros e He. apply nth_error_splice_before; lia.
Qed.

Lemma tab_step_ok : forall s, tab_inv s ->
  step_ok tab_inv tab_mu (fun _ => True) s (tab_step s).
Proof.
  intros [i stack toks] Hinv. unfold tab_inv in Hinv. unfold tab_step. cbn [t_i t_stack t_toks] in *.
  apply step_ok_at_index; [intros t Elt Ht|intros Elt].
  - assert (Hadv : tab_inv (mktstate (S i) stack toks)
                   /\ tab_mu (mktstate (S i) stack toks) < tab_mu (mktstate i stack toks)).
    { split.
      - unfold tab_inv; cbn [t_i t_stack t_toks]. apply (stack_ok_le stack i (S i) toks Hinv). lia.
      - unfold tab_mu; cbn [t_i t_stack t_toks]. lia. }
    destruct (is_table_start t) eqn:Ets.
    + (* a table start is pushed *)
      split.
      * unfold tab_inv; cbn [t_i t_stack t_toks stack_ok]. split; [lia|]. split; [exists t; auto|exact Hinv].
      * unfold tab_mu; cbn [t_i t_stack t_toks length]. lia.
    + destruct (is_table_end t) eqn:Ete; [|exact Hadv].
      destruct stack as [|st rest]; [exact Hadv|].
      destruct (make_table_pop toks st rest i Hinv) as (toks' & Hm & Hl & Hrest). rewrite Hm.
      destruct Hinv as (Hlt & _). split.
      * unfold tab_inv; cbn [t_i t_stack t_toks]. apply (stack_ok_le rest st (st + 1) toks' Hrest). lia.
      * unfold tab_mu; cbn [t_i t_stack t_toks length]. lia.
  - (* `while stack: make_table()` *)
    destruct stack as [|st rest]; [exact I|].
    destruct (make_table_pop toks st rest i Hinv) as (toks' & Hm & Hl & Hrest). rewrite Hm.
    destruct Hinv as (Hlt & _). split.
    + unfold tab_inv; cbn [t_i t_stack t_toks]. apply (stack_ok_le rest st i toks' Hrest). lia.
    + unfold tab_mu; cbn [t_i t_stack t_toks length]. lia.
Qed.

(* TableParser.run (main loop + `while stack`, with the nested row / cell parsers and find_caption): any fuel above
   2*len is enough for all loops; nothing is raised *)
Theorem tab_run_bound : forall fuel toks, 2 * length toks < fuel ->
  exists r iters, tab_run fuel toks = POk (r, iters) /\ iters <= 2 * length toks.
Proof.
  intros fuel toks Hf. apply (iter_run tab_step tab_inv tab_mu _ tab_step_ok); [| |exact Hf].
  - unfold tab_inv, tab_init; cbn [t_i t_stack t_toks stack_ok]. exact I.
  - unfold tab_mu, tab_init; cbn [t_i t_stack t_toks length]. lia.
Qed.
