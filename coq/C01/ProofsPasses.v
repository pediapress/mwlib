(* C01 — termination/totality of the index-walking loops of the refinement passes (models: C01/Passes.v).
   For every pass: an explicit measure `mu` on the loop state, the lemma "one iteration strictly decreases mu
   and raises nothing" under an explicit invariant, hence `run fuel toks = POk (r, iters)` for every fuel above a
   bound linear in `length toks`, with iters at most that bound. *)
From Coq Require Import List NArith Arith Bool Lia.
From MW Require Import C01.Passes.
Import ListNotations.

(* the outcome r of one iteration from state s: the loop goes on under the invariant with a smaller measure, or ends
   with a result as wanted; nothing is raised *)
Definition step_ok {St R : Type} (Inv : St -> Prop) (mu : St -> nat) (Post : R -> Prop) (s : St) (r : stepres St R) : Prop :=
  match r with
  | Continue s' => Inv s' /\ mu s' < mu s
  | Done r => Post r
  | Fail _ => False
  end.

(* the shape of every pass: `while i < len(tokens): t = tokens[i]; ...` and what follows the loop *)
Lemma step_ok_at_index : forall (A St R : Type) (Inv : St -> Prop) mu (Post : R -> Prop) s (l : list A) i
    (body : A -> stepres St R) (post : stepres St R),
  (forall t, i < length l -> nth_error l i = Some t -> step_ok Inv mu Post s (body t)) ->
  (length l <= i -> step_ok Inv mu Post s post) ->
  step_ok Inv mu Post s (if i <? length l then match nth_error l i with None => Fail PIndex | Some t => body t end else post).
Proof.
  intros A St R Inv mu Post s l i body post Hbody Hpost. destruct (i <? length l) eqn:Elt.
  - apply Nat.ltb_lt in Elt. destruct (nth_error l i) as [t|] eqn:Ht; [exact (Hbody t Elt eq_refl)|].
    apply nth_error_None in Ht. lia.
  - apply Nat.ltb_ge in Elt. exact (Hpost Elt).
Qed.

Section IterTerm.
  Context {St R : Type}.
  Variable step : St -> stepres St R.
  Variable Inv : St -> Prop.
  Variable mu : St -> nat.
  Variable Post : R -> Prop.
  Hypothesis Hstep : forall s, Inv s -> step_ok Inv mu Post s (step s).

  Lemma iter_terminates : forall fuel n s, Inv s -> mu s < fuel ->
    exists r k, iter step fuel n s = POk (r, k) /\ k <= n + mu s /\ Post r.
  Proof.
    induction fuel as [|f IH]; intros n s Hi Hm; [lia|].
    cbn [iter]. pose proof (Hstep s Hi) as H. unfold step_ok in H.
    destruct (step s) as [s'|r|e].
    - destruct H as [Hi' Hlt].
      destruct (IH (S n) s' Hi') as (r & k & Hr & Hk & Hp); [lia|].
      exists r, k. split; [exact Hr|]. split; [lia|exact Hp].
    - exists r, n. split; [reflexivity|]. split; [lia|exact H].
    - contradiction.
  Qed.

  (* a whole run: the measure of the initial state bounds the number of iterations, any fuel above it will do *)
  Lemma iter_run fuel init bound : Inv init -> mu init <= bound -> bound < fuel ->
    exists r k, iter step fuel 0 init = POk (r, k) /\ k <= bound.
  Proof.
    intros Hi Hm Hf. destruct (iter_terminates fuel 0 init Hi) as (r & k & Hr & Hk & _); [lia|].
    exists r, k. split; [exact Hr|lia].
  Qed.
End IterTerm.

Lemma set_nth_length : forall A n (x : A) l, length (set_nth n x l) = length l.
Proof.
  intros A n x l. unfold set_nth. destruct (n <? length l) eqn:E; [|reflexivity].
  apply Nat.ltb_lt in E. rewrite app_length, firstn_length. cbn [length]. rewrite skipn_length. lia.
Qed.

Lemma splice_length : forall A a b (x l : list A), a <= length l ->
  length (splice a b x l) = a + length x + (length l - Nat.max a b).
Proof.
  intros A a b x l Ha. unfold splice. rewrite !app_length, firstn_length, skipn_length. lia.
Qed.

Lemma del_nth_length : forall A n (l : list A), n < length l -> length (del_nth n l) = length l - 1.
Proof.
  intros A n l H. unfold del_nth. rewrite app_length, firstn_length, skipn_length. lia.
Qed.

Lemma nth_error_in_range : forall A (l : list A) i, i < length l -> exists x, nth_error l i = Some x.
Proof.
  intros A l i H. destruct (nth_error l i) eqn:E; [eauto|]. apply nth_error_None in E. lia.
Qed.

Lemma skipn_cons_nth : forall A (l : list A) i t, nth_error l i = Some t -> skipn i l = t :: skipn (S i) l.
Proof.
  induction l as [|x l IH]; intros [|i] t H; cbn in *; try discriminate.
  - inversion H. reflexivity.
  - apply IH. exact H.
Qed.

Lemma skipn_app_exact : forall A (l1 l2 : list A) n, length l1 = n -> skipn n (l1 ++ l2) = l2.
Proof. induction l1 as [|x l1 IH]; intros l2 [|n] H; cbn in *; try discriminate; auto. Qed.

Lemma firstn_app_exact : forall A (l1 l2 : list A) n, length l1 = n -> firstn n (l1 ++ l2) = l1.
Proof. intros A l1 l2 n <-. rewrite firstn_app, Nat.sub_diag, firstn_all, firstn_O. apply app_nil_r. Qed.

(* a list cut at a known position: d ++ x :: r at index length d *)
Lemma nth_error_mid : forall A (d : list A) x r, nth_error (d ++ x :: r) (length d) = Some x.
Proof. induction d as [|y d IH]; intros x r; cbn; auto. Qed.

Lemma firstn_mid : forall A (d r : list A), firstn (length d) (d ++ r) = d.
Proof. intros A d r. apply firstn_app_exact. reflexivity. Qed.

Lemma skipn_mid : forall A (d r : list A), skipn (length d) (d ++ r) = r.
Proof. intros A d r. apply skipn_app_exact. reflexivity. Qed.

Lemma snoc_mid : forall A (d : list A) x r, d ++ x :: r = (d ++ [x]) ++ r /\ S (length d) = length (d ++ [x]).
Proof. intros A d x r. rewrite <- app_assoc, app_length. cbn [app length]. split; [reflexivity|lia]. Qed.

Lemma firstn_mid_S : forall A (d : list A) x r, firstn (S (length d)) (d ++ x :: r) = d ++ [x].
Proof. intros A d x r. destruct (snoc_mid A d x r) as [-> ->]. apply firstn_mid. Qed.

Lemma skipn_mid_S : forall A (d : list A) x r, skipn (S (length d)) (d ++ x :: r) = r.
Proof. intros A d x r. destruct (snoc_mid A d x r) as [-> ->]. apply skipn_mid. Qed.

Lemma del_nth_mid : forall A (d : list A) x r, del_nth (length d) (d ++ x :: r) = d ++ r.
Proof. intros A d x r. unfold del_nth. rewrite firstn_mid, skipn_mid_S. reflexivity. Qed.

Lemma set_nth_mid : forall A (d : list A) x y r, set_nth (length d) y (d ++ x :: r) = d ++ y :: r.
Proof.
  intros A d x y r. unfold set_nth.
  assert (H : length d <? length (d ++ x :: r) = true).
  { apply Nat.ltb_lt. rewrite app_length. cbn. lia. }
  rewrite H, firstn_mid, skipn_mid_S. reflexivity.
Qed.

Lemma skipn_set_nth : forall A i (x : A) l, i < length l -> skipn i (set_nth i x l) = x :: skipn (S i) l.
Proof.
  intros A i x l H. unfold set_nth. apply Nat.ltb_lt in H. rewrite H. apply Nat.ltb_lt in H.
  apply skipn_app_exact. rewrite firstn_length. lia.
Qed.

Lemma skipn_splice : forall A a b (x l : list A), a <= b -> a <= length l ->
  skipn a (splice a b x l) = x ++ skipn b l.
Proof.
  intros A a b x l Hab Ha. unfold splice. rewrite Nat.max_r by lia.
  apply skipn_app_exact. rewrite firstn_length. lia.
Qed.

Lemma Forall_firstn : forall A (P : A -> Prop) n l, Forall P l -> Forall P (firstn n l).
Proof.
  intros A P n l H. rewrite <- (firstn_skipn n l) in H. apply Forall_app in H. tauto.
Qed.
Lemma Forall_skipn : forall A (P : A -> Prop) n l, Forall P l -> Forall P (skipn n l).
Proof.
  intros A P n l H. rewrite <- (firstn_skipn n l) in H. apply Forall_app in H. tauto.
Qed.

Lemma Forall_splice : forall A (P : A -> Prop) a b x l, Forall P x -> Forall P l -> Forall P (splice a b x l).
Proof.
  intros A P a b x l Hx Hl. unfold splice.
  apply Forall_app. split; [apply Forall_firstn; exact Hl|].
  apply Forall_app. split; [exact Hx|apply Forall_skipn; exact Hl].
Qed.

(* the potential of the tokens still to be visited, where a loop may visit a token more than once *)
Section Wsum.
  Context {A : Type} (w : A -> nat).

  Fixpoint wsum (l : list A) : nat := match l with [] => 0 | t :: r => w t + wsum r end.

  Lemma wsum_app : forall a b, wsum (a ++ b) = wsum a + wsum b.
  Proof. induction a as [|t a IH]; intros b; cbn [wsum app]; [reflexivity|rewrite IH; lia]. Qed.

  Lemma wsum_le : forall c, (forall t, w t <= c) -> forall l, wsum l <= c * length l.
  Proof. intros c Hc. induction l as [|t l IH]; cbn [wsum length]; [lia|]. specialize (Hc t). lia. Qed.

  Lemma wsum_ones : forall l, Forall (fun t => w t = 1) l -> wsum l = length l.
  Proof. induction 1 as [|t l Ht _ IH]; cbn [wsum length]; lia. Qed.

  Lemma wsum_skipn : forall l i t, nth_error l i = Some t -> wsum (skipn i l) = w t + wsum (skipn (S i) l).
  Proof. intros l i t H. rewrite (skipn_cons_nth _ l i t H). reflexivity. Qed.
End Wsum.

(* a position the loop keeps open (the start of a title, a line, a link, a style, a cell, a row): it lies before the
   index, at a token with property P *)
Definition opened (P : nat -> Prop) (i : nat) (o : option nat) : Prop :=
  match o with None => True | Some k => k < i /\ P k end.

Lemma opened_le : forall P i j o, i <= j -> opened P i o -> opened P j o.
Proof. intros P i j [k|] Hij H; [destruct H; split; [lia|assumption]|exact I]. Qed.

Lemma opened_here : forall (P : nat -> Prop) i, P i -> opened P (S i) (Some i).
Proof. intros P i H. split; [lia|exact H]. Qed.

Definition anywhere (k : nat) : Prop := True.
Definition at_pos {A} (P : A -> Prop) (l : list A) (k : nat) : Prop := exists t, nth_error l k = Some t /\ P t.

(* ParseSections.  Measure: every iteration advances the index, except a successful create(), which keeps
   len(tokens) - index and resets `current` *)
Definition sec_mu (s : sstate) : nat :=
  2 * (length (s_toks s) - s_i s)
  + match c_start (s_cur s), c_endtitle (s_cur s) with Some _, Some _ => 1 | _, _ => 0 end.

Definition has_count (t : tok) : Prop := exists n, eqcount t = Some n.
(* current.start / current.endtitle point to section / section_end tokens before the index *)
Definition sec_inv (s : sstate) : Prop :=
  s_i s <= length (s_toks s)
  /\ opened (at_pos has_count (s_toks s)) (s_i s) (c_start (s_cur s))
  /\ opened (at_pos has_count (s_toks s)) (s_i s) (c_endtitle (s_cur s)).

Lemma pop_from_length : forall rest level top toks p0,
  length (snd (pop_from level top rest toks p0)) = length toks.
Proof.
  induction rest as [|p rest IH]; intros level top toks p0; cbn [pop_from];
    destruct (level <=? sect_level top); cbn [snd]; try reflexivity.
  - apply set_nth_length.
  - apply IH.
Qed.

Lemma pop_sections_length : forall level stack toks p0,
  length (snd (pop_sections level stack toks p0)) = length toks.
Proof.
  intros level [|top rest] toks p0; cbn [pop_sections snd]; [reflexivity|apply pop_from_length].
Qed.

Lemma create_spec : forall c toks stack p0 index,
  index <= length toks ->
  opened (at_pos has_count toks) index (c_start c) -> opened (at_pos has_count toks) index (c_endtitle c) ->
  match create c toks stack p0 index with
  | PRaise _ => False
  | POk None => c_start c = None \/ c_endtitle c = None
  | POk (Some r) =>
      (exists x y, c_start c = Some x /\ c_endtitle c = Some y)
      /\ sc_index r <= length (sc_toks r)
      /\ length (sc_toks r) - sc_index r = length toks - index
  end.
Proof.
  intros [cs ce] toks stack p0 index Hidx Hs He. unfold create. cbn [c_start c_endtitle] in *.
  destruct cs as [st|]; [|left; reflexivity].
  destruct ce as [et|]; [|right; reflexivity].
  destruct Hs as (Hst & ts & Hts & sc & Hsc). destruct He as (Het & te & Hte & ec & Hec).
  rewrite Hts, Hte, Hsc, Hec.
  set (sect := Tok _ _ _).
  destruct (pop_sections (Nat.min sc ec) stack (splice st index [sect] toks) p0) as [stack1 toks2] eqn:Ep.
  assert (Hl : length toks2 = st + 1 + (length toks - index)).
  { pose proof (pop_sections_length (Nat.min sc ec) stack (splice st index [sect] toks) p0) as H.
    rewrite Ep in H. cbn [snd] in H. rewrite H. rewrite splice_length by lia. cbn [length]. lia. }
  destruct stack1 as [|s1 stack1']; cbn [sc_index sc_toks].
  - split; [eauto|]. lia.
  - split; [eauto|]. rewrite del_nth_length by lia. lia.
Qed.

Lemma sec_step_ok : forall s, sec_inv s ->
  step_ok sec_inv sec_mu (fun _ => True) s (sec_step s).
Proof.
  intros [i toks stack p0 c] (Hi & Hs & He). unfold sec_step. cbn [s_i s_toks s_stack s_p0 s_cur] in *.
  apply step_ok_at_index; [intros t Elt Ht|intros Elt].
  - pose proof (opened_le _ i (S i) _ (Nat.le_succ_diag_r i) Hs) as Hs1.
    pose proof (opened_le _ i (S i) _ (Nat.le_succ_diag_r i) He) as He1.
    assert (Hhere : forall n, eqcount t = Some n -> opened (at_pos has_count toks) (S i) (Some i)).
    { intros n Hn. apply opened_here. exists t. split; [exact Ht|exists n; exact Hn]. }
    assert (Hother : sec_inv (mksstate (S i) toks stack p0 c)
                     /\ sec_mu (mksstate (S i) toks stack p0 c) < sec_mu (mksstate i toks stack p0 c)).
    { split.
      - unfold sec_inv; cbn [s_i s_toks s_cur]. split; [lia|split; assumption].
      - unfold sec_mu; cbn [s_i s_toks s_cur]. lia. }
    destruct t as [k id ks]. destruct k; cbn [tkind]; try exact Hother.
    + (* t_section *)
      pose proof (create_spec c toks stack p0 i (Nat.lt_le_incl _ _ Elt) Hs He) as Hc.
      destruct (create c toks stack p0 i) as [[r|]|e]; [| |contradiction].
      * destruct Hc as ((x & y & Hx & Hy) & Hle & Heq). split.
        -- unfold sec_inv; cbn [s_i s_toks s_cur nocur c_start c_endtitle opened]; auto.
        -- unfold sec_mu; cbn [s_i s_toks s_cur nocur c_start c_endtitle]. rewrite Hx, Hy. lia.
      * split.
        -- unfold sec_inv; cbn [s_i s_toks s_cur c_start c_endtitle].
           split; [lia|]. split; [exact (Hhere _ eq_refl)|exact He1].
        -- unfold sec_mu; cbn [s_i s_toks s_cur c_start c_endtitle].
           destruct Hc as [Hc|Hc]; rewrite Hc; [destruct (c_endtitle c)|]; lia.
    + (* t_section_end *)
      split.
      * unfold sec_inv; cbn [s_i s_toks s_cur c_start c_endtitle].
        split; [lia|]. split; [exact Hs1|exact (Hhere _ eq_refl)].
      * unfold sec_mu; cbn [s_i s_toks s_cur c_start c_endtitle].
        destruct (c_start c); destruct (c_endtitle c); lia.
  - pose proof (create_spec c toks stack p0 (length toks) (Nat.le_refl _)
                  (opened_le _ _ _ _ Hi Hs) (opened_le _ _ _ _ Hi He)) as Hc.
    destruct (create c toks stack p0 (length toks)) as [[r|]|e]; [exact I|exact I|contradiction].
Qed.

Lemma sec_inv_init : forall toks, sec_inv (sec_init toks).
Proof. intros toks. unfold sec_inv; cbn. split; [lia|split; exact I]. Qed.

Theorem sec_run_bound : forall fuel toks, 2 * length toks < fuel ->
  exists r iters, sec_run fuel toks = POk (r, iters) /\ iters <= 2 * length toks.
Proof.
  intros fuel toks Hf. apply (iter_run sec_step sec_inv sec_mu _ sec_step_ok); [apply sec_inv_init| |exact Hf].
  unfold sec_mu; cbn. lia.
Qed.

(* ParseLines.run.  Potential of a token still to be visited: t_item / t_colon tokens start a line *)
Definition tw (t : tok) : nat := match tkind t with KItem _ | KColon _ => 4 | _ => 1 end.

Lemma tw_le : forall t, tw t <= 4.
Proof. intros t. unfold tw. destruct (tkind t); lia. Qed.

(* a node that analyze puts in: anything but a raw t_item / t_colon token, so the loop walks over it in one iteration *)
Definition produced (t : tok) : Prop := tw t = 1.

Definition pfx_ok (p : list pch) : bool := forallb (fun c => negb (pch_eqb c PcOther)) p.
(* the scanner only produces t_item / t_colon tokens over [:;#*]  (_uscan.re:233, utoken.py:237) *)
Definition tok_ok (t : tok) : Prop := pfx_ok (item_pfx t) = true.
Definition line_ok (t : tok) : Prop := match tkind t with KLine p _ => pfx_ok p = true | _ => False end.

(* measure: potential of the tokens from the index on, + 3 per collected line, + 3 for an open line.
   Every iteration advances the index or (analyze + splice, index := first_token) trades k >= 1 collected lines
   for at most 2k produced nodes of weight 1. *)
Definition lin_mu (s : lstate) : nat :=
  wsum tw (skipn (l_i s) (l_toks s)) + 3 * length (l_lines s) + match l_start s with Some _ => 3 | None => 0 end.

Definition lin_inv (s : lstate) : Prop :=
  l_i s <= length (l_toks s)
  /\ opened anywhere (l_i s) (l_start s)
  /\ (forall ft, l_first s = Some ft -> ft <= l_i s)
  /\ Forall tok_ok (l_toks s)
  /\ Forall line_ok (l_lines s).

Lemma produced_tok_ok : forall t, produced t -> tok_ok t.
Proof. intros [k i ks]; unfold produced, tw, tok_ok, item_pfx; destruct k; cbn; intros H; try reflexivity; discriminate. Qed.

(* the line that starts at the token at sl, whatever it collects, joins the collected lines *)
Lemma open_line_ok : forall toks sl kids lines, Forall tok_ok toks -> sl < length toks -> Forall line_ok lines ->
  exists it, nth_error toks sl = Some it /\ Forall line_ok (lines ++ [Tok (KLine (item_pfx it) false) 0%N kids]).
Proof.
  intros toks sl kids lines Hok Hsl Hlines. destruct (nth_error_in_range _ toks sl Hsl) as [it Hit]. exists it. split; [exact Hit|].
  apply Forall_app. split; [exact Hlines|]. constructor; [|constructor].
  rewrite Forall_forall in Hok. exact (Hok it (nth_error_In _ _ Hit)).
Qed.

Section LinesRunProof.
  Variable analyze_f : list tok -> pres (list tok).
  (* what ParseLines.run needs of self.analyze: no exception on well-formed lines, at most two nodes per line,
     none of them a raw t_item/t_colon token *)
  Hypothesis Hana : forall L, L <> [] -> Forall line_ok L ->
    exists out, analyze_f L = POk out /\ length out <= 2 * length L /\ Forall produced out.

  Lemma lin_splice_ok : forall i toks first L s0,
    i <= length toks -> (forall ft, first = Some ft -> ft <= i) -> Forall tok_ok toks ->
    L <> [] -> Forall line_ok L -> wsum tw (skipn i toks) + 3 * length L <= lin_mu s0 ->
    step_ok lin_inv lin_mu (fun _ => True) s0 (lin_splice analyze_f (mklstate i toks L None first) L).
  Proof.
    intros i toks first L s0 Hi Hf Hok HL HLok Hb. unfold lin_splice. cbn [l_i l_toks l_first].
    destruct (Hana L HL HLok) as (out & Ho & Hlen & Hw). rewrite Ho.
    destruct first as [ft|]; cbn [nat_of_opt]; [|cbn; exact I].
    specialize (Hf ft eq_refl). split.
    - unfold lin_inv. cbn [l_i l_toks l_lines l_start l_first opened].
      split; [rewrite splice_length by lia; lia|]. split; [exact I|].
      split; [intros ft' H; inversion H; lia|].
      split; [|constructor].
      apply Forall_splice; [|exact Hok]. eapply Forall_impl; [|exact Hw]. exact produced_tok_ok.
    - unfold lin_mu at 1. cbn [l_i l_toks l_lines l_start length].
      rewrite skipn_splice, wsum_app, (wsum_ones tw out Hw) by lia.
      destruct L; [contradiction|]. cbn [length] in *. lia.
  Qed.

  Lemma lin_step_ok : forall s, lin_inv s ->
    step_ok lin_inv lin_mu (fun _ => True) s (lin_step analyze_f s).
  Proof.
    intros [i toks lines start first] (Hi & Hs & Hf & Hok & Hlok). unfold lin_step.
    cbn [l_i l_toks l_lines l_start l_first] in *.
    apply step_ok_at_index; [intros t Elt Ht|intros Elt].
    - pose proof (wsum_skipn tw toks i t Ht) as Hsk.
      (* analyze + splice on the collected lines, the open one included *)
      assert (Hflush : forall l ls, Forall line_ok (l :: ls) ->
        length (l :: ls) <= length lines + match start with Some _ => 1 | None => 0 end ->
        step_ok lin_inv lin_mu (fun _ => True) (mklstate i toks lines start first) (lin_splice analyze_f (mklstate i toks (l :: ls) None first) (l :: ls))).
      { intros l ls HL Hlen. apply lin_splice_ok; [lia|exact Hf|exact Hok|discriminate|exact HL|].
        unfold lin_mu; cbn [l_i l_toks l_lines l_start]. destruct start; lia. }
      (* the branch `else` of the loop body *)
      assert (Hother : tw t = 1 ->
        step_ok lin_inv lin_mu (fun _ => True) (mklstate i toks lines start first)
          (match start, lines with
           | None, _ :: _ => lin_splice analyze_f (mklstate i toks lines start first) lines
           | _, _ => Continue (mklstate (S i) toks lines start first)
           end)).
      { intros Hw.
        assert (Hadv : lin_inv (mklstate (S i) toks lines start first)
                       /\ lin_mu (mklstate (S i) toks lines start first) < lin_mu (mklstate i toks lines start first)).
        { split.
          - unfold lin_inv; cbn [l_i l_toks l_lines l_start l_first].
            split; [lia|]. split; [apply (opened_le _ i); [lia|exact Hs]|].
            split; [intros ft H; specialize (Hf ft H); lia|]. split; assumption.
          - unfold lin_mu; cbn [l_i l_toks l_lines l_start]. lia. }
        destruct start as [sl|]; [exact Hadv|].
        destruct lines as [|l ls]; [exact Hadv|].
        apply Hflush; [exact Hlok|cbn [length]; lia]. }
      (* item / colon *)
      assert (Hitem : tw t = 4 ->
        lin_inv (mklstate (S i) toks lines (Some i) (match first with None => Some i | Some f => Some f end))
        /\ lin_mu (mklstate (S i) toks lines (Some i) (match first with None => Some i | Some f => Some f end))
           < lin_mu (mklstate i toks lines start first)).
      { intros Hw. split.
        - unfold lin_inv; cbn [l_i l_toks l_lines l_start l_first].
          split; [lia|]. split; [apply opened_here; exact I|].
          split; [|split; assumption].
          intros ft H. destruct first as [f|]; inversion H; subst; [specialize (Hf ft eq_refl); lia|lia].
        - unfold lin_mu; cbn [l_i l_toks l_lines l_start]. destruct start; lia. }
      destruct t as [k id ks]. destruct k; cbn [tkind]; try (apply Hother; reflexivity); try (apply Hitem; reflexivity).
      + (* newline *)
        destruct start as [sl|]; [|apply Hother; reflexivity]. destruct Hs as [Hsl _].
        destruct (open_line_ok toks sl (slice (sl + 1) (i + 1) toks) lines Hok ltac:(lia) Hlok) as (it & Hit & Hlk). rewrite Hit.
        split.
        * unfold lin_inv; cbn [l_i l_toks l_lines l_start l_first opened].
          split; [lia|]. split; [exact I|].
          split; [intros ft H; specialize (Hf ft H); lia|]. split; [assumption|exact Hlk].
        * unfold lin_mu; cbn [l_i l_toks l_lines l_start]. rewrite app_length. cbn [tw tkind length] in *. lia.
      + (* break *)
        destruct start as [sl|].
        * destruct Hs as [Hsl _].
          destruct (open_line_ok toks sl (slice (sl + 1) i toks) lines Hok ltac:(lia) Hlok) as (it & Hit & Hlk). rewrite Hit.
          set (ln := Tok (KLine _ _) _ _) in *.
          destruct (lines ++ [ln]) as [|l ls] eqn:El; [destruct lines; discriminate|].
          apply Hflush; [exact Hlk|]. rewrite <- El, app_length. cbn [length]. lia.
        * destruct lines as [|l ls]; [|apply Hflush; [exact Hlok|cbn [length]; lia]].
          split.
          -- unfold lin_inv; cbn [l_i l_toks l_lines l_start l_first opened].
             split; [lia|]. split; [exact I|]. split; [intros ft H; discriminate|].
             split; [assumption|constructor].
          -- unfold lin_mu; cbn [l_i l_toks l_lines l_start]. cbn [tw tkind length] in *. lia.
    - (* after the loop *)
      unfold lin_post.
      assert (Hl1 : exists L, (match start with
                | Some sl => match nth_error toks sl with
                             | None => PRaise PIndex
                             | Some it => POk (lines ++ [Tok (KLine (item_pfx it) false) 0%N (skipn (sl + 1) toks)])
                             end
                | None => POk lines end) = POk L /\ Forall line_ok L).
      { destruct start as [sl|]; [|eexists; split; [reflexivity|assumption]]. destruct Hs as [Hsl _].
        destruct (open_line_ok toks sl (skipn (sl + 1) toks) lines Hok ltac:(lia) Hlok) as (it & Hit & Hlk). rewrite Hit.
        eexists. split; [reflexivity|exact Hlk]. }
      destruct Hl1 as (L & HL & HLok). rewrite HL.
      destruct L as [|l ls]; [exact I|].
      destruct (Hana (l :: ls) ltac:(discriminate) HLok) as (out & Ho & _). rewrite Ho. exact I.
  Qed.

  Lemma lin_inv_init : forall toks, Forall tok_ok toks -> lin_inv (lin_init toks).
  Proof.
    intros toks H. unfold lin_inv, lin_init; cbn [l_i l_toks l_lines l_start l_first opened].
    split; [lia|]. split; [exact I|]. split; [intros ft E; discriminate|]. split; [exact H|constructor].
  Qed.

  (* ParseLines.run: any fuel above 4*len is enough and nothing is raised, given the above of analyze *)
  Theorem lin_run_bound_given_analyze : forall fuel toks, Forall tok_ok toks -> 4 * length toks < fuel ->
    exists r iters, iter (lin_step analyze_f) fuel 0 (lin_init toks) = POk (r, iters) /\ iters <= 4 * length toks.
  Proof.
    intros fuel toks Hok Hf.
    apply (iter_run (lin_step analyze_f) lin_inv lin_mu _ lin_step_ok); [apply lin_inv_init; exact Hok| |exact Hf].
    unfold lin_mu, lin_init; cbn [l_i l_toks l_lines l_start skipn length]. pose proof (wsum_le tw 4 tw_le toks). lia.
  Qed.
End LinesRunProof.

(* ParseParagraphs.run.  Measure: an iteration advances i, or (blocknode after collected tokens) wraps
   tokens[first:i] into a paragraph and sets i := first := first+1, which keeps len - i but makes first = i *)
Definition par_mu (s : pstate) : nat :=
  2 * (length (p_toks s) - p_i s) + (if p_first s <? p_i s then 1 else 0).
Definition par_inv (s : pstate) : Prop := p_first s <= p_i s /\ p_i s <= length (p_toks s).

Lemma para_create_length : forall toks first i delta, first <= i -> i + delta <= length toks ->
  length (para_create toks first i delta)
  = if first <? i then first + 1 + (length toks - (i + delta)) else length toks.
Proof.
  intros toks first i delta Hf Hi. unfold para_create.
  assert (Hs : length (slice first i toks) = i - first).
  { unfold slice. rewrite firstn_length, skipn_length. lia. }
  destruct (slice first i toks) as [|x sub] eqn:E; cbn [length] in Hs.
  - destruct (first <? i) eqn:E2; [apply Nat.ltb_lt in E2; lia|reflexivity].
  - destruct (first <? i) eqn:E2; [|apply Nat.ltb_ge in E2; lia].
    rewrite splice_length by lia. cbn [length]. lia.
Qed.

Lemma par_step_ok : forall s, par_inv s ->
  step_ok par_inv par_mu (fun _ => True) s (par_step s).
Proof.
  intros [i first toks] [Hf Hi]. unfold par_step. cbn [p_i p_first p_toks] in *.
  apply step_ok_at_index; [intros t Elt Ht|intros Elt].
  - assert (Hcreate : forall delta, delta <= 1 ->
              par_inv (mkpstate (S first) (S first) (para_create toks first i delta))
              /\ par_mu (mkpstate (S first) (S first) (para_create toks first i delta)) < par_mu (mkpstate i first toks)).
    { intros delta Hd. unfold par_inv, par_mu. cbn [p_i p_first p_toks].
      rewrite para_create_length by lia. rewrite Nat.ltb_irrefl.
      destruct (first <? i) eqn:E2; [apply Nat.ltb_lt in E2|apply Nat.ltb_ge in E2]; lia. }
    assert (Hadv : par_inv (mkpstate (S i) first toks) /\ par_mu (mkpstate (S i) first toks) < par_mu (mkpstate i first toks)).
    { unfold par_inv, par_mu. cbn [p_i p_first p_toks].
      destruct (first <? S i) eqn:E1; destruct (first <? i) eqn:E2; lia. }
    assert (Hblock : step_ok par_inv par_mu (fun _ : list tok => True) (mkpstate i first toks)
              (if blocknode t then Continue (mkpstate (S first) (S first) (para_create toks first i 0))
               else Continue (mkpstate (S i) first toks))).
    { destruct (blocknode t); [apply Hcreate; lia|exact Hadv]. }
    destruct (tkind t); try exact Hblock.
    (* t_break *) apply Hcreate. lia.
  - destruct first; exact I.
Qed.

Theorem par_run_bound : forall fuel toks, 2 * length toks < fuel ->
  exists r iters, par_run fuel toks = POk (r, iters) /\ iters <= 2 * length toks.
Proof.
  intros fuel toks Hf. apply (iter_run par_step par_inv par_mu _ par_step_ok); [| |exact Hf].
  - unfold par_inv, par_init; cbn. lia.
  - unfold par_mu, par_init; cbn. lia.
Qed.

(* ParseUrls.run.  Potential of a token still to be visited: a urllink may open a named url (start := i), a `]]` is
   rewritten to `]` and visited again together with the new named_url node *)
Definition uw (t : tok) : nat := match tkind t with KUrl => 2 | K2Close => 3 | _ => 1 end.

Lemma uw_bounds : forall t, 1 <= uw t <= 3.
Proof. intros t. unfold uw. destruct (tkind t); lia. Qed.

Definition url_mu (s : ustate) : nat :=
  wsum uw (skipn (u_i s) (u_toks s)) + match u_start s with Some _ => 1 | None => 0 end.
Definition url_inv (s : ustate) : Prop :=
  u_i s <= length (u_toks s) /\ opened anywhere (u_i s) (u_start s).

Lemma url_step_ok : forall s, url_inv s ->
  step_ok url_inv url_mu (fun _ => True) s (url_step s).
Proof.
  intros [i toks start] [Hi Hs]. unfold url_step. cbn [u_i u_toks u_start] in *.
  apply step_ok_at_index; [intros t Elt Ht|intros _; exact I].
  pose proof (wsum_skipn uw toks i t Ht) as Hsk.
  assert (Hnext : url_inv (mkustate (S i) toks start) /\ url_mu (mkustate (S i) toks start) < url_mu (mkustate i toks start)).
  { split.
    - unfold url_inv; cbn [u_i u_toks u_start]. split; [lia|apply (opened_le _ i); [lia|exact Hs]].
    - unfold url_mu; cbn [u_i u_toks u_start]. pose proof (uw_bounds t). lia. }
  destruct t as [k id ks]. destruct k; cbn [tkind]; try (destruct start; exact Hnext).
  - (* urllink *)
    destruct start as [st|]; [exact Hnext|]. split.
    + unfold url_inv; cbn [u_i u_toks u_start]. split; [lia|apply opened_here; exact I].
    + unfold url_mu; cbn [u_i u_toks u_start]. cbn [uw tkind] in Hsk. lia.
  - (* "]" *)
    destruct start as [st|]; [|exact Hnext]. destruct Hs as [Hs _].
    destruct (nth_error_in_range _ toks st ltac:(lia)) as [u Hu]. rewrite Hu. split.
    + unfold url_inv; cbn [u_i u_toks u_start opened]. split; [|exact I].
      rewrite splice_length by lia. lia.
    + unfold url_mu; cbn [u_i u_toks u_start]. rewrite skipn_splice by lia.
      replace (i + 1) with (S i) by lia. cbn [wsum uw tkind app] in *. lia.
  - (* "]]" *)
    destruct start as [st|]; [|exact Hnext]. destruct Hs as [Hs _].
    set (toks1 := set_nth i (Tok KClose id ks) toks).
    assert (Hl1 : length toks1 = length toks) by apply set_nth_length.
    destruct (nth_error_in_range _ toks1 st ltac:(lia)) as [u Hu]. cbn [tid tkids]. fold toks1. rewrite Hu. split.
    + unfold url_inv; cbn [u_i u_toks u_start opened]. split; [|exact I].
      rewrite splice_length by lia. lia.
    + unfold url_mu; cbn [u_i u_toks u_start]. rewrite skipn_splice by lia.
      unfold toks1. rewrite skipn_set_nth by lia. cbn [wsum uw tkind app] in *. lia.
Qed.

Theorem url_run_bound : forall fuel toks, 3 * length toks < fuel ->
  exists r iters, url_run fuel toks = POk (r, iters) /\ iters <= 3 * length toks.
Proof.
  intros fuel toks Hf. apply (iter_run url_step url_inv url_mu _ url_step_ok); [| |exact Hf].
  - unfold url_inv, url_init; cbn [u_i u_toks u_start opened]. split; [lia|exact I].
  - unfold url_mu, url_init; cbn [u_i u_toks u_start skipn].
    pose proof (wsum_le uw 3 (fun t => proj2 (uw_bounds t)) toks). lia.
Qed.

Definition qtok_ok (t : tok) : Prop := match tkind t with KQuote n => 2 <= n | _ => True end.  (* "'" "'"+ : _uscan.re:307 *)

Lemma map_nth_ok : forall A (f : A -> A) l n, n < length l ->
  exists x, nth_error l n = Some x /\ map_nth n f l = POk (firstn n l ++ f x :: skipn (S n) l).
Proof.
  intros A f l n H. destruct (nth_error_in_range _ l n H) as [x Hx]. exists x. split; [exact Hx|].
  unfold map_nth. rewrite Hx. reflexivity.
Qed.

Lemma apply_state_ok : forall last st t, qtok_ok (apply_state last st t).
Proof.
  intros last st [k i ks]. unfold apply_state.
  destruct (q_bold st && q_ital st); [exact I|]. destruct (q_bold st); [exact I|]. destruct (q_ital st); exact I.
Qed.

Lemma finish_loop_ok : forall states styles last toks,
  length states = length styles -> Forall (fun ix => ix < length toks) styles -> Forall qtok_ok toks ->
  exists toks', finish_loop states styles last toks = POk toks' /\ length toks' = length toks /\ Forall qtok_ok toks'.
Proof.
  induction states as [|st states IH]; intros styles last toks Hlen Hix Hok; cbn [finish_loop].
  - exists toks. auto.
  - destruct styles as [|ix styles]; [discriminate|]. cbn [length] in Hlen.
    inversion Hix as [|? ? Hix1 Hix2]; subst.
    destruct (map_nth_ok _ (apply_state last st) toks ix Hix1) as (x & Hx & Hm). rewrite Hm.
    set (toks1 := firstn ix toks ++ apply_state last st x :: skipn (S ix) toks).
    assert (Hl1 : length toks1 = length toks).
    { unfold toks1. rewrite app_length, firstn_length. cbn [length]. rewrite skipn_length. lia. }
    destruct (IH styles (q_apo st) toks1) as (toks' & Hr & Hl & Hq).
    + lia.
    + rewrite Hl1. exact Hix2.
    + unfold toks1. apply Forall_app. split; [apply Forall_firstn; exact Hok|].
      constructor; [apply apply_state_ok|apply Forall_skipn; exact Hok].
    + exists toks'. split; [exact Hr|]. split; [lia|exact Hq].
Qed.

Section SingleQuoteProof.
  Variable cpath : list nat -> pres (list qst).
  (* styleanalyzer.compute_path: one state per count, no exception (C01_compute_path_bounded) *)
  Hypothesis Hcpath : forall counts, Forall (fun c => 2 <= c) counts ->
    exists states, cpath counts = POk states /\ length states = length counts.

  Lemma finish_ok : forall counts styles toks,
    length counts = length styles -> Forall (fun c => 2 <= c) counts ->
    Forall (fun ix => ix < length toks) styles -> Forall qtok_ok toks ->
    exists toks', finish cpath counts styles toks = POk toks' /\ length toks' = length toks /\ Forall qtok_ok toks'.
  Proof.
    intros counts styles toks Hlen Hc Hix Hok. unfold finish.
    rewrite Hlen, Nat.eqb_refl. cbn [negb].
    destruct (Hcpath counts Hc) as (states & Hs & Hsl). rewrite Hs.
    apply finish_loop_ok; [lia|exact Hix|exact Hok].
  Qed.

  (* measure: an iteration advances pos, or closes the open style (start := None) keeping len - pos *)
  Definition sq_mu (s : qstate) : nat :=
    2 * (length (q_toks s) - q_pos s) + match q_start s with Some _ => 1 | None => 0 end.
  Definition style_limit (s : qstate) : nat := match q_start s with Some st => st | None => q_pos s end.
  Definition sq_inv (s : qstate) : Prop :=
    q_pos s <= length (q_toks s)
    /\ opened anywhere (q_pos s) (q_start s)
    /\ length (q_counts s) = length (q_styles s) + match q_start s with Some _ => 1 | None => 0 end
    /\ Forall (fun ix => ix < style_limit s) (q_styles s)
    /\ Forall (fun c => 2 <= c) (q_counts s)
    /\ Forall qtok_ok (q_toks s).

  Lemma close_style_length : forall toks st pos, st < pos -> pos <= length toks ->
    length (close_style toks st pos) = st + 1 + (length toks - pos).
  Proof. intros toks st pos H1 H2. unfold close_style. rewrite splice_length by lia. cbn [length]. lia. Qed.

  Lemma close_style_ok : forall toks st pos, Forall qtok_ok toks -> Forall qtok_ok (close_style toks st pos).
  Proof.
    intros toks st pos H. unfold close_style. apply Forall_splice; [|exact H]. constructor; [exact I|constructor].
  Qed.

  Lemma Forall_lt_weaken : forall (l : list nat) a b, a <= b -> Forall (fun ix => ix < a) l -> Forall (fun ix => ix < b) l.
  Proof. intros l a b Hab H. eapply Forall_impl; [|exact H]. cbn. intros; lia. Qed.

  (* a newline and the end of the list close the style that is open, if any (core.py:310-317, 329-333); finish() is then
     called on the result.  What is left to visit stays, and the measure pays at most one for it. *)
  Lemma sq_close_ok : forall pos toks start counts styles, sq_inv (mkqstate pos toks start counts styles) ->
    exists toks1 styles1 pos1,
      match start with
      | Some st => (close_style toks st pos, styles ++ [st], st)
      | None => (toks, styles, pos)
      end = (toks1, styles1, pos1)
      /\ length counts = length styles1
      /\ Forall (fun ix => ix < length toks1) styles1
      /\ Forall qtok_ok toks1
      /\ pos1 <= length toks1
      /\ length toks - pos <= length toks1 - pos1
      /\ sq_mu (mkqstate pos1 toks1 None counts styles1) <= sq_mu (mkqstate pos toks start counts styles) + 1.
  Proof.
    intros pos toks start counts styles (Hp & Hs & Hcs & Hst & Hc & Hok).
    unfold style_limit in Hst. unfold sq_mu. cbn [q_pos q_toks q_start q_counts q_styles] in *.
    destruct start as [st|]; do 3 eexists; (split; [reflexivity|]).
    - destruct Hs as [Hs _]. rewrite close_style_length, app_length by assumption. cbn [length].
      split; [lia|]. split; [|split; [apply close_style_ok; exact Hok|lia]].
      apply Forall_app. split; [eapply Forall_lt_weaken; [|exact Hst]; lia|]. constructor; [lia|constructor].
    - split; [lia|]. split; [eapply Forall_lt_weaken; [|exact Hst]; exact Hp|]. split; [exact Hok|lia].
  Qed.

  Lemma sq_step_ok : forall s, sq_inv s ->
    step_ok sq_inv sq_mu (fun _ => True) s (sq_step cpath s).
  Proof.
    intros [pos toks start counts styles] Hinv.
    destruct (sq_close_ok _ _ _ _ _ Hinv) as (toks1 & styles1 & pos1 & Heq & Hcs1 & Hst1 & Hok1 & Hp1 & Hrest & Hcost).
    destruct Hinv as (Hp & Hs & Hcs & Hst & Hc & Hok). unfold sq_step.
    unfold style_limit in Hst. unfold sq_mu in Hcost. cbn [q_pos q_toks q_start q_counts q_styles] in *.
    apply step_ok_at_index; [intros t Elt Ht|intros Elt].
    - assert (Htok : qtok_ok t). { rewrite Forall_forall in Hok. apply Hok. eapply nth_error_In; exact Ht. }
      assert (Hadv : sq_inv (mkqstate (S pos) toks start counts styles)
                     /\ sq_mu (mkqstate (S pos) toks start counts styles) < sq_mu (mkqstate pos toks start counts styles)).
      { split.
        - unfold sq_inv, style_limit; cbn [q_pos q_toks q_start q_counts q_styles].
          split; [lia|]. split; [apply (opened_le _ pos); [lia|exact Hs]|]. split; [exact Hcs|].
          split; [|split; assumption].
          destruct start; [exact Hst|]. eapply Forall_lt_weaken; [|exact Hst]. lia.
        - unfold sq_mu; cbn [q_pos q_toks q_start]. lia. }
      (* after a newline: nothing open, nothing collected *)
      assert (Hfresh : forall toks2, length toks2 = length toks1 -> Forall qtok_ok toks2 ->
                sq_inv (mkqstate (S pos1) toks2 None [] [])
                /\ sq_mu (mkqstate (S pos1) toks2 None [] []) < sq_mu (mkqstate pos toks start counts styles)).
      { intros toks2 Hl2 Hok2. split.
        - unfold sq_inv, style_limit; cbn [q_pos q_toks q_start q_counts q_styles length opened].
          split; [lia|]. split; [exact I|]. split; [reflexivity|].
          split; [constructor|]. split; [constructor|exact Hok2].
        - unfold sq_mu; cbn [q_pos q_toks q_start]. lia. }
      destruct t as [k id ks]. destruct k; cbn [tkind]; try exact Hadv.
      + (* newline *)
        rewrite Heq. destruct counts as [|c counts].
        * destruct styles1; [|discriminate Hcs1]. apply Hfresh; [reflexivity|exact Hok1].
        * destruct (finish_ok (c :: counts) styles1 toks1 Hcs1 Hc Hst1 Hok1) as (toks2 & Hf & Hl2 & Hok2).
          rewrite Hf. apply Hfresh; assumption.
      + (* singlequote *)
        destruct start as [st|].
        * destruct Hs as [Hs _].
          pose proof (close_style_length toks st pos Hs Hp) as Hl1. split.
          -- unfold sq_inv, style_limit; cbn [q_pos q_toks q_start q_counts q_styles opened].
             split; [lia|]. split; [exact I|].
             split; [rewrite app_length; cbn [length]; lia|].
             split; [|split; [exact Hc|apply close_style_ok; exact Hok]].
             apply Forall_app. split; [eapply Forall_lt_weaken; [|exact Hst]; lia|]. constructor; [lia|constructor].
          -- unfold sq_mu; cbn [q_pos q_toks q_start]. lia.
        * split.
          -- unfold sq_inv, style_limit; cbn [q_pos q_toks q_start q_counts q_styles].
             split; [lia|]. split; [apply opened_here; exact I|].
             split; [rewrite app_length; cbn [length]; lia|].
             split; [exact Hst|]. split; [|exact Hok].
             apply Forall_app. split; [exact Hc|]. constructor; [exact Htok|constructor].
          -- unfold sq_mu; cbn [q_pos q_toks q_start]. lia.
    - (* after the loop *)
      replace (match start with
               | Some st => (close_style toks st pos, styles ++ [st])
               | None => (toks, styles)
               end) with (toks1, styles1) by (destruct start; inversion Heq; reflexivity).
      destruct counts as [|c counts]; [exact I|].
      destruct (finish_ok (c :: counts) styles1 toks1 Hcs1 Hc Hst1 Hok1) as (toks2 & Hf & _). rewrite Hf. exact I.
  Qed.

  (* ParseSingleQuote.run: any fuel above 2*len is enough; nothing is raised (ValueError of finish(), IndexError of
     self.styles[i] included), given one state per count from compute_path *)
  Theorem sq_run_bound : forall fuel toks, Forall qtok_ok toks -> 2 * length toks < fuel ->
    exists r iters, sq_run cpath fuel toks = POk (r, iters) /\ iters <= 2 * length toks.
  Proof.
    intros fuel toks Hok Hf. apply (iter_run (sq_step cpath) sq_inv sq_mu _ sq_step_ok); [| |exact Hf].
    - unfold sq_inv, style_limit, sq_init; cbn [q_pos q_toks q_start q_counts q_styles length opened].
      split; [lia|]. split; [exact I|]. split; [reflexivity|].
      split; [constructor|]. split; [constructor|exact Hok].
    - unfold sq_mu, sq_init; cbn [q_pos q_toks q_start]. lia.
  Qed.
End SingleQuoteProof.
