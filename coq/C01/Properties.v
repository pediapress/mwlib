(* C01 — the property theorems, each followed by Print Assumptions; proofs longer than a few lines are lemmas of the Proofs files. *)
From Coq Require Import List NArith ZArith Bool Permutation Lia.
From MW Require Import Common.Str C01.Model C01.Proofs C01.Gen_resolve C01.ProofsGen C01.Passes C01.ProofsPasses C01.ProofsPassesAnalyze C01.PassesPre C01.ProofsPassesPre C01.PassesTable C01.ProofsPassesTable C01.PassesPost C01.ProofsPassesPost C01.Gen_post C01.ProofsPostGen.
Import ListNotations.

(* resolve_entity (util.py:218) with the except clause read from /repo on this run: for EVERY int() (any function
   that either raises ValueError or returns an integer of any size), every name table with valid code points and
   every entity string '&' body ';' (the only shape the scanner rule and the regex &[^;]*; produce), the call
   returns a string; no ValueError/OverflowError/IndexError/KeyError escapes. *)
Theorem C01_resolve_entity_total :
  forall (pyint : Z -> str -> option Z) (name2cp : str -> option Z),
  (forall s z, name2cp s = Some z -> (0 <= z < 1114112)%Z) ->
  forall body, exists s,
    resolve_entity pyint name2cp caught_numeric surrogate_guard (38%N :: body ++ [59%N]) = Ok s.
Proof. exact resolve_entity_total_gen. Qed.
Print Assumptions C01_resolve_entity_total.

(* with an except clause that catches ValueError only, an OverflowError escapes for some digit string *)
Theorem C01_resolve_entity_valueerror_only_refuted :
  exists e, resolve_entity ascii_int (fun _ => None) [EValue] false e = Raise EOverflow.
Proof.
  (* "&#99999999999;" *)
  exists [38;35;57;57;57;57;57;57;57;57;57;57;57;59]%N. vm_compute. reflexivity.
Qed.
Print Assumptions C01_resolve_entity_valueerror_only_refuted.

Example C01_resolve_entity_example :
  let e := [38;35;57;57;57;57;57;57;57;57;57;57;57;59]%N in
  resolve_entity ascii_int (fun _ => None) caught_numeric surrogate_guard e = Ok e /\
  resolve_entity ascii_int (fun _ => None) caught_numeric surrogate_guard [38;35;54;53;59]%N = Ok [65%N] /\
  resolve_entity ascii_int (fun _ => None) caught_numeric surrogate_guard [38;35;120;49;49;48;48;48;48;59]%N
    = Ok [38;35;120;49;49;48;48;48;48;59]%N.
Proof. vm_compute. repeat split. Qed.
Print Assumptions C01_resolve_entity_example.

(* styleanalyzer.compute_path (styleanalyzer.py:90): for every list of apostrophe-run lengths >= 2 and EVERY
   tie-breaking order of sort_states (any sorter that permutes its input; the real one orders equal scores by id()),
   the call returns Ok with exactly one state per count (InconsistentPathLengthException, IndexError, ValueError
   never raised), at most 6*32 = 192 successor states are generated per step, hence at most 192*n in total. *)
Theorem C01_compute_path_bounded :
  forall sorter : list pst -> list pst, (forall l, Permutation (sorter l) l) ->
  forall counts, Forall (fun c => 2 <= c) counts ->
  exists path work, compute_path_work sorter counts = Ok (path, work) /\
    length path = length counts /\ length work = length counts /\
    Forall (fun k => k <= 192) work /\ fold_right plus 0 work <= 192 * length counts.
Proof. exact compute_path_bounded. Qed.
Print Assumptions C01_compute_path_bounded.

Example C01_compute_path_example :
  compute_path stable_sort [2; 3; 3; 2] =
    Ok [mkst 0 false true; mkst 0 true true; mkst 0 false true; mkst 0 false false] /\
  compute_path stable_sort [3; 2] = Ok [mkst 1 false true; mkst 1 false false] /\
  compute_path stable_sort [1] = Raise EValue.
Proof. vm_compute. repeat split. Qed.
Print Assumptions C01_compute_path_example.

(* The index-walking loops of the refinement passes (core.py; models in C01/Passes.v, one `step` per loop iteration, list
   splices by firstn/skipn, tied to the real passes on abstract token lists by vt/harness/c01_passtie.py).  Each theorem:
   for EVERY token list the fuelled loop returns a result — it never runs out of fuel (explicit measure that decreases
   with every iteration: the loop either advances or shrinks the list), never raises — within a linear number of
   iterations. *)
Theorem C01_ParseSections_total : forall toks,
  exists r iters, sec_run (sec_fuel toks) toks = POk (r, iters) /\ iters <= 2 * length toks.
Proof. intros toks. apply sec_run_bound. unfold sec_fuel. lia. Qed.
Print Assumptions C01_ParseSections_total.

(* tok_ok: item/colon prefixes are over : * # ; (what the scanner rules _uscan.re t_item and utoken.py t_colon produce) *)
Theorem C01_ParseLines_total : forall toks, Forall tok_ok toks ->
  exists r iters, lin_run (lin_fuel toks) toks = POk (r, iters) /\ iters <= 4 * length toks.
Proof. intros toks Hok. apply lin_run_bound; [exact Hok|unfold lin_fuel; lia]. Qed.
Print Assumptions C01_ParseLines_total.

Theorem C01_ParseLines_analyze_total : forall L, Forall line_ok L ->
  exists out, analyze_full L = POk out /\ length out <= 2 * length L.
Proof. intros L HL. destruct (analyze_full_spec L HL) as (out & Ho & Hl & _). exists out. split; assumption. Qed.
Print Assumptions C01_ParseLines_analyze_total.

Theorem C01_ParseParagraphs_total : forall toks,
  exists r iters, par_run (par_fuel toks) toks = POk (r, iters) /\ iters <= 2 * length toks.
Proof. intros toks. apply par_run_bound. unfold par_fuel. lia. Qed.
Print Assumptions C01_ParseParagraphs_total.

(* compute_path is a parameter: any function that returns one state per count for counts >= 2 — which is what
   C01_compute_path_bounded proves of the model of styleanalyzer.compute_path; qtok_ok: apostrophe runs have length >= 2 *)
Theorem C01_ParseSingleQuote_total : forall cpath : list nat -> pres (list qst),
  (forall counts, Forall (fun c => 2 <= c) counts ->
     exists states, cpath counts = POk states /\ length states = length counts) ->
  forall toks, Forall qtok_ok toks ->
  exists r iters, sq_run cpath (sq_fuel toks) toks = POk (r, iters) /\ iters <= 2 * length toks.
Proof. intros cpath Hcpath toks Hok. apply sq_run_bound; [exact Hcpath|exact Hok|unfold sq_fuel; lia]. Qed.
Print Assumptions C01_ParseSingleQuote_total.

Theorem C01_ParseUrls_total : forall toks,
  exists r iters, url_run (url_fuel toks) toks = POk (r, iters) /\ iters <= 3 * length toks.
Proof. intros toks. apply url_run_bound. unfold url_fuel. lia. Qed.
Print Assumptions C01_ParseUrls_total.

(* non-vacuity: a well-formed list and the model's results; a prefix outside : * # ; does raise in the model
   (AttributeError of `node.children = []` with node = None, core.py:485/417 - not producible by the scanner) *)
Example C01_passes_examples :
  Forall tok_ok [Tok (KItem [PcStar]) 1%N []; Tok KOther 2%N []; Tok KNewline 3%N []]
  /\ lin_run 13 [Tok (KItem [PcStar]) 1%N []; Tok KOther 2%N []; Tok KNewline 3%N []]
     = POk ([Tok (KTag Tul false) 0%N [Tok (KTag Tli true) 0%N [Tok (KNode false) 0%N [Tok KOther 2%N []; Tok KNewline 3%N []]]]], 3)
  /\ lin_run 9 [Tok (KItem [PcOther]) 1%N []; Tok KNewline 2%N []] = PRaise PAttr
  /\ sec_run 9 [Tok (KSection 2) 1%N []; Tok KOther 2%N []; Tok (KSectionEnd 2) 3%N []; Tok KOther 4%N []]
     = POk ([Tok (KSect 2) 0%N [Tok (KNode false) 0%N [Tok KOther 2%N []]; Tok (KNode false) 0%N [Tok KOther 4%N []]]], 4).
Proof.
  split; [repeat (constructor; try reflexivity)|]. split; [vm_compute; reflexivity|]. split; vm_compute; reflexivity.
Qed.
Print Assumptions C01_passes_examples.

(* ParsePreformatted.run (core.py:366-386; model in C01/PassesPre.v): for EVERY token list the loop ends within
   len(tokens) iterations (measure len(tokens) - i) and raises nothing (tokens[start - 1] is always in range). *)
Theorem C01_ParsePreformatted_total : forall toks,
  exists r iters, pre_run (pre_fuel toks) toks = POk (r, iters) /\ iters <= 1 * length toks.
Proof. intros toks. apply pre_run_bound. unfold pre_fuel. lia. Qed.
Print Assumptions C01_ParsePreformatted_total.

(* non-vacuity: two " " lines become one preformatted node in 6 iterations (fuel 7 = pre_fuel); a block node cancels the
   open line; one unit of fuel less than pre_fuel is not enough *)
Example C01_ParsePreformatted_examples :
  pre_run 7 [GTok XPre 1%N []; GTok XOther 2%N []; GTok XNewline 3%N [];
             GTok XPre 4%N []; GTok XOther 5%N []; GTok XNewline 6%N []]
  = POk ([GTok XPreformatted 0%N [GTok XOther 2%N []; GTok XNewline 3%N []; GTok XOther 5%N []; GTok XNewline 6%N []]], 6)
  /\ pre_run 4 [GTok XPre 1%N []; GTok XBlock 2%N []; GTok XNewline 3%N []]
     = POk ([GTok XPre 1%N []; GTok XBlock 2%N []; GTok XNewline 3%N []], 3)
  /\ pre_run 3 [GTok XPre 1%N []; GTok XBlock 2%N []; GTok XNewline 3%N []] = PRaise PFuel.
Proof. split; [vm_compute; reflexivity|]. split; vm_compute; reflexivity. Qed.
Print Assumptions C01_ParsePreformatted_examples.

(* The table parser (parse_table.py; models in C01/PassesTable.v).  For EVERY token list:
   TableCellParser.run (l.75-103, make_cell, replace_tablecaption, find_modifier) ends within len(tokens) iterations
   (measure len(tokens) - index) and raises nothing (tokens[start] is always a cell start token, its text a string). *)
Theorem C01_TableCellParser_total : forall toks,
  exists r iters, cell_run (cell_fuel toks) toks = POk (r, iters) /\ iters <= 1 * length toks.
Proof. intros toks. apply cell_run_bound. unfold cell_fuel. lia. Qed.
Print Assumptions C01_TableCellParser_total.

(* TableRowParser.run (l.183-223) including the nested TableCellParser run on the children of every row *)
Theorem C01_TableRowParser_total : forall toks,
  exists r iters, row_run (row_fuel toks) toks = POk (r, iters) /\ iters <= 1 * length toks.
Proof. intros toks. apply row_run_bound. unfold row_fuel. lia. Qed.
Print Assumptions C01_TableRowParser_total.

(* TableParser.run (l.303-346): the main loop and `while stack: make_table()` together take at most 2*len(tokens)
   iterations (measure 2*(len(tokens) - index) + len(stack)); make_table (find_modifier, the nested TableRowParser /
   TableCellParser runs, find_caption) raises nothing: every stack entry is the position of a table start token *)
Theorem C01_TableParser_total : forall toks,
  exists r iters, tab_run (tab_fuel toks) toks = POk (r, iters) /\ iters <= 2 * length toks.
Proof. intros toks. apply tab_run_bound. unfold tab_fuel. lia. Qed.
Print Assumptions C01_TableParser_total.

(* non-vacuity:  {| NL |- NL | x || y NL  (unclosed)  becomes table(NL, row(NL, cell(x), cell(y, NL))) in 10 iterations
   (9 of the loop + 1 of `while stack`) with fuel 19 = tab_fuel; "! x |" is a header cell whose modifier part is cut; make_cell on a start token without text
   does raise in the model (excluded by the invariant of the loop, not by the model) *)
Example C01_table_examples :
  tab_run 19 [GTok TBegin 1%N []; GTok TNewline 2%N []; GTok TRow 3%N []; GTok TNewline 4%N [];
              GTok (TColumn MBar) 5%N []; GTok (TOther false) 6%N []; GTok (TColumn M2Bar) 7%N [];
              GTok (TOther false) 8%N []; GTok TNewline 9%N []]
  = POk ([GTok TTable 0%N [GTok TNewline 2%N [];
            GTok TRowNode 0%N [GTok TNewline 4%N []; GTok (TCell false) 0%N [GTok (TOther false) 6%N []];
                               GTok (TCell false) 0%N [GTok (TOther false) 8%N []; GTok TNewline 9%N []]]]], 10)
  /\ cell_run 4 [GTok (TColumn MBang) 1%N []; GTok (TOther false) 2%N []; GTok TBar 3%N []]
     = POk ([GTok (TCell true) 0%N []], 3)
  /\ make_cell [GTok TRowNode 1%N []; GTok (TOther false) 2%N []] 0 2 0 false = PRaise PAttr.
Proof. split; [vm_compute; reflexivity|]. split; vm_compute; reflexivity. Qed.
Print Assumptions C01_table_examples.

(* The post-processor remove_boilerplate (post_processors.py:31-49; model in C01/PassesPost.v), run by parse_string on
   the finished article (uparser.py:102).  post_cfg = the attribute through which the class of a <div> is looked up
   and the exception classes of the except clause, both read from /repo on this run (vt/gen/c01_post.py, fail-closed).
   For EVERY article tree - any nesting, any mix of node kinds, <div> nodes whose class is absent, an int (parse_params
   stores int(value) whenever int() accepts the text) or a str with or without 'boilerplate' - the call returns a tree:
   neither the TypeError of `'boilerplate' in <int>` nor the AttributeError of the lookup escapes, and the recursion
   is bounded by the height of the tree. *)
Theorem C01_remove_boilerplate_total : forall n, exists n', rb post_cfg (height n) n = ROk n'.
Proof. intros n. exact (rb_total_fuel post_cfg post_cfg_safe (height n) n (le_n _)). Qed.
Print Assumptions C01_remove_boilerplate_total.

(* the same for every configuration the translator can produce that passes the computed test cfg_safe *)
Theorem C01_remove_boilerplate_total_safe_cfg : forall c, cfg_safe c = true ->
  forall n, exists n', rb c (height n) n = ROk n'.
Proof. intros c Hs n. exact (rb_total_fuel c Hs (height n) n (le_n _)). Qed.
Print Assumptions C01_remove_boilerplate_total_safe_cfg.

(* the root keeps its kind and never gains children *)
Theorem C01_remove_boilerplate_root : forall c f k ch n', rb c (S f) (Node k ch) = ROk n' ->
  exists ch', n' = Node k ch' /\ length ch' <= length ch.
Proof.
  intros c f k ch n' H. destruct (rb_node c f k ch n' H) as (kept & ch' & _ & Hl & Hm & ->).
  exists ch'. split; [reflexivity|]. rewrite (map_rres_length _ _ _ _ _ Hm). exact Hl.
Qed.
Print Assumptions C01_remove_boilerplate_root.

(* looking the class up in the attribute dict (child.vlist) makes the function partial whatever the except clause
   catches, because the `in` test is outside the try: <div class=5> three levels down raises TypeError *)
Theorem C01_remove_boilerplate_vlist_refuted : forall caught,
  let n := Node KOtherNode [Node KOtherNode [Node (KDiv (Some AInt)) [Node KText []]]] in
  rb {| cfg_lookup := LVlist; cfg_caught := caught |} (height n) n = RRaise PTypeError.
Proof. intro caught. reflexivity. Qed.
Print Assumptions C01_remove_boilerplate_vlist_refuted.

(* non-vacuity: as the code stands nothing is deleted; with the attribute dict a boilerplate div goes with its subtree
   and a numeric class raises; fuel below the height runs out *)
Example C01_remove_boilerplate_examples :
  let t := Node KOtherNode [Node (KDiv (Some (AStr true))) [Node KText []]; Node KText [];
                        Node KTagNode [Node (KDiv (Some AInt)) []]] in
  let t2 := Node KOtherNode [Node (KDiv (Some (AStr true))) [Node KText []]; Node KText []] in
  rb {| cfg_lookup := LAbsent; cfg_caught := [PAttributeError] |} (height t) t = ROk t /\
  rb {| cfg_lookup := LVlist; cfg_caught := [PAttributeError] |} (height t2) t2 = ROk (Node KOtherNode [Node KText []]) /\
  rb {| cfg_lookup := LVlist; cfg_caught := [PAttributeError] |} (height t) t = RRaise PTypeError /\
  rb {| cfg_lookup := LAbsent; cfg_caught := [PAttributeError] |} 2 t = RFuel.
Proof. repeat split; reflexivity. Qed.
Print Assumptions C01_remove_boilerplate_examples.
