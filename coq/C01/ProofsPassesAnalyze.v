(* C01 — ParseLines.analyze / collect_items (models: C01/Passes.v): the nested loops end within their fuel, raise
   nothing on well-formed lines, and produce at most two nodes per line — the hypothesis `Hana` of
   ProofsPasses.lin_run_bound_given_analyze; hence ParseLines.run is total.

   The list `lines` is viewed as  done ++ rest ++ [guard]  with startpos = length done.
   Measure: a line costs 2 if its lineprefix is non-empty and 1 otherwise (a line is deleted, or — `</ul>` inside a
   `*` line — replaced by a line without prefix).  The inner while of collect_items and the outer loop of analyze go down
   on `wsum lcost rest`; collect_items and the loop around it on `phi`, which adds 1 for a dd node still to be emitted.
   The recursion of analyze goes down on D, a bound on the length of the lineprefixes. *)
From Coq Require Import List NArith Arith Bool Lia.
From MW Require Import C01.Passes C01.ProofsPasses.
Import ListNotations.

Lemma before_guard_test : forall A (d rest : list A) g,
  (length d <? length (d ++ rest ++ [g]) - 1) = match rest with [] => false | _ :: _ => true end.
Proof.
  intros A d rest g. rewrite !app_length. cbn [length].
  destruct rest; cbn [length]; [apply Nat.ltb_ge|apply Nat.ltb_lt]; lia.
Qed.

Definition lcost (t : tok) : nat := match line_pfx t with [] => 1 | _ :: _ => 2 end.

Lemma lcost_le : forall t, lcost t <= 2.
Proof. intros t. unfold lcost. destruct (line_pfx t); lia. Qed.

(* a line of an analyze call at depth D; a line collected into an item has a non-empty prefix *)
Definition lineD (D : nat) (t : tok) : Prop := line_ok t /\ length (line_pfx t) <= D.
Definition kidD (D : nat) (t : tok) : Prop := line_ok t /\ 1 <= length (line_pfx t) <= D.

Lemma line_ok_inv : forall t, line_ok t -> exists p tg i ks, t = Tok (KLine p tg) i ks /\ pfx_ok p = true.
Proof.
  intros [k i ks] H. unfold line_ok in H. cbn [tkind] in H. destruct k; try contradiction. do 4 eexists. split; [reflexivity|exact H].
Qed.

Definition pline (a : list tok) : tok := Tok (KLine [] true) 0%N a.
Lemma pline_lineD : forall D a, lineD D (pline a).
Proof. intros D a. split; [reflexivity|cbn; lia]. Qed.

Lemma same_kind_lineD : forall D a b, tkind a = tkind b -> lineD D b -> lineD D a.
Proof. intros D a b H [H1 H2]. unfold lineD, line_ok, line_pfx in *. rewrite H. auto. Qed.

Lemma same_kind_lcost : forall a b, tkind a = tkind b -> lcost a = lcost b.
Proof. intros a b H. unfold lcost, line_pfx. rewrite H. reflexivity. Qed.

(* append_line on  d ++ ln :: rest ++ [g]  at index length d: the line goes to kids; inside a list with an end tag it is
   cut at that tag and what follows the tag stays behind as a line without prefix *)
Lemma append_line_spec : forall D d ln rest g kids endtag,
  lineD D ln -> 1 <= length (line_pfx ln) -> Forall (lineD D) rest ->
  exists rest' ln',
    append_line (d ++ (ln :: rest) ++ [g]) (length d) kids endtag = POk (d ++ rest' ++ [g], kids ++ [ln'])
    /\ kidD D ln' /\ Forall (lineD D) rest' /\ wsum lcost rest' <= 1 + wsum lcost rest
    /\ (endtag = None -> wsum lcost rest' = wsum lcost rest).
Proof.
  intros D d ln rest g kids endtag Hln Hp Hr. unfold append_line. cbn [app]. rewrite nth_error_mid.
  assert (Hkid : forall ln', tkind ln' = tkind ln -> kidD D ln').
  { intros ln' Hk. destruct (same_kind_lineD D ln' ln Hk Hln) as [H1 H2].
    split; [exact H1|]. split; [|exact H2]. unfold line_pfx in *. rewrite Hk. exact Hp. }
  assert (Hwhole : exists rest' ln', POk (d ++ rest ++ [g], kids ++ [ln]) = POk (d ++ rest' ++ [g], kids ++ [ln'])
            /\ kidD D ln' /\ Forall (lineD D) rest' /\ wsum lcost rest' <= 1 + wsum lcost rest
            /\ (endtag = None -> wsum lcost rest' = wsum lcost rest)).
  { exists rest, ln. split; [reflexivity|]. split; [apply Hkid; reflexivity|]. split; [exact Hr|]. split; [lia|reflexivity]. }
  destruct endtag as [ol|]; [|rewrite del_nth_mid; exact Hwhole].
  destruct (find_endtag ol (tkids ln)) as [[before after]|]; [|rewrite del_nth_mid; exact Hwhole].
  exists (pline after :: rest), (Tok (tkind ln) (tid ln) before). rewrite set_nth_mid.
  split; [reflexivity|]. split; [apply Hkid; reflexivity|].
  split; [constructor; [apply pline_lineD|exact Hr]|]. split; [cbn [wsum]; unfold lcost; cbn; lia|discriminate].
Qed.

Lemma absorb_spec : forall D prefix endtag fuel d rest g kids,
  Forall (lineD D) rest -> wsum lcost rest < fuel -> Forall (kidD D) kids ->
  exists rest' kids',
    absorb fuel (d ++ rest ++ [g]) (length d) prefix endtag kids = POk (d ++ rest' ++ [g], kids')
    /\ Forall (lineD D) rest' /\ wsum lcost rest' <= wsum lcost rest /\ Forall (kidD D) kids'
    /\ length kids <= length kids'.
Proof.
  intros D prefix endtag. induction fuel as [|f IH]; intros d rest g kids Hr Hf Hk; [lia|].
  cbn [absorb]. rewrite before_guard_test.
  destruct rest as [|ln rest]; [exists [], kids; auto|].
  cbn [app]. rewrite nth_error_mid.
  inversion Hr as [|? ? [Hln HlnD] Hr']; subst.
  destruct (line_ok_inv ln Hln) as (p & tg & i & ks & -> & Hp).
  cbn [getchar tkind line_pfx] in *.
  destruct (is_char (hd_error p) prefix && (1 <? length p)) eqn:E.
  - apply andb_true_iff in E. destruct E as [_ E]. apply Nat.ltb_lt in E.
    destruct (append_line_spec D d (Tok (KLine p tg) i ks) rest g kids endtag (conj Hln HlnD) (Nat.lt_le_incl _ _ E) Hr')
      as (rest1 & ln1 & Ha & Hk1 & HrD & Hrc & _).
    cbn [app] in Ha. rewrite Ha.
    assert (Hc : lcost (Tok (KLine p tg) i ks) = 2).
    { unfold lcost. cbn [line_pfx tkind]. destruct p; [cbn in E; lia|reflexivity]. }
    cbn [wsum] in Hf. rewrite Hc in Hf.
    destruct (IH d rest1 g (kids ++ [ln1]) HrD ltac:(lia)) as (rest' & kids' & Hab & H1 & H2 & H3 & H4).
    { apply Forall_app. split; [assumption|]. constructor; [exact Hk1|constructor]. }
    exists rest', kids'. split; [exact Hab|]. split; [exact H1|]. rewrite app_length in H4.
    split; [|split; [exact H3|lia]].
    cbn [wsum]. rewrite Hc. lia.
  - exists (Tok (KLine p tg) i ks :: rest), kids. cbn [app]. auto.
Qed.

(* dd: the description node of a `; term : description` line, emitted behind the list node by the outer loop *)
Definition dd_ok (dd : option tok) : Prop := forall x, dd = Some x -> produced x.
Definition phi (rest : list tok) (dd : option tok) : nat := wsum lcost rest + match dd with Some _ => 1 | None => 0 end.
(* the next line belongs to the list being collected *)
Definition head_match (rest : list tok) (prefix : pch) : bool :=
  match rest with ln :: _ => is_char (hd_error (line_pfx ln)) prefix | [] => false end.

Lemma split_dl_inv : forall prefix itemk kids3 item' dx,
  split_dl prefix itemk kids3 = Some (item', dx) -> prefix = PcSemi /\ produced dx.
Proof.
  intros prefix itemk kids3 item' dx H. unfold split_dl in H.
  destruct prefix; try discriminate.
  destruct kids3 as [|[k0 i0 ks0] restk]; try discriminate.
  destruct k0; try discriminate.
  destruct (find_spcolon ks0) as [[b a]|]; try discriminate.
  inversion H; subst. split; reflexivity.
Qed.

Lemma dd_after_cases : forall prefix kids3 dd, dd_after prefix kids3 dd = dd \/ dd_after prefix kids3 dd = None.
Proof.
  intros prefix kids3 dd. unfold dd_after. destruct prefix; auto.
  destruct kids3 as [|[k0 i0 ks0] restk]; auto. destruct k0; auto.
Qed.

Lemma strip1_lineD : forall D t, kidD D t -> lineD (D - 1) (strip1 t).
Proof.
  intros D t [Hl [H1 H2]]. destruct (line_ok_inv t Hl) as (p & tg & i & ks & -> & Hp).
  cbn [line_pfx tkind] in *. cbn [strip1]. unfold lineD, line_ok. cbn [tkind line_pfx].
  destruct p as [|c p]; [cbn in H1; lia|]. cbn [tl]. cbn [pfx_ok forallb] in Hp.
  apply andb_true_iff in Hp. destruct Hp as [_ Hp]. split; [exact Hp|]. cbn [length] in H2. lia.
Qed.

Section AnalyzeProof.
  Variable D : nat.
  Variable rec : list tok -> pres (list tok).
  (* the recursive call is made on the lines of an item, one prefix character stripped: only when D >= 1 *)
  Hypothesis Hrec : 1 <= D -> forall K, Forall (lineD (D - 1)) K -> K <> [] -> exists out, rec K = POk out.

  Section Group.
    Variables (prefix : pch) (itemk : kind) (endtag : option bool).
    Hypothesis Hsemi : prefix = PcSemi -> endtag = None.

    Lemma collect_spec : forall fuel d rest g nkids dd,
      Forall (lineD D) rest -> wsum lcost rest < fuel -> dd_ok dd ->
      exists rest' nkids' dd' broke,
        collect_items rec fuel (d ++ rest ++ [g]) (length d) prefix itemk endtag nkids dd
          = POk (d ++ rest' ++ [g], nkids', dd', broke)
        /\ Forall (lineD D) rest' /\ dd_ok dd' /\ phi rest' dd' <= phi rest dd
        /\ (head_match rest prefix = true -> phi rest' dd' + 1 <= phi rest dd).
    Proof.
      induction fuel as [|f IH]; intros d rest g nkids dd Hr Hf Hdd; [lia|].
      cbn [collect_items]. rewrite before_guard_test.
      destruct rest as [|ln rest].
      { exists [], nkids, dd, false. cbn [head_match]. repeat split; auto. discriminate. }
      cbn [app]. rewrite nth_error_mid.
      inversion Hr as [|? ? [Hln HlnD] Hr']; subst.
      destruct (line_ok_inv ln Hln) as (p & tg & i & ks & -> & Hp).
      cbn [getchar tkind line_pfx head_match] in *.
      destruct (is_char (hd_error p) prefix) eqn:E.
      2:{ exists (Tok (KLine p tg) i ks :: rest), nkids, dd, false. cbn [app]. repeat split; auto. discriminate. }
      assert (Hc : lcost (Tok (KLine p tg) i ks) = 2 /\ 1 <= length p).
      { unfold lcost. cbn [line_pfx tkind]. destruct p; [cbn in E; discriminate|]. cbn [length]. split; [reflexivity|lia]. }
      destruct Hc as [Hc Hp1].
      destruct (append_line_spec D d (Tok (KLine p tg) i ks) rest g [] endtag (conj Hln HlnD) Hp1 Hr')
        as (rest1 & ln1 & Ha & Hk1 & HrD & Hrc & Hrn).
      cbn [app] in Ha. rewrite Ha.
      cbn [wsum] in Hf. rewrite Hc in Hf.
      destruct (absorb_spec D prefix endtag (2 * length (d ++ rest1 ++ [g]) + 1) d rest1 g [ln1] HrD) as
          (rest2 & kids2 & Hab & Hr2D & Hr2c & Hk2 & Hk2l); [|constructor; [exact Hk1|constructor]|].
      { pose proof (wsum_le lcost 2 lcost_le rest1). rewrite !app_length. lia. }
      rewrite Hab.
      assert (Hk2ne : kids2 <> []) by (destruct kids2; [cbn in Hk2l; lia|discriminate]).
      assert (HD1 : 1 <= D) by (cbn [line_pfx tkind] in HlnD; lia).
      destruct (Hrec HD1 (map strip1 kids2)) as (kids3 & Hk3).
      { rewrite Forall_map. eapply Forall_impl; [|exact Hk2]. intros a Ha'. apply strip1_lineD. exact Ha'. }
      { destruct kids2; [contradiction|discriminate]. }
      rewrite Hk3. cbv zeta.
      destruct (split_dl prefix itemk kids3) as [[item' dx]|] eqn:Esp.
      - destruct (split_dl_inv _ _ _ _ _ Esp) as [Hsemi' Hdx].
        specialize (Hrn (Hsemi Hsemi')).
        exists rest2, (nkids ++ [item']), (Some dx), true. split; [reflexivity|].
        split; [exact Hr2D|]. split; [intros x Hx; inversion Hx; subst; exact Hdx|].
        unfold phi. cbn [wsum]. rewrite Hc. destruct dd; split; intros; lia.
      - pose proof (dd_after_cases prefix kids3 dd) as Hda.
        assert (Hdd' : dd_ok (dd_after prefix kids3 dd) /\ phi rest2 (dd_after prefix kids3 dd) + 1 <= phi (Tok (KLine p tg) i ks :: rest) dd).
        { unfold phi. cbn [wsum]. rewrite Hc.
          destruct Hda as [->| ->]; (split; [try exact Hdd; intros x Hx; discriminate|]); destruct dd; lia. }
        destruct Hdd' as [Hddok Hphi].
        destruct (match prefix with PcColon | PcSemi => true | _ => false end).
        + exists rest2, (nkids ++ [Tok itemk 0%N kids3]), (dd_after prefix kids3 dd), true.
          split; [reflexivity|]. split; [exact Hr2D|]. split; [exact Hddok|]. split; intros; lia.
        + destruct (IH d rest2 g (nkids ++ [Tok itemk 0%N kids3]) (dd_after prefix kids3 dd) Hr2D ltac:(lia) Hddok)
            as (rest' & nkids' & dd' & broke & Hci & H1 & H2 & H3 & _).
          exists rest', nkids', dd', broke. split; [exact Hci|]. split; [exact H1|]. split; [exact H2|].
          split; intros; lia.
    Qed.

    Lemma group_spec : forall fuel d rest g nkids dd,
      Forall (lineD D) rest -> phi rest dd < fuel -> dd_ok dd ->
      exists rest' nkids' dd',
        group_loop rec fuel (d ++ rest ++ [g]) (length d) prefix itemk endtag nkids dd = POk (d ++ rest' ++ [g], nkids', dd')
        /\ Forall (lineD D) rest' /\ dd_ok dd' /\ phi rest' dd' <= phi rest dd
        /\ (head_match rest prefix = true -> phi rest' dd' + 1 <= phi rest dd).
    Proof.
      induction fuel as [|f IH]; intros d rest g nkids dd Hr Hf Hdd; [lia|].
      cbn [group_loop]. rewrite before_guard_test.
      destruct rest as [|ln rest].
      { exists [], nkids, dd. cbn [head_match]. repeat split; auto. discriminate. }
      cbn [app]. rewrite nth_error_mid.
      inversion Hr as [|? ? [Hln HlnD] Hr']; subst.
      destruct (line_ok_inv ln Hln) as (p & tg & i & ks & -> & Hp).
      cbn [getchar tkind line_pfx head_match] in *.
      destruct (is_char (hd_error p) prefix) eqn:E.
      2:{ exists (Tok (KLine p tg) i ks :: rest), nkids, dd. cbn [app]. repeat split; auto. discriminate. }
      set (ln := Tok (KLine p tg) i ks) in *.
      destruct (collect_spec (2 * length (d ++ (ln :: rest) ++ [g]) + 1) d (ln :: rest) g nkids dd Hr) as
          (rest1 & nkids1 & dd1 & broke & Hci & H1 & H2 & H3 & H4); [|exact Hdd|].
      { pose proof (wsum_le lcost 2 lcost_le (ln :: rest)). rewrite !app_length. lia. }
      cbn [app] in Hci. rewrite Hci.
      assert (Hm : head_match (ln :: rest) prefix = true) by exact E.
      specialize (H4 Hm).
      destruct broke.
      - exists rest1, nkids1, dd1. split; [reflexivity|]. split; [exact H1|]. split; [exact H2|]. split; intros; lia.
      - assert (Hlt : phi rest1 dd1 < f) by lia.
        destruct (IH d rest1 g nkids1 dd1 H1 Hlt H2) as (rest' & nkids' & dd' & Hg & G1 & G2 & G3 & _).
        exists rest', nkids', dd'. split; [exact Hg|]. split; [exact G1|]. split; [exact G2|]. split; intros; lia.
    Qed.
  End Group.

  Lemma node_and_item_spec : forall prefix nodek itemk endtag,
    node_and_item prefix = Some (nodek, itemk, endtag) ->
    (prefix = PcSemi -> endtag = None) /\ produced (Tok nodek 0%N []).
  Proof.
    intros prefix nodek itemk endtag H. destruct prefix; cbn in H; inversion H; subst;
      (split; [intros E; try reflexivity; discriminate E|reflexivity]).
  Qed.

  (* outer loop of analyze: state (startpos, lines) with lines = done ++ rest ++ [guard] *)
  Definition an_inv (n : nat) (s : nat * list tok) : Prop :=
    exists d rest g, snd s = d ++ rest ++ [g] /\ fst s = length d
                     /\ Forall (lineD D) rest /\ Forall produced d /\ length d + wsum lcost rest <= n.
  Definition an_mu (s : nat * list tok) : nat := wsum lcost (skipn (fst s) (snd s)).
  Definition an_post (n : nat) (out : list tok) : Prop := length out <= n /\ Forall produced out.

  Lemma tw_kind : forall k i ks i' ks', tw (Tok k i ks) = tw (Tok k i' ks').
  Proof. reflexivity. Qed.

  (* every iteration moves at least one new node to `done` and pays for each from the cost of `rest` *)
  Lemma an_step_view : forall n d rest g s' new rest',
    Forall produced d -> length d + wsum lcost rest <= n ->
    fst s' = length d + length new -> snd s' = d ++ new ++ rest' ++ [g] ->
    Forall produced new -> 1 <= length new -> Forall (lineD D) rest' ->
    length new + wsum lcost rest' <= wsum lcost rest ->
    an_inv n s' /\ an_mu s' < an_mu (length d, d ++ rest ++ [g]).
  Proof.
    intros n d rest g [sp' lines'] new rest' Hd Hn Hsp Hl Hnew Hlen Hr Hpay. cbn [fst snd] in *. subst sp' lines'.
    rewrite <- app_length, app_assoc. split.
    - exists (d ++ new), rest', g. cbn [fst snd]. rewrite app_length.
      split; [reflexivity|]. split; [reflexivity|]. split; [exact Hr|].
      split; [apply Forall_app; split; assumption|lia].
    - unfold an_mu. cbn [fst snd]. rewrite !skipn_mid, !wsum_app. lia.
  Qed.

  Lemma analyze_step_ok : forall n s, an_inv n s ->
    step_ok (an_inv n) an_mu (an_post n) s (analyze_step rec s).
  Proof.
    intros n [sp lines] (d & rest & g & Hl & Hsp & Hr & Hd & Hn). cbn [fst snd] in *. subst sp lines.
    unfold analyze_step. rewrite before_guard_test.
    destruct rest as [|ln rest].
    { cbn [app]. rewrite removelast_last. split; [cbn [wsum] in Hn; lia|exact Hd]. }
    cbn [app]. rewrite nth_error_mid.
    inversion Hr as [|? ? [Hln HlnD] Hr']; subst.
    destruct (line_ok_inv ln Hln) as (p & tg & i & ks & -> & Hp).
    cbn [getchar tkind line_pfx] in *.
    destruct p as [|prefix p]; cbn [hd_error].
    - (* no prefix *)
      apply (an_step_view n d (Tok (KLine [] tg) i ks :: rest) g _ [no_prefix (Tok (KLine [] tg) i ks)] rest Hd Hn).
      + cbn [fst length]. lia.
      + cbn [snd]. rewrite set_nth_mid. reflexivity.
      + constructor; [destruct tg; reflexivity|constructor].
      + cbn [length]. lia.
      + exact Hr'.
      + cbn [wsum length]. unfold lcost. cbn [line_pfx tkind]. lia.
    - cbn [pfx_ok forallb] in Hp. apply andb_true_iff in Hp. destruct Hp as [Hpc Hp].
      destruct (node_and_item prefix) as [[[nodek itemk] endtag]|] eqn:En; [|destruct prefix; cbn in *; discriminate].
      destruct (node_and_item_spec _ _ _ _ En) as [Hsemi Hnodew].
      set (ln := Tok (KLine (prefix :: p) tg) i ks) in *.
      assert (Hr0 : Forall (lineD D) (ln :: rest)).
      { constructor; [split; [|exact HlnD]|exact Hr']. unfold line_ok, ln. cbn [tkind pfx_ok forallb]. rewrite Hpc, Hp. reflexivity. }
      destruct (group_spec prefix itemk endtag Hsemi (2 * length (d ++ (ln :: rest) ++ [g]) + 1) d (ln :: rest) g [] None Hr0)
        as (rest1 & nkids & dd & Hg & G1 & G2 & _ & G4).
      { pose proof (wsum_le lcost 2 lcost_le (ln :: rest)). unfold phi. rewrite !app_length. cbn [length] in *. lia. }
      { intros x Hx; discriminate. }
      cbn [app] in Hg. rewrite Hg.
      assert (Hm : head_match (ln :: rest) prefix = true).
      { cbn [head_match line_pfx tkind ln hd_error is_char]. destruct prefix; reflexivity. }
      specialize (G4 Hm). unfold phi in G4.
      rewrite firstn_mid, skipn_mid.
      assert (Hnw : produced (Tok nodek 0%N nkids)) by exact Hnodew.
      destruct dd as [dx|].
      + apply (an_step_view n d (ln :: rest) g _ [Tok nodek 0%N nkids; dx] rest1 Hd Hn).
        * cbn [fst length]. lia.
        * cbn [snd]. rewrite firstn_mid_S, skipn_mid_S, <- app_assoc. reflexivity.
        * constructor; [exact Hnw|constructor; [apply G2; reflexivity|constructor]].
        * cbn [length]. lia.
        * exact G1.
        * cbn [length]. lia.
      + apply (an_step_view n d (ln :: rest) g _ [Tok nodek 0%N nkids] rest1 Hd Hn).
        * cbn [fst length]. lia.
        * reflexivity.
        * constructor; [exact Hnw|constructor].
        * cbn [length]. lia.
        * exact G1.
        * cbn [length]. lia.
  Qed.
End AnalyzeProof.

Lemma analyze_core : forall D rec,
  (1 <= D -> forall K, Forall (lineD (D - 1)) K -> K <> [] -> exists out, rec K = POk out) ->
  forall L, Forall (lineD D) L ->
  exists out k, iter (analyze_step rec) (2 * length L + 3) 0 (0, L ++ [guard_line]) = POk (out, k)
                /\ an_post (2 * length L) out.
Proof.
  intros D rec Hrec L HL.
  destruct (iter_terminates (analyze_step rec) (an_inv D (2 * length L)) an_mu (an_post (2 * length L))
              (analyze_step_ok D rec Hrec (2 * length L)) (2 * length L + 3) 0 (0, L ++ [guard_line])) as (out & k & Hr & _ & Hp);
    [| |exists out, k; split; [exact Hr|exact Hp]].
  - exists [], L, guard_line. cbn [fst snd app length]. split; [reflexivity|]. split; [reflexivity|].
    split; [exact HL|]. split; [constructor|]. pose proof (wsum_le lcost 2 lcost_le L). lia.
  - unfold an_mu. cbn [fst snd skipn]. rewrite wsum_app. cbn [wsum]. change (lcost guard_line) with 2.
    pose proof (wsum_le lcost 2 lcost_le L). lia.
Qed.

Lemma analyze_S : forall d L,
  analyze (S d) L = match iter (analyze_step (analyze d)) (2 * length L + 3) 0 (0, L ++ [guard_line]) with
                    | POk (r, _) => POk r
                    | PRaise e => PRaise e
                    end.
Proof. reflexivity. Qed.

Lemma analyze_spec : forall D L, Forall (lineD D) L ->
  exists out, analyze (S D) L = POk out /\ length out <= 2 * length L /\ Forall produced out.
Proof.
  induction D as [|D IH]; intros L HL; rewrite analyze_S.
  - (* no lineprefix at depth 0: no recursive call *)
    destruct (analyze_core 0 (analyze 0)) with (L := L) as (out & k & Hr & Hp1 & Hp2); [intros H; inversion H|exact HL|].
    rewrite Hr. exists out. auto.
  - destruct (analyze_core (S D) (analyze (S D))) with (L := L) as (out & k & Hr & Hp1 & Hp2); [|exact HL|].
    + intros _ K HK _. replace (S D - 1) with D in HK by lia.
      destruct (IH K HK) as (out & Ho & _). exists out. exact Ho.
    + rewrite Hr. exists out. auto.
Qed.

Lemma max_pfx_ge : forall L l, In l L -> length (line_pfx l) <= max_pfx L.
Proof.
  induction L as [|x L IH]; intros l H; [contradiction|]. cbn [max_pfx].
  destruct H as [->|H]; [lia|]. specialize (IH l H). lia.
Qed.

(* ParseLines.analyze: no exception, no fuel exhaustion, at most two nodes per line, none of them a raw
   t_item / t_colon token (the hypothesis Hana of lin_run_bound_given_analyze) *)
Theorem analyze_full_spec : forall L, Forall line_ok L ->
  exists out, analyze_full L = POk out /\ length out <= 2 * length L /\ Forall produced out.
Proof.
  intros L HL. unfold analyze_full.
  replace (max_pfx L + 2) with (S (max_pfx L + 1)) by lia.
  apply analyze_spec. rewrite Forall_forall in *. intros l Hl. split; [apply HL; exact Hl|].
  pose proof (max_pfx_ge L l Hl). lia.
Qed.

Theorem lin_run_bound : forall fuel toks, Forall tok_ok toks -> 4 * length toks < fuel ->
  exists r iters, lin_run fuel toks = POk (r, iters) /\ iters <= 4 * length toks.
Proof. exact (lin_run_bound_given_analyze analyze_full (fun L _ => analyze_full_spec L)). Qed.
