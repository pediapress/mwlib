(* C01 — remove_boilerplate with the lookup attribute and the except clause read from /repo on this run (Gen_post.v). *)
From Coq Require Import List Bool.
From MW Require Import C01.PassesPost C01.ProofsPassesPost C01.Gen_post.
Import ListNotations.

(* closed by computation on the generated configuration: fails when the source reads the attribute dict
   (an int may be stored under 'class') or does not catch the AttributeError of the absent attribute *)
Lemma post_cfg_safe : cfg_safe post_cfg = true.
Proof. reflexivity. Qed.

