(* C01 — post_processors.remove_boilerplate (model: C01/PassesPost.v): with a configuration that passes cfg_safe the
   recursion returns a tree for every fuel from the height of the input on (rb_total_fuel); a node keeps its kind, and
   its children are the results for some of its children, in order (rb_node). *)
From Coq Require Import List Bool Arith Lia.
From MW Require Import C01.PassesPost.
Import ListNotations.

Definition hmax (l : list node) : nat := fold_right (fun c m => Nat.max (height c) m) 0 l.

Lemma height_node : forall k ch, height (Node k ch) = S (hmax ch).
Proof. reflexivity. Qed.

Lemma hmax_Forall : forall l f, hmax l <= f <-> Forall (fun c => height c <= f) l.
Proof.
  induction l as [|x r IH]; intro f; cbn [hmax fold_right].
  - split; [constructor | lia].
  - fold (hmax r). split.
    + intro H. constructor; [lia | apply IH; lia].
    + intro H. inversion H as [|? ? Hx Hr]; subst. apply IH in Hr. lia.
Qed.

Lemma drop_test_safe : forall c, cfg_safe c = true -> forall n, exists b, drop_test c n = ROk b.
Proof.
  intros c Hs [k ch]. unfold cfg_safe in Hs. destruct k as [cls| | |]; cbn [drop_test]; try (eexists; reflexivity).
  unfold get_class. destruct (cfg_lookup c) eqn:El; [|discriminate].
  rewrite Hs. cbn [in_test]. eexists; reflexivity.
Qed.

Lemma rb_loop_sub : forall c l kept, rb_loop c l = ROk kept -> incl kept l /\ length kept <= length l.
Proof.
  intros c. induction l as [|x r IH]; intros kept H; cbn [rb_loop] in H.
  - inversion H; subst. split; [apply incl_refl|apply le_n].
  - destruct (drop_test c x) as [[|]| |]; try discriminate.
    + destruct (IH kept H) as [Hsub Hlen]. split; [apply incl_tl; exact Hsub|cbn [length]; lia].
    + destruct (rb_loop c r) as [r'| |]; try discriminate. inversion H; subst.
      destruct (IH r' eq_refl) as [Hsub Hlen]. split; [|cbn [length]; lia].
      apply incl_cons; [left; reflexivity|apply incl_tl; exact Hsub].
Qed.

Lemma rb_loop_safe : forall c, cfg_safe c = true -> forall l, exists kept, rb_loop c l = ROk kept.
Proof.
  intros c Hs. induction l as [|x r [kept Hk]]; cbn [rb_loop]; [eexists; reflexivity|].
  destruct (drop_test_safe c Hs x) as [b Hb]. rewrite Hb, Hk. destruct b; eexists; reflexivity.
Qed.

Lemma map_rres_length : forall (A B : Type) (f : A -> rres B) l l', map_rres f l = ROk l' -> length l' = length l.
Proof.
  intros A B f. induction l as [|x r IH]; intros l' H; cbn [map_rres] in H.
  - inversion H; subst. reflexivity.
  - destruct (f x); try discriminate. destruct (map_rres f r) as [r'| |]; try discriminate.
    inversion H; subst. cbn [length]. f_equal. apply IH. reflexivity.
Qed.

Lemma map_rres_ok : forall (A B : Type) (f : A -> rres B) (l : list A),
  Forall (fun x => exists y, f x = ROk y) l -> exists l', map_rres f l = ROk l'.
Proof.
  intros A B f. induction l as [|x r IH]; intro H; cbn [map_rres].
  - eexists; reflexivity.
  - inversion H as [|? ? [y Hy] Hr]; subst. destruct (IH Hr) as [r' Hr'].
    rewrite Hy, Hr'. eexists; reflexivity.
Qed.

Lemma rb_total_fuel : forall c, cfg_safe c = true -> forall f n, height n <= f -> exists n', rb c f n = ROk n'.
Proof.
  intros c Hs. induction f as [|f IH]; intros [k ch] Hh.
  - rewrite height_node in Hh. lia.
  - rewrite height_node in Hh. cbn [rb].
    destruct (rb_loop_safe c Hs ch) as [kept Hk]. rewrite Hk.
    assert (Hch : Forall (fun x => height x <= f) ch) by (apply hmax_Forall; lia).
    apply (incl_Forall (proj1 (rb_loop_sub c ch kept Hk))) in Hch.
    assert (Hall : Forall (fun x => exists y, rb c f x = ROk y) kept).
    { eapply Forall_impl; [|exact Hch]. cbv beta. intros a Ha. apply IH. exact Ha. }
    destruct (map_rres_ok _ _ (rb c f) kept Hall) as [ch' Hch']. rewrite Hch'. eexists; reflexivity.
Qed.

Lemma rb_node : forall c f k ch n', rb c (S f) (Node k ch) = ROk n' ->
  exists kept ch', incl kept ch /\ length kept <= length ch /\ map_rres (rb c f) kept = ROk ch' /\ n' = Node k ch'.
Proof.
  intros c f k ch n' H. cbn [rb] in H.
  destruct (rb_loop c ch) as [kept| |] eqn:Ek; try discriminate.
  destruct (map_rres (rb c f) kept) as [ch'| |] eqn:Em; try discriminate.
  inversion H; subst. destruct (rb_loop_sub c ch kept Ek) as [Hi Hl]. exists kept, ch'. auto.
Qed.

(* an absent attribute without `except AttributeError` raises on the first div *)
Lemma rb_absent_uncaught_raises :
  let n := Node KOtherNode [Node (KDiv None) []] in
  rb {| cfg_lookup := LAbsent; cfg_caught := [] |} (height n) n = RRaise PAttributeError.
Proof. reflexivity. Qed.

