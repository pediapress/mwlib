(* C03 — the recursion limit is invisible to every evaluation that does not hit it.
   Order on results:  r [= r'  iff  r = r'  or  r = Err XRec  ("ran out of nesting budget": may become anything with more
   budget).  Every piece of the evaluator is monotone in its `flatten` parameter w.r.t. this order, hence below the top level
   (recursion_count >= 2, where TemplateRecursion is re-raised) a result other than TemplateRecursion - output or a swallowed
   MemoryLimitError - is the same for every larger recursion limit. *)
From Coq Require Import List NArith ZArith Bool Lia.
From MW Require Import Common.Str C03.Model C03.Proofs.
Import ListNotations.

Definition rle {A} (r r' : res A) : Prop := r = r' \/ r = Err XRec.
Definition fle (fl fl' : flat) : Prop := forall n e, rle (fl n e) (fl' n e).

Lemma rle_refl {A} (r : res A) : rle r r.
Proof. left. reflexivity. Qed.

(* every step of the evaluator is `match r with Ok a => f a | Err x => Err x end`, which respects the order *)
Lemma rle_bind {A B} (r r' : res A) (f f' : A -> res B) :
  rle r r' -> (forall a, rle (f a) (f' a)) ->
  rle (match r with Ok a => f a | Err x => Err x end) (match r' with Ok a => f' a | Err x => Err x end).
Proof. intros [->| ->] Hf; [|right; reflexivity]. destruct r' as [a|x]; [apply Hf|apply rle_refl]. Qed.

Section Mono.
  Variable tpl : str -> option node.
  Variable is_magic : str -> bool.
  Variable magic_prog : str -> nat -> mreq.
  Variable default_names : list str.

  Notation flatten := (flatten tpl is_magic magic_prog default_names).
  Notation node_body := (node_body tpl is_magic magic_prog default_names).

  Variables fl fl' : flat.
  Hypothesis H : fle fl fl'.

  Lemma value_of_mono ds v p : rle (value_of fl ds v p) (value_of fl' ds v p).
  Proof.
    unfold value_of. destruct (node_as_str v); [apply rle_refl|].
    apply rle_bind; [apply H|intros ps; apply rle_refl].
  Qed.

  Lemma scan_mono args parent n : forall vc, rle (scan fl args parent vc n) (scan fl' args parent vc n).
  Proof.
    induction args as [|a rest IH]; intros vc; cbn [scan]; [apply rle_refl|].
    destruct (equal_split a) as [[nm|] val].
    - apply rle_bind; [apply H|intros ps]. destruct (str_eqb _ n); [|apply IH].
      apply rle_bind; [apply value_of_mono|intros s; apply rle_refl].
    - destruct (str_eqb _ n); [|apply IH].
      apply rle_bind; [apply value_of_mono|intros s; apply rle_refl].
  Qed.

  Lemma get_mono e n : rle (get fl e n) (get fl' e n).
  Proof. destruct e as [|args parent]; cbn [get]; [apply rle_refl|apply scan_mono]. Qed.

  Lemma arg_int_mono e a : rle (arg_int fl e a) (arg_int fl' e a).
  Proof.
    unfold arg_int. destruct (node_as_str a); [apply rle_refl|].
    apply rle_bind; [apply H|intros ps; apply rle_refl].
  Qed.

  Lemma run_magic_mono e args m : rle (run_magic fl e args m) (run_magic fl' e args m).
  Proof.
    induction m as [out|i k IH]; cbn [run_magic]; [apply rle_refl|].
    destruct (nth_error args i) as [a|]; [|apply IH].
    apply rle_bind; [apply arg_int_mono|intros s; apply IH].
  Qed.

  Lemma sw_unres_mono e val nv l : rle (sw_unres fl e val nv l) (sw_unres fl' e val nv l).
  Proof.
    induction l as [|[k v] rest IH]; cbn [sw_unres]; [apply rle_refl|].
    apply rle_bind; [apply H|intros ps]. cbv zeta.
    destruct (str_eqb _ val); [apply rle_refl|].
    destruct nv as [a|]; [|apply IH].
    destruct (parse_num _) as [b|]; [|apply IH].
    destruct (num_eqb b a); [apply rle_refl|apply IH].
  Qed.

  Lemma branch_mono e x : rle (branch fl e x) (branch fl' e x).
  Proof.
    destruct x as [n|]; cbn [branch]; [|apply rle_refl].
    apply rle_bind; [apply H|intros qs; apply rle_refl].
  Qed.

  Lemma flat_list_mono e l : rle (flat_list fl e l) (flat_list fl' e l).
  Proof.
    induction l as [|x r IH]; cbn [flat_list]; [apply rle_refl|].
    apply rle_bind; [apply H|intros ps]. apply rle_bind; [exact IH|intros qs; apply rle_refl].
  Qed.

  Variables flb flb' : flat.
  Hypothesis Hb : fle flb flb'.

  Lemma node_body_mono n e : rle (node_body fl flb n e) (node_body fl' flb' n e).
  Proof.
    destruct n as [s| |l|l|nm args|l|l|v args]; cbn [Model.node_body]; try apply rle_refl.
    - (* NSeq *) apply flat_list_mono.
    - (* NVar *)
      destruct l as [|nm rest]; [apply rle_refl|].
      apply rle_bind; [apply H|intros ps]. cbv zeta.
      destruct (too_long _); [apply rle_refl|].
      apply rle_bind; [apply get_mono|intros [v|]]; [apply rle_refl|].
      destruct rest as [|d rest']; [apply rle_refl|apply H].
    - (* NTpl *)
      apply rle_bind; [apply H|intros ps]. cbv zeta.
      destruct (too_long _); [apply rle_refl|].
      destruct (is_magic _).
      + apply rle_bind; [apply run_magic_mono|intros s; apply rle_refl].
      + destruct (tpl _) as [p|]; [|apply rle_refl].
        destruct (truthy p); [|apply rle_refl].
        apply rle_bind; [apply Hb|intros qs; apply rle_refl].
    - (* NIf *)
      destruct l as [|c0 rest]; [apply rle_refl|].
      apply rle_bind; [apply H|intros ps]. cbv zeta.
      destruct (strip_ebad _); apply branch_mono.
    - (* NIfEq *)
      destruct l as [|a0 rest]; [apply rle_refl|].
      apply rle_bind; [apply H|intros ps]. cbv zeta.
      apply rle_bind; [destruct rest as [|b0 r]; [apply rle_refl|apply H]|intros qs].
      destruct (maybe_numeric_compare _ _); apply branch_mono.
    - (* NSwitch *)
      destruct (switch_init args) as [fast unres].
      apply rle_bind; [apply H|intros ps]. cbv zeta.
      match goal with |- context [let '(a, b) := ?X in _] => destruct X as [pos ret0] end.
      apply rle_bind; [apply sw_unres_mono|intros found]. cbv zeta.
      apply rle_bind; [apply H|intros qs; apply rle_refl].
  Qed.
End Mono.

Section MonoFlatten.
  Variable tpl : str -> option node.
  Variable is_magic : str -> bool.
  Variable magic_prog : str -> nat -> mreq.
  Variable default_names : list str.

  Notation flatten := (flatten tpl is_magic magic_prog default_names).

  (* one more unit of nesting budget, below the top level *)
  Lemma flatten_mono_step b : forall c, (2 <= c)%nat -> fle (flatten b c) (flatten (S b) c).
  Proof.
    induction b as [|b IH]; intros c Hc n e.
    - destruct (node_as_str n) as [s|] eqn:Hs.
      + rewrite !(flatten_str _ _ _ _ _ _ _ _ s Hs). apply rle_refl.
      + right. apply flatten_budget_exhausted. exact Hs.
    - destruct (node_as_str n) as [s|] eqn:Hs.
      + rewrite !(flatten_str _ _ _ _ _ _ _ _ s Hs). apply rle_refl.
      + rewrite (flatten_step _ _ _ _ (S b)) by exact Hs. rewrite (flatten_step _ _ _ _ b) by exact Hs.
        assert (Hf : fle (flatten b (S c)) (flatten (S b) (S c))) by (apply IH; lia).
        destruct (node_body_mono tpl is_magic magic_prog default_names _ _ Hf _ _ Hf n e) as [E|E]; rewrite E.
        * apply rle_refl.
        * right. destruct (Nat.ltb_spec 2 (S c)) as [_|Hlt]; [reflexivity|lia].
  Qed.

  Lemma flatten_mono b k : forall c, (2 <= c)%nat -> fle (flatten b c) (flatten (k + b) c).
  Proof.
    induction k as [|k IH]; intros c Hc n e; [apply rle_refl|].
    destruct (IH c Hc n e) as [E|E]; [|right; exact E].
    rewrite E. apply (flatten_mono_step (k + b) c Hc).
  Qed.

  Lemma flatten_ok_any_larger_limit b k c n e ps :
    (2 <= c)%nat -> flatten b c n e = Ok ps -> flatten (k + b) c n e = Ok ps.
  Proof. intros Hc Hr. destruct (flatten_mono b k c Hc n e) as [E|E]; congruence. Qed.
End MonoFlatten.
