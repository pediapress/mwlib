(* C03 — lemmas for ExprSizeModel.v: with the reviewed operator classes every value an #expr evaluation builds has at most
   (bits of the literals) + 1025 * (number of operators) bits; with an exact integer power this fails on 9^64^64^64^64^64. *)
From Coq Require Import ZArith List Lia Bool.
From MW Require Import C03.ExprSizeModel.
Import ListNotations.
Local Open Scope Z_scope.

Lemma pow2_pos n : 0 < 2 ^ n \/ n < 0.
Proof. destruct (Z_lt_le_dec n 0) as [H|H]; [right; exact H|left; apply Z.pow_pos_nonneg; lia]. Qed.

Lemma pow2_ge1 n : 0 <= n -> 1 <= 2 ^ n.
Proof. intros H. pose proof (Z.pow_pos_nonneg 2 n ltac:(lia) H). lia. Qed.

Lemma pow2_mono n m : 0 <= n <= m -> 2 ^ n <= 2 ^ m.
Proof. intros H. apply Z.pow_le_mono_r; lia. Qed.

Lemma fits_mono n m v : 0 <= n <= m -> fits n v -> fits m v.
Proof. intros H. destruct v as [z|]; cbn [fits]; [|trivial]. intros Hz. pose proof (pow2_mono n m H). lia. Qed.

Lemma fits_small n z : 1 <= n -> Z.abs z <= 1 -> fits n (VI z).
Proof. intros Hn Hz. cbn [fits]. pose proof (pow2_mono 1 n ltac:(lia)). change (2 ^ 1) with 2 in H. lia. Qed.

Lemma b2z_small b : Z.abs (Z.b2z b) <= 1.
Proof. destruct b; cbn; lia. Qed.

Lemma to_int_fits n x z : 0 <= n -> fits n x -> to_int x z -> Z.abs z < 2 ^ (n + FMAX).
Proof.
  intros Hn Hf H. assert (HF : 0 <= FMAX) by (unfold FMAX; lia).
  inversion H; subst.
  - cbn [fits] in Hf. pose proof (pow2_mono n (n + FMAX) ltac:(lia)). lia.
  - pose proof (pow2_mono FMAX (n + FMAX) ltac:(lia)). lia.
Qed.

(* the result of rounding an integer to a multiple of 10^k within 10^k/2 is 0 or at most twice as large *)
Lemma round_int_bound n r k : 0 <= k -> (10 ^ k | r) -> 2 * Z.abs (r - n) <= 10 ^ k -> Z.abs r <= 2 * Z.abs n.
Proof.
  intros Hk [q Hq] Hd. pose proof (Z.pow_pos_nonneg 10 k ltac:(lia) Hk) as Hp.
  destruct (Z.eq_dec q 0) as [->|Hq0]; [subst r; lia|].
  assert (Hr : 10 ^ k <= Z.abs r).
  { subst r. rewrite Z.abs_mul. rewrite (Z.abs_eq (10 ^ k)) by lia. assert (1 <= Z.abs q) by lia. nia. }
  lia.
Qed.

Lemma size_bound_un c a : size_bound (Un c a) = size_bound a + (FMAX + 1).
Proof. unfold size_bound. cbn [lit_bits ops]. ring. Qed.

Lemma size_bound_bin c a b : size_bound (Bin c a b) = size_bound a + size_bound b + (FMAX + 1).
Proof. unfold size_bound. cbn [lit_bits ops]. ring. Qed.

(* a unary operator adds at most FMAX + 1 bits to its operand *)
Lemma step1_fits c x r B :
  step1 c x r -> 0 <= B -> fits B x -> fits (B + (FMAX + 1)) r.
Proof.
  assert (HF : FMAX = 1024) by reflexivity.
  intros Hs H0 Hx. pose proof (pow2_mono B (B + (FMAX + 1)) ltac:(lia)) as Hup.
  destruct Hs as [z| |v|z| |v b|v|v z Hty]; cbn [fits] in *; trivial.
  - (* -z *) rewrite Z.abs_opp. lia.
  - (* +v *) apply (fits_mono B); [lia|exact Hx].
  - (* abs z *) rewrite Z.abs_involutive. lia.
  - (* not *) apply fits_small; [lia|apply b2z_small].
  - (* int(v) *)
    pose proof (to_int_fits B v z H0 Hx Hty) as Hz. pose proof (pow2_mono (B + FMAX) (B + (FMAX + 1)) ltac:(lia)). lia.
Qed.

(* a binary operator of a reviewed class builds at most the bits of both operands and FMAX + 1 more *)
Lemma step2_fits c x y r A B :
  step2 c x y r -> linear_cls c = true -> 0 <= A -> 0 <= B -> fits A x -> fits B y -> fits (A + B + (FMAX + 1)) r.
Proof.
  assert (HF : FMAX = 1024) by reflexivity.
  intros Hs Hc H0a H0b Hx Hy.
  assert (HAB : 2 ^ A * 2 ^ B = 2 ^ (A + B)) by (rewrite Z.pow_add_r by lia; reflexivity).
  pose proof (pow2_ge1 A H0a) as HA1. pose proof (pow2_ge1 B H0b) as HB1.
  pose proof (pow2_mono (A + B) (A + B + (FMAX + 1)) ltac:(lia)) as Hup.
  assert (Hup1 : 2 * 2 ^ (A + B) <= 2 ^ (A + B + (FMAX + 1))).
  { replace (2 * 2 ^ (A + B)) with (2 ^ (A + B + 1)) by (rewrite (Z.pow_add_r 2 (A + B) 1) by lia; change (2 ^ 1) with 2; ring).
    apply pow2_mono. lia. }
  assert (HAle : 2 ^ A <= 2 ^ (A + B)) by (apply pow2_mono; lia).
  assert (HBle : 2 ^ B <= 2 ^ (A + B)) by (apply pow2_mono; lia).
  destruct Hs as [x y|a b|y|x|a b|y|x|a b|y|x|x y a b Htx Hty Hb|x y|x y r Hr|n y r k Hk Hdiv Hd|n y|x y b|a b Hb|x y];
    cbn [fits] in *; trivial.
  - (* a * b *) rewrite Z.abs_mul. assert (Z.abs a * Z.abs b < 2 ^ A * 2 ^ B) by nia. lia.
  - (* a + b *) lia.
  - (* a - b *) lia.
  - (* int(x) % int(y) *)
    pose proof (to_int_fits B y b H0b Hy Hty) as Hb0.
    assert (Z.abs (a mod b) < Z.abs b).
    { destruct (Z_lt_le_dec 0 b) as [Hp|Hn].
      - pose proof (Z.mod_pos_bound a b Hp). lia.
      - pose proof (Z.mod_neg_bound a b ltac:(lia)). lia. }
    pose proof (pow2_mono (B + FMAX) (A + B + (FMAX + 1)) ltac:(lia)). lia.
  - (* round: from a float *) pose proof (pow2_mono FMAX (A + B + (FMAX + 1)) ltac:(lia)). lia.
  - (* round: an integer to a multiple of 10^k *) pose proof (round_int_bound n r k Hk Hdiv Hd) as Hr. lia.
  - (* round: unchanged *) lia.
  - (* comparisons, and, or *) apply fits_small; [lia|apply b2z_small].
  - (* exact power: not a reviewed class *) discriminate.
Qed.

Lemma size_linear e v :
  ev e v -> wfe e -> linear e = true -> 0 <= size_bound e /\ fits (size_bound e) v.
Proof.
  assert (HF : FMAX = 1024) by reflexivity.
  induction 1 as [z n| |c a x r Ha IHa Hs|c a b x y r Ha IHa Hb IHb Hs]; intros Hw Hl.
  - cbn [wfe] in Hw. unfold size_bound. cbn [lit_bits ops fits]. rewrite Z.mul_0_r, Z.add_0_r. tauto.
  - unfold size_bound. cbn. split; [lia|trivial].
  - cbn [wfe] in Hw. cbn [linear] in Hl. apply andb_true_iff in Hl as [Hc Hla].
    destruct (IHa Hw Hla) as [H0 Hx]. rewrite size_bound_un.
    split; [lia|exact (step1_fits c x r _ Hs H0 Hx)].
  - cbn [wfe] in Hw. destruct Hw as [Hwa Hwb]. cbn [linear] in Hl. apply andb_true_iff in Hl as [Hl Hlb].
    apply andb_true_iff in Hl as [Hc Hla].
    destruct (IHa Hwa Hla) as [H0a Hx]. destruct (IHb Hwb Hlb) as [H0b Hy]. rewrite size_bound_bin.
    split; [lia|exact (step2_fits c x y r _ _ Hs Hc H0a H0b Hx Hy)].
Qed.

Lemma size_bound_is_linear e : size_bound e = lit_bits e + 1025 * ops e.
Proof. reflexivity. Qed.

(* the exact integer power breaks the bound *)

Lemma pow_chain_value k : ev (pow_chain k) (VI (9 ^ (64 ^ Z.of_nat k))).
Proof.
  induction k as [|k IH].
  - cbn [pow_chain]. change (9 ^ 64 ^ Z.of_nat 0) with 9. constructor.
  - cbn [pow_chain]. replace (9 ^ 64 ^ Z.of_nat (S k)) with ((9 ^ 64 ^ Z.of_nat k) ^ 64).
    + eapply E_bin; [exact IH|constructor|]. apply S_pow_exact. lia.
    + rewrite <- Z.pow_mul_r by (try apply Z.pow_nonneg; lia). f_equal.
      rewrite Nat2Z.inj_succ, Z.pow_succ_r by lia. ring.
Qed.

Lemma pow_chain_wfe k : wfe (pow_chain k).
Proof. induction k as [|k IH]; cbn [pow_chain wfe]; [split; [lia|reflexivity]|]. split; [exact IH|]. split; [lia|reflexivity]. Qed.

Lemma pow_chain_bound k : size_bound (pow_chain k) = 4 + 1032 * Z.of_nat k.
Proof.
  induction k as [|k IH]; [reflexivity|]. cbn [pow_chain]. rewrite size_bound_bin, IH. unfold size_bound. cbn [lit_bits ops].
  rewrite Nat2Z.inj_succ. unfold FMAX. lia.
Qed.

(* no closed astronomically large term may be handed to lia / cbn below: everything is stated with a variable k *)
Lemma pow2_le_pow9 m : 0 <= m -> 2 ^ (3 * m) <= 9 ^ m.
Proof. intros H. rewrite Z.pow_mul_r by lia. change (2 ^ 3) with 8. apply Z.pow_le_mono_l. lia. Qed.

Lemma chain_exp_bound (k : nat) : (2 <= k)%nat -> 4 + 1032 * Z.of_nat k <= 3 * 64 ^ Z.of_nat k.
Proof.
  induction k as [|k IH]; intros H; [lia|].
  destruct (Nat.eq_dec k 1) as [->|Hk]; [simpl; lia|].
  assert (H2 : (2 <= k)%nat) by lia. specialize (IH H2).
  rewrite Nat2Z.inj_succ, Z.pow_succ_r by lia. set (p := 64 ^ Z.of_nat k) in *. lia.
Qed.

(* 9^64^64 ... with k >= 2 links (the demonstration of seeded/C03-4 has k = 5: 9^64^64^64^64^64): the value 9^(64^k) does not fit the
   linear bound of 4 + 1032 k bits - it has more than 3 * 64^k bits *)
Lemma pow_exact_refuted (k : nat) : (2 <= k)%nat ->
  ev (pow_chain k) (VI (9 ^ (64 ^ Z.of_nat k))) /\ wfe (pow_chain k) /\
  size_bound (pow_chain k) = 4 + 1032 * Z.of_nat k /\
  ~ fits (size_bound (pow_chain k)) (VI (9 ^ (64 ^ Z.of_nat k))) /\
  2 ^ (3 * 64 ^ Z.of_nat k) <= 9 ^ (64 ^ Z.of_nat k).
Proof.
  intros Hk. pose proof (chain_exp_bound k Hk) as Hb.
  assert (Hm : 0 <= 64 ^ Z.of_nat k) by (apply Z.pow_nonneg; lia).
  set (m := 64 ^ Z.of_nat k) in *.
  pose proof (pow2_le_pow9 m Hm) as Hbig.
  split; [exact (pow_chain_value k)|]. split; [apply pow_chain_wfe|]. split; [apply pow_chain_bound|].
  split; [|exact Hbig].
  rewrite pow_chain_bound. cbn [fits]. intros Hlt.
  assert (Hle : 2 ^ (4 + 1032 * Z.of_nat k) <= 2 ^ (3 * m)) by (apply Z.pow_le_mono_r; lia).
  assert (Hnn : 0 <= 9 ^ m) by (apply Z.pow_nonneg; lia).
  rewrite Z.abs_eq in Hlt by exact Hnn.
  set (P := 2 ^ (4 + 1032 * Z.of_nat k)) in *. set (Q := 2 ^ (3 * m)) in *. set (R := 9 ^ m) in *. lia.
Qed.

(* non-vacuity of size_linear: (2 * 3 + 4) mod 7 over integer literals evaluates to 3 and fits its bound *)
Definition ex_expr : expr := Bin CIntMod (Bin CAdd (Bin CMul (Lit 2 2) (Lit 3 2)) (Lit 4 3)) (Lit 7 3).
Lemma size_example : ev ex_expr (VI 3) /\ wfe ex_expr /\ linear ex_expr = true /\ size_bound ex_expr = 3085.
Proof.
  split.
  - unfold ex_expr. eapply E_bin; [eapply E_bin; [eapply E_bin; [constructor|constructor|apply S_mul_i]|constructor|apply S_add_i]|constructor|].
    change (VI 3) with (VI ((2 * 3 + 4) mod 7)). apply S_mod; [constructor|constructor|lia].
  - split; [cbn; repeat split; lia|]. split; reflexivity.
Qed.
