(* C03 — lemmas about the functions of C03/Model.v: the budgeted flatten, strip_by, the parser's tuples (merge_strs, mkseq,
   equal_split) and insert_implicit_newlines. *)
From Coq Require Import List NArith ZArith Bool Lia.
From MW Require Import Common.Str C03.Model.
Import ListNotations.

Section FlattenProofs.
  Variable tpl : str -> option node.
  Variable is_magic : str -> bool.
  Variable magic_prog : str -> nat -> mreq.
  Variable default_names : list str.

  Notation flatten := (flatten tpl is_magic magic_prog default_names).
  Notation expand := (expand tpl is_magic magic_prog default_names).
  Notation node_body := (node_body tpl is_magic magic_prog default_names).

  (* one unfolding step of the Fixpoint for a non-string node *)
  Lemma flatten_step b c n e :
    node_as_str n = None ->
    flatten (S b) c n e =
      match node_body (flatten b (S c)) (flatten b (S c)) n e with
      | Err XRec => if (2 <? S c)%nat then Err XRec else Ok []
      | Err XMem => Ok []
      | Ok ps => Ok ps
      end.
  Proof. destruct n; cbn [node_as_str]; intros H; try discriminate; reflexivity. Qed.

  Lemma flatten_str b c n e s : node_as_str n = Some s -> flatten b c n e = Ok [PS s].
  Proof. destruct n; cbn [node_as_str]; intros H; inversion H; subst; destruct b; reflexivity. Qed.

  Lemma flatten_step_ok b c n e ps :
    node_as_str n = None -> node_body (flatten b (S c)) (flatten b (S c)) n e = Ok ps -> flatten (S b) c n e = Ok ps.
  Proof. intros Hn H. rewrite flatten_step, H by exact Hn. reflexivity. Qed.

  (* {{nm|args}} with a literal name that is no magic word: the body of the template nm in the frame of the arguments *)
  Lemma flatten_call b c nm args e p :
    strip nm = nm -> too_long nm = false -> is_magic nm = false -> tpl nm = Some p ->
    flatten (S b) c (NTpl (NStr nm) args) e =
    if truthy p
    then match flatten b (S c) p (EArgs args e) with
         | Ok qs => Ok (PMark :: PMaybeNL :: qs ++ [PMark])
         | Err XRec => if (2 <? S c)%nat then Err XRec else Ok []
         | Err XMem => Ok []
         end
    else Ok [].
  Proof.
    intros H1 H2 H3 H4. rewrite flatten_step by reflexivity. cbn [Model.node_body].
    rewrite (flatten_str b (S c) (NStr nm) e nm eq_refl). cbn [pjoin map piece_str concat]. rewrite app_nil_r, H1, H2, H3, H4.
    destruct (truthy p); [|reflexivity]. destruct (flatten b (S c) p (EArgs args e)) as [qs|[|]]; reflexivity.
  Qed.

  (* recursion_count > recursion_limit: no node.flatten is entered any more *)
  Lemma flatten_budget_exhausted c n e : node_as_str n = None -> flatten 0 c n e = Err XRec.
  Proof. destruct n; cbn [node_as_str]; intros H; try discriminate; reflexivity. Qed.

  (* MemoryLimitError never leaves a flatten call (evaluate.pyx:39) *)
  Lemma flatten_never_mem b c n e : flatten b c n e <> Err XMem.
  Proof.
    destruct (node_as_str n) as [s|] eqn:Hs.
    - rewrite (flatten_str b c n e s Hs). discriminate.
    - destruct b as [|b].
      + rewrite flatten_budget_exhausted by exact Hs. discriminate.
      + rewrite flatten_step by exact Hs.
        destruct (node_body _ _ n e) as [ps|[|]]; try discriminate.
        destruct (2 <? S c)%nat; discriminate.
  Qed.

  (* TemplateRecursion is swallowed by the calls with recursion_count <= 2 after the increment *)
  Lemma flatten_top_ok b c n e : (c <= 1)%nat -> exists ps, flatten (S b) c n e = Ok ps.
  Proof.
    intros Hc.
    destruct (node_as_str n) as [s|] eqn:Hs.
    - exists [PS s]. apply flatten_str. exact Hs.
    - rewrite flatten_step by exact Hs.
      destruct (node_body _ _ n e) as [ps|[|]].
      + exists ps. reflexivity.
      + exists []. destruct (Nat.ltb_spec 2 (S c)) as [H|H]; [lia|reflexivity].
      + exists []. reflexivity.
  Qed.

  (* a page that is a sequence: every top-level element contributes its own output or nothing; an element that
     runs into the recursion limit does not disturb its siblings *)
  Definition contrib (b : nat) (x : node) (e : env) : list piece :=
    match flatten b 1 x e with Ok ps => ps | Err _ => [] end.

  Lemma flat_list_top b e l :
    flat_list (flatten (S b) 1) e l = Ok (concat (map (fun x => contrib (S b) x e) l)).
  Proof.
    induction l as [|x l IH]; cbn [flat_list map concat]; [reflexivity|].
    unfold contrib at 1.
    destruct (flatten_top_ok b 1 x e) as [ps H]; [lia|].
    rewrite H, IH. reflexivity.
  Qed.

  Lemma flatten_top_seq b e l :
    flatten (S (S b)) 0 (NSeq l) e = Ok (concat (map (fun x => contrib (S b) x e) l)).
  Proof.
    rewrite flatten_step by reflexivity. cbn [Model.node_body].
    rewrite flat_list_top. reflexivity.
  Qed.
End FlattenProofs.

(* code points strictly between the blank and U+0085 are no white space for str.strip() *)
Lemma graphic_not_ws c : (32 < c < 133)%N -> is_ws c = false.
Proof.
  intros H. apply not_true_is_false. intros E. apply existsb_exists in E as (x & Hin & Hx).
  apply N.eqb_eq in Hx. subst x. cbn in Hin. lia.
Qed.

Lemma pjoin_app a b : pjoin (a ++ b) = pjoin a ++ pjoin b.
Proof. unfold pjoin. rewrite map_app, concat_app. reflexivity. Qed.

Lemma pjoin_call qs : pjoin (PMark :: PMaybeNL :: qs ++ [PMark]) = pjoin qs.
Proof. change (pjoin (PMark :: PMaybeNL :: qs ++ [PMark])) with (pjoin (qs ++ [PMark])). rewrite pjoin_app. apply app_nil_r. Qed.

Lemma pjoin_single t : pjoin [PS t] = t.
Proof. apply app_nil_r. Qed.

Lemma forallb_rev {A} (p : A -> bool) l : forallb p (rev l) = forallb p l.
Proof.
  induction l as [|x l IH]; [reflexivity|]. cbn [rev]. rewrite forallb_app, IH. cbn. rewrite andb_true_r. apply andb_comm.
Qed.

Lemma lstrip_by_ext p q s : (forall c, In c s -> p c = q c) -> lstrip_by p s = lstrip_by q s.
Proof.
  induction s as [|x s IH]; intros H; cbn [lstrip_by]; [reflexivity|].
  rewrite <- (H x) by (left; reflexivity). destruct (p x); [|reflexivity].
  apply IH. intros c Hc. apply H. right. exact Hc.
Qed.

Lemma lstrip_by_incl p s c : In c (lstrip_by p s) -> In c s.
Proof.
  induction s as [|x s IH]; cbn [lstrip_by]; [tauto|]. destruct (p x); [|tauto]. intros H. right. apply IH. exact H.
Qed.

Lemma strip_by_ext p q s : (forall c, In c s -> p c = q c) -> strip_by p s = strip_by q s.
Proof.
  intros H. unfold strip_by. rewrite (lstrip_by_ext p q s H). f_equal.
  apply lstrip_by_ext. intros c Hc. apply H. apply in_rev in Hc. eapply lstrip_by_incl. exact Hc.
Qed.

Lemma lstrip_none p s : (forall c, In c s -> p c = false) -> lstrip_by p s = s.
Proof. destruct s as [|x s]; intros H; cbn [lstrip_by]; [reflexivity|]. rewrite H by (left; reflexivity). reflexivity. Qed.

Lemma lstrip_all p s : forallb p s = true -> lstrip_by p s = [].
Proof. induction s as [|x s IH]; cbn; [reflexivity|]. destruct (p x); [exact IH|discriminate]. Qed.

Lemma lstrip_app_all p a x : forallb p a = true -> lstrip_by p (a ++ x) = lstrip_by p x.
Proof. induction a as [|c a IH]; cbn; [reflexivity|]. destruct (p c); [exact IH|discriminate]. Qed.

Lemma lstrip_nil_all p s : lstrip_by p s = [] -> forallb p s = true.
Proof. induction s as [|x s IH]; cbn; [reflexivity|]. destruct (p x); [exact IH|discriminate]. Qed.

Lemma lstrip_split p s : exists a, s = a ++ lstrip_by p s /\ forallb p a = true.
Proof.
  induction s as [|x s [a [IH1 IH2]]]; [exists []; split; reflexivity|]. cbn [lstrip_by].
  destruct (p x) eqn:E; [|exists []; split; reflexivity].
  exists (x :: a). split; [cbn; congruence|]. cbn. rewrite E. exact IH2.
Qed.

Lemma strip_nil_all p s : strip_by p s = [] -> forallb p s = true.
Proof.
  unfold strip_by. intros H. assert (H1 : lstrip_by p (rev (lstrip_by p s)) = []).
  { destruct (lstrip_by p (rev (lstrip_by p s))) as [|y l]; [reflexivity|]. cbn [rev] in H.
    apply app_eq_nil in H as [_ H]. discriminate. }
  apply lstrip_nil_all in H1. rewrite forallb_rev in H1.
  destruct (lstrip_split p s) as [a [Ha1 Ha2]]. rewrite Ha1, forallb_app, Ha2, H1. reflexivity.
Qed.

Lemma strip_blank_prefix p a x : forallb p a = true -> strip_by p (a ++ x) = strip_by p x.
Proof. intros H. unfold strip_by. rewrite lstrip_app_all by exact H. reflexivity. Qed.

Lemma lstrip_app_some p x a : lstrip_by p x <> [] -> lstrip_by p (x ++ a) = lstrip_by p x ++ a.
Proof.
  induction x as [|c x IH]; cbn; [congruence|]. destruct (p c); [exact IH|reflexivity].
Qed.

Lemma strip_blank_suffix p x a : forallb p a = true -> strip_by p (x ++ a) = strip_by p x.
Proof.
  intros H. unfold strip_by.
  destruct (lstrip_by p x) eqn:E.
  - apply lstrip_nil_all in E. rewrite (lstrip_all p (x ++ a)) by (rewrite forallb_app, E, H; reflexivity). reflexivity.
  - rewrite lstrip_app_some by (rewrite E; discriminate). rewrite E.
    rewrite rev_app_distr. rewrite lstrip_app_all by (rewrite forallb_rev; exact H). reflexivity.
Qed.

Lemma lstrip_by_idem p s : lstrip_by p (lstrip_by p s) = lstrip_by p s.
Proof.
  induction s as [|c s IH]; cbn [lstrip_by]; [reflexivity|]. destruct (p c) eqn:E; [exact IH|]. cbn [lstrip_by]. rewrite E. reflexivity.
Qed.

Lemma lstrip_by_hd p s : match lstrip_by p s with [] => True | c :: _ => p c = false end.
Proof. induction s as [|c s IH]; cbn [lstrip_by]; [exact I|]. destruct (p c) eqn:E; [exact IH|exact E]. Qed.

Lemma lstrip_by_keeps_last p l c : p c = false -> exists r, lstrip_by p (l ++ [c]) = r ++ [c].
Proof.
  intros Hc. induction l as [|y l IH]; cbn [app lstrip_by]; [rewrite Hc; exists []; reflexivity|].
  destruct (p y); [exact IH|exists (y :: l); reflexivity].
Qed.

(* after the left strip the head is kept by p, and the right strip leaves it in place: stripping again changes neither end *)
Lemma strip_by_idem p s : strip_by p (strip_by p s) = strip_by p s.
Proof.
  unfold strip_by. pose proof (lstrip_by_hd p s) as Hhd. set (t := lstrip_by p s) in *.
  assert (Hl : lstrip_by p (rev (lstrip_by p (rev t))) = rev (lstrip_by p (rev t))).
  { destruct t as [|c r]; [reflexivity|]. cbn [rev].
    destruct (lstrip_by_keeps_last p (rev r) c Hhd) as [r' ->].
    rewrite rev_app_distr. cbn [rev app lstrip_by]. rewrite Hhd. reflexivity. }
  rewrite Hl, rev_involutive, lstrip_by_idem. reflexivity.
Qed.

(* Parser optimisation merges adjacent strings (mkseq): a tuple without two adjacent strings is left as it is *)
Definition is_nstr (x : node) : bool := match x with NStr _ => true | _ => false end.
Definition hd_nstr (l : list node) : bool := match l with x :: _ => is_nstr x | [] => false end.
Fixpoint nadjb (l : list node) : bool :=
  match l with
  | [] => true
  | x :: r => negb (is_nstr x && hd_nstr r) && nadjb r
  end.

Lemma merge_nadj l : nadjb l = true -> merge_strs l = l.
Proof.
  induction l as [|x r IH]; intros H; [reflexivity|].
  cbn [nadjb] in H. apply andb_true_iff in H as [H1 H2]. specialize (IH H2).
  destruct x; cbn [merge_strs]; rewrite ?IH; try reflexivity.
  cbn [is_nstr andb] in H1. apply negb_true_iff in H1.
  destruct r as [|y r']; [reflexivity|]. destruct y; try reflexivity. discriminate.
Qed.

Lemma merge_noeq l : Forall (fun n => is_eq n = false) l -> Forall (fun n => is_eq n = false) (merge_strs l).
Proof.
  induction 1 as [|x l Hx Hl IH]; [constructor|].
  destruct x; cbn [merge_strs]; try (constructor; assumption).
  destruct (merge_strs l) as [|[] r]; try (constructor; [reflexivity|assumption]).
  inversion IH; subst. constructor; [reflexivity|assumption].
Qed.

Lemma merge_app_eq a b : merge_strs (a ++ NEq :: b) = merge_strs a ++ NEq :: merge_strs b.
Proof.
  induction a as [|x a IH]; [reflexivity|]. cbn [app].
  destruct x; cbn [merge_strs]; rewrite IH; try reflexivity.
  destruct (merge_strs a) as [|[] r]; reflexivity.
Qed.

Lemma mkseq_seq l : (2 <= length l)%nat -> merge_strs l = l -> mkseq l = NSeq l.
Proof. intros Hlen H. unfold mkseq. rewrite H. destruct l as [|x [|y r]]; cbn [length] in Hlen; [lia|lia|reflexivity]. Qed.

Lemma merge_named_arg k l : merge_strs l = l -> merge_strs (NStr k :: NEq :: l) = NStr k :: NEq :: l.
Proof. intros H. cbn [merge_strs]. rewrite H. reflexivity. Qed.

Lemma split_eq_noeq l : Forall (fun n => is_eq n = false) l -> split_eq l = None.
Proof. induction 1 as [|x l Hx Hl IH]; [reflexivity|]. cbn [split_eq]. rewrite Hx, IH. reflexivity. Qed.

Lemma split_eq_app a b : Forall (fun n => is_eq n = false) a -> split_eq (a ++ NEq :: b) = Some (a, b).
Proof.
  induction 1 as [|x a Hx Ha IH]; [reflexivity|]. cbn [app split_eq]. rewrite Hx, IH. reflexivity.
Qed.

Definition notseq (x : node) : Prop := match x with NSeq _ => False | _ => True end.

Lemma equal_split_notseq x : notseq x -> equal_split x = (None, x).
Proof. destruct x; intros H; try reflexivity. contradiction. Qed.

Lemma equal_split_mkseq l :
  merge_strs l = l -> Forall notseq l -> Forall (fun n => is_eq n = false) l -> equal_split (mkseq l) = (None, mkseq l).
Proof.
  intros Hm Hns Hne. unfold mkseq. rewrite Hm. destruct l as [|x [|y r]].
  - reflexivity.
  - inversion Hns; subst. apply equal_split_notseq. assumption.
  - unfold equal_split. rewrite split_eq_noeq by exact Hne. reflexivity.
Qed.

(* insert_implicit_newlines leaves a list of pieces alone when no text in it can begin a list item or a table: Q is any
   class of such texts that is closed under concatenation *)
Section Quiet.
  Variable Q : str -> Prop.
  Hypothesis Q_nil : Q [].
  Hypothesis Q_app : forall a b, Q a -> Q b -> Q (a ++ b).
  Hypothesis Q_quiet : forall t, Q t -> implicit_nl t = false.
  Definition quiet (p : piece) : Prop := Q (piece_str p).

  Lemma nl_decision_quiet rest : Forall quiet rest -> nl_decision rest = false.
  Proof.
    intros H. unfold nl_decision.
    assert (H1 : quiet (next1 rest)) by (destruct H; [exact Q_nil|assumption]).
    assert (H2 : quiet (next2 rest)).
    { destruct H as [|x l Hx Hl]; [exact Q_nil|]. destruct Hl; [exact Q_nil|assumption]. }
    destruct (is_mark (next1 rest)); [reflexivity|].
    destruct (2 <=? length (piece_str (next1 rest)))%nat; apply Q_quiet; [exact H1|apply Q_app; assumption].
  Qed.

  Lemma inl_quiet ps : Forall quiet ps -> forall i0 p, inl i0 p ps = ps.
  Proof.
    induction 1 as [|x l Hx Hl IH]; intros i0 p; cbn [inl]; [reflexivity|].
    destruct x; try (rewrite IH; reflexivity).
    destruct (negb i0 && p); [rewrite IH; reflexivity|].
    rewrite nl_decision_quiet by exact Hl. rewrite IH. reflexivity.
  Qed.

  Lemma join_nl_quiet ps : Forall quiet ps -> join_nl ps = pjoin ps.
  Proof. intros H. unfold join_nl. rewrite inl_quiet by exact H. reflexivity. Qed.

  Lemma expand_quiet tpl is_magic magic_prog dn limit page ps :
    flatten tpl is_magic magic_prog dn (S limit) 0 page ETop = Ok ps -> Forall quiet ps ->
    expand tpl is_magic magic_prog dn limit page = Ok (pjoin ps).
  Proof. intros H Hq. unfold expand. rewrite H. cbn [inl piece_str tl]. rewrite inl_quiet by exact Hq. reflexivity. Qed.
End Quiet.

(* non-vacuity / sanity: a self-recursive universe a = "x{{a}}", page "1{{a}}2{{b}}" with b missing *)
Definition ex_tpl (name : str) : option node :=
  if str_eqb name [97%N] then Some (NSeq [NStr [120%N]; NTpl (NStr [97%N]) []]) else None.
Definition ex_page : node := NSeq [NStr [49%N]; NTpl (NStr [97%N]) []; NStr [50%N]; NTpl (NStr [98%N]) []].

Lemma example_cycle :
  expand ex_tpl (fun _ => false) (fun _ _ => MDone []) [default_key] 100 ex_page = Ok [49; 50]%N.
Proof. vm_compute. reflexivity. Qed.
