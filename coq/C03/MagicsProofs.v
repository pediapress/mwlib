(* C03 — lemmas about the generated dispatch table, the output-size models (padleft / padright / titleparts), the cost nest_cost of
   self-nested calls that read an argument r times, and the size classes of the generated #expr operators. *)
From Coq Require Import List NArith ZArith Bool Lia Arith.
From MW Require Import Common.Str C03.Magics C03.Gen_magics.
Import ListNotations.

Lemma forallb_In {A} (f : A -> bool) (l : list A) :
  forallb f l = true -> forall x, In x l -> f x = true.
Proof. intros H x Hx. rewrite forallb_forall in H. apply H. exact Hx. Qed.

(* every entry of the generated table accepts method_to_invoke(args) *)
Lemma dispatch_total_b : forallb accepts_args_call all_magics = true.
Proof. vm_compute. reflexivity. Qed.

Lemma names_distinct_NoDup (l : list str) : names_distinct l = true -> NoDup l.
Proof.
  induction l as [|x r IH]; cbn; intros H; [constructor|].
  apply andb_true_iff in H. destruct H as [Hx Hr].
  constructor; [|apply IH; exact Hr].
  intros Hin. apply negb_true_iff in Hx.
  assert (existsb (str_eqb x) r = true) as E.
  { apply existsb_exists. exists x. split; [exact Hin|apply str_eqb_refl]. }
  congruence.
Qed.

Lemma registry_total_b : forallb reg_ok magic_registry = true.
Proof. vm_compute. reflexivity. Qed.

Lemma registry_names_unique : NoDup (map r_name magic_registry).
Proof. apply names_distinct_NoDup. vm_compute. reflexivity. Qed.

(* every dummy name is an entry of the table *)
Lemma dummies_in_table_b :
  forallb (fun n => existsb (fun m => str_eqb n (m_name m)) all_magics) dummy_names = true.
Proof. vm_compute. reflexivity. Qed.

(* Cost of k self-nested calls {{f:a|{{f:a|...}}}} when every level reads (= re-expands, ArgumentList.get caches nothing) the
   argument holding the next level r times: expansions(r, k). *)
Fixpoint nest_cost (r k : nat) : nat :=
  match k with
  | O => 1
  | S k' => 1 + r * nest_cost r k'
  end.

Lemma nest_cost_once k : nest_cost 1 k = k + 1.
Proof. induction k as [|k IH]; cbn [nest_cost]; [reflexivity|]. rewrite IH. lia. Qed.

Lemma nest_cost_twice k : nest_cost 2 k + 1 = 2 ^ (k + 1).
Proof.
  induction k as [|k IH]; cbn [nest_cost]; [reflexivity|].
  replace (S k + 1) with (S (k + 1)) by lia. rewrite Nat.pow_succ_r'. lia.
Qed.

Lemma nest_cost_mono r r' k : r <= r' -> nest_cost r k <= nest_cost r' k.
Proof.
  intros H. induction k as [|k IH]; cbn [nest_cost]; [lia|].
  apply le_n_S. apply Nat.mul_le_mono; assumption.
Qed.

Lemma nest_cost_exponential r k : 2 <= r -> 2 ^ (k + 1) <= nest_cost r k + 1.
Proof. intros H. rewrite <- nest_cost_twice. pose proof (nest_cost_mono 2 r k H). lia. Qed.

(* every registered #expr callable belongs to a size class for which ExprSizeProofs.size_linear holds (none is the exact power) *)
Lemma expr_classes_generated :
  length gen_expr_classes = gen_expr_operators /\
  forallb (fun p : str * ExprSizeModel.ecls => ExprSizeModel.linear_cls (snd p)) gen_expr_classes = true.
Proof. split; vm_compute; reflexivity. Qed.

(* the generic binding rule is what one expects (non-vacuity of `accepts`) *)
Lemma accepts_examples :
  (* a plain def f(self, args) called bound with one argument *)
  accepts [] (mkSig 2 2 false) 2 = true /\
  (* a def f(self) without @no_arg called bound with one argument: TypeError (the defect fixed by a8599e6) *)
  accepts [] (mkSig 1 1 false) 2 = false /\
  (* the same def under @no_arg *)
  accepts [mkDeco (mkSig 1 1 true) (Fixed 1)] (mkSig 1 1 false) 2 = true /\
  (* def resolve() installed on the class and called bound with one argument: TypeError *)
  accepts [] (mkSig 0 0 false) 2 = false /\
  (* def resolve( *args ) *)
  accepts [] (mkSig 0 0 true) 2 = true.
Proof. vm_compute. repeat split. Qed.

Lemma cycle_fill_length fill k : length (cycle_fill fill k) = k.
Proof. unfold cycle_fill. rewrite map_length, seq_length. reflexivity. Qed.

Lemma pad_count_bound w len : pad_count w len + len <= Nat.max len 500.
Proof. unfold pad_count, pad_cap. lia. Qed.

Lemma padleft_length_max s w fill : length (padleft s w fill) <= Nat.max (length s) 500.
Proof.
  destruct w as [w|]; cbn [padleft]; [|lia].
  rewrite app_length, cycle_fill_length. apply pad_count_bound.
Qed.

Lemma padright_length_max s w fill : length (padright s w fill) <= Nat.max (length s) 500.
Proof.
  destruct w as [w|]; cbn [padright]; [|lia].
  rewrite app_length, cycle_fill_length. pose proof (pad_count_bound w (length s)). lia.
Qed.

(* exact length when a width is given: max(len(s), min(w, 500)) *)
Lemma padleft_length_exact s w fill :
  Z.of_nat (length (padleft s (Some w) fill)) = Z.max (Z.of_nat (length s)) (Z.min w 500).
Proof. cbn [padleft]. rewrite app_length, cycle_fill_length. unfold pad_count, pad_cap. lia. Qed.

(* the original string is kept: padleft ends with s, padright starts with s *)
Lemma padleft_keeps s w fill : exists p, padleft s w fill = p ++ s.
Proof. destruct w; cbn [padleft]; [eexists; reflexivity|exists []; reflexivity]. Qed.

Lemma join_cons_length c x l : length (join c l) <= length (join c (x :: l)).
Proof.
  destruct l as [|y l]; [cbn; lia|].
  change (join c (x :: y :: l)) with (x ++ c :: join c (y :: l)).
  rewrite app_length. cbn [length]. lia.
Qed.

Lemma join_skipn_length c k l : length (join c (skipn k l)) <= length (join c l).
Proof.
  revert l. induction k as [|k IH]; intros l; [cbn; lia|].
  destruct l as [|x l]; [cbn; lia|].
  cbn [skipn]. etransitivity; [apply IH|apply join_cons_length].
Qed.

Lemma join_cons_mono c x a b :
  length (join c a) <= length (join c b) -> (b = [] -> a = []) -> length (join c (x :: a)) <= length (join c (x :: b)).
Proof.
  intros H Hb. destruct a as [|y a]; [|destruct b as [|z b]; [discriminate (Hb eq_refl)|]].
  - destruct b as [|z b]; [lia|]. change (join c (x :: z :: b)) with (x ++ c :: join c (z :: b)). rewrite app_length. cbn [join]. lia.
  - change (join c (x :: y :: a)) with (x ++ c :: join c (y :: a)). change (join c (x :: z :: b)) with (x ++ c :: join c (z :: b)).
    rewrite !app_length. cbn [length]. lia.
Qed.

Lemma join_firstn_length c k l : length (join c (firstn k l)) <= length (join c l).
Proof.
  revert l. induction k as [|k IH]; intros l; [cbn; lia|].
  destruct l as [|x l]; [cbn; lia|].
  cbn [firstn]. apply join_cons_mono; [apply IH|intros ->; apply firstn_nil].
Qed.

Lemma py_from_join_length c a l : length (join c (py_from a l)) <= length (join c l).
Proof. unfold py_from. destruct (0 <=? a)%Z; apply join_skipn_length. Qed.

Lemma py_upto_join_length c b l : length (join c (py_upto b l)) <= length (join c l).
Proof. unfold py_upto. destruct (0 <=? b)%Z; apply join_firstn_length. Qed.

Lemma titleparts_bounded title numseg start :
  length (titleparts title numseg start) <= length title.
Proof.
  unfold titleparts.
  assert (length (join slash (split_on slash title)) = length title) as E
    by (rewrite join_split_on; reflexivity).
  rewrite <- E. clear E.
  set (st := if (0 <? start)%Z then (start - 1)%Z else start).
  destruct (numseg =? 0)%Z.
  - apply py_from_join_length.
  - etransitivity; [apply py_upto_join_length|apply py_from_join_length].
Qed.

(* non-vacuity: concrete runs of the models *)
Lemma size_examples :
  (* {{padleft:x|5|ab}} = "ababx" ; {{padright:x|3000000}} has length 500 ; {{padleft:xyz|-3}} = "xyz" *)
  padleft [120]%N (Some 5%Z) [97; 98]%N = [97; 98; 97; 98; 120]%N /\
  length (padright [120]%N (Some 3000000%Z) []) = 500 /\
  padleft [120; 121; 122]%N (Some (-3)%Z) [] = [120; 121; 122]%N /\
  (* {{#titleparts:a/b/c|1|2}} = "b" ; {{#titleparts:a/b/c|-1|0}} = "a/b" ; {{#titleparts:a/b/c|0|-1}} = "c" *)
  titleparts [97; 47; 98; 47; 99]%N 1 2 = [98]%N /\
  titleparts [97; 47; 98; 47; 99]%N (-1) 0 = [97; 47; 98]%N /\
  titleparts [97; 47; 98; 47; 99]%N 0 (-1) = [99]%N.
Proof. vm_compute. repeat split. Qed.
