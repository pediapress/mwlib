(* C03 — what the exception-propagation discipline buys in WORK: an abstract cost argument.

   Abstraction of evaluate.flatten (evaluate.pyx:15-47) + `for x in node: flatten(x, ..)`: an evaluation is a tree walk
   in which an item is a leaf (text) or a call whose body is looked up in the universe (`body`, any function: cycles
   allowed); a call costs one unit of the nesting budget `b` (the recursion limit); at budget 0 a call raises
   TemplateRecursion.  `run` is the discipline proved of the model in ProofsLazy.v (flat_list_first_error,
   flatten_reraises; Properties.v C03_sequence_stops_at_first_error, C03_magic_call_propagates): the first failing child ends
   its parent.  `run_sw` is the evaluator with a handler
   around each child (what `try: method_to_invoke(args) except Exception` in MagicResolver.__call__ amounts to, or an
   argument fetch inside `try .. except Exception` in a magic): a failing child yields nothing and the next sibling is
   evaluated.  Cost = number of items visited.

   THEOREMS.  (1) `fail_linear`: with the discipline, a run that hits the limit visits at most
   (b + 1) * (w * K + 1) items, where w bounds the length of a body and K the cost of the SUCCESSFUL sub-runs (those
   that never reach the limit): linear in the recursion limit.  (2) On the universe A = x{{A}}{{A}} the disciplined run
   visits exactly 2b + 1 items, the swallowing one 3 * 2^b - 2: exponential in the limit.
   No bound polynomial in the limit holds for the successful runs themselves (Properties.v
   C03_cost_polynomial_refuted: an acyclic doubling chain), which is why K appears in (1). *)
From Coq Require Import List Arith Lia Bool.
Import ListNotations.

Inductive item := Leaf | Call (f : nat).

Section Abstract.
  Variable body : nat -> list item.

  (* children in order; the first failure ends the loop (first component: did every child succeed?) *)
  Fixpoint run_list (ev : item -> bool * nat) (l : list item) : bool * nat :=
    match l with
    | [] => (true, 0)
    | x :: r => let '(ok, n) := ev x in
                if ok then let '(ok', m) := run_list ev r in (ok', n + m) else (false, n)
    end.

  Fixpoint run (b : nat) (it : item) : bool * nat :=
    match it with
    | Leaf => (true, 1)
    | Call f => match b with
                | O => (false, 1)
                | S b' => let '(ok, n) := run_list (run b') (body f) in (ok, S n)
                end
    end.

  (* the same with a handler around every child: failures are swallowed, all siblings are evaluated *)
  Fixpoint sum_list (ev : item -> nat) (l : list item) : nat :=
    match l with [] => 0 | x :: r => ev x + sum_list ev r end.

  Fixpoint run_sw (b : nat) (it : item) : nat :=
    match it with
    | Leaf => 1
    | Call f => match b with
                | O => 1
                | S b' => S (sum_list (run_sw b') (body f))
                end
    end.

  Section Bound.
    Variables w K : nat.
    Hypothesis Hw : forall f, length (body f) <= w.
    (* every run that does not reach the limit costs at most K *)
    Hypothesis HK : forall b it n, run b it = (true, n) -> n <= K.

    Lemma run_list_fail_bound (ev : item -> bool * nat) (F : nat) (l : list item) (m : nat) :
      (forall x n, ev x = (true, n) -> n <= K) ->
      (forall x n, ev x = (false, n) -> n <= F) ->
      run_list ev l = (false, m) -> m <= length l * K + F.
    Proof.
      intros Hok Hfail. revert m. induction l as [|x r IH]; intros m H; cbn [run_list] in H; [discriminate|].
      destruct (ev x) as [ok n] eqn:Ex. destruct ok.
      - destruct (run_list ev r) as [ok' m'] eqn:Er. inversion H; subst.
        specialize (IH m' eq_refl). pose proof (Hok x n Ex). cbn [length]. lia.
      - inversion H; subst. pose proof (Hfail x m Ex). cbn [length]. lia.
    Qed.

    Lemma fail_linear b : forall it n, run b it = (false, n) -> n <= (b + 1) * (w * K + 1).
    Proof.
      induction b as [|b IH]; intros it n H.
      - destruct it as [|f]; cbn [run] in H; [discriminate|]. inversion H; subst. lia.
      - destruct it as [|f]; cbn [run] in H; [discriminate|].
        destruct (run_list (run b) (body f)) as [ok m] eqn:El. inversion H; subst.
        pose proof (run_list_fail_bound (run b) ((b + 1) * (w * K + 1)) (body f) m (HK b) IH El) as Hm.
        pose proof (Hw f) as Hlen.
        assert (length (body f) * K <= w * K) by (apply Nat.mul_le_mono_r; exact Hlen).
        replace ((S b + 1) * (w * K + 1)) with ((b + 1) * (w * K + 1) + (w * K + 1)) by lia.
        lia.
    Qed.
  End Bound.
End Abstract.

Definition body_xAA (_ : nat) : list item := [Leaf; Call 0; Call 0].

Lemma run_leaf body b : run body b Leaf = (true, 1).
Proof. destruct b; reflexivity. Qed.

Lemma run_call_S body b f :
  run body (S b) (Call f) = let '(ok, n) := run_list (run body b) (body f) in (ok, S n).
Proof. reflexivity. Qed.

Lemma run_sw_leaf body b : run_sw body b Leaf = 1.
Proof. destruct b; reflexivity. Qed.

Lemma run_sw_call_S body b f : run_sw body (S b) (Call f) = S (sum_list (run_sw body b) (body f)).
Proof. reflexivity. Qed.

(* with the discipline: one dive, 2b + 1 visits, and the run fails (the top level then yields nothing) *)
Lemma xAA_disciplined b : run body_xAA b (Call 0) = (false, 2 * b + 1).
Proof.
  induction b as [|b IH]; [reflexivity|].
  rewrite run_call_S. unfold body_xAA at 2. cbn [run_list]. rewrite run_leaf, IH. f_equal. lia.
Qed.

(* with a handler around each child: 3 * 2^b - 2 visits *)
Lemma xAA_swallowing b : run_sw body_xAA b (Call 0) + 2 = 3 * 2 ^ b.
Proof.
  induction b as [|b IH]; [reflexivity|].
  rewrite run_sw_call_S. unfold body_xAA at 2. cbn [sum_list]. rewrite run_sw_leaf, Nat.pow_succ_r'. lia.
Qed.

(* the general bound is not vacuous: on this universe w = 3 and K = 1 (only leaves succeed) *)
Lemma xAA_success_is_leaf b : forall it n, run body_xAA b it = (true, n) -> n <= 1.
Proof.
  intros it n H. destruct it as [|f]; [rewrite run_leaf in H; inversion H; lia|].
  destruct b as [|b]; [discriminate|].
  rewrite run_call_S in H. unfold body_xAA at 2 in H. cbn [run_list] in H.
  rewrite run_leaf, xAA_disciplined in H. discriminate.
Qed.

Lemma xAA_bound_instance b n : run body_xAA b (Call 0) = (false, n) -> n <= (b + 1) * (3 * 1 + 1).
Proof.
  apply (fail_linear body_xAA 3 1).
  - intros f. cbn. lia.
  - exact xAA_success_is_leaf.
Qed.
