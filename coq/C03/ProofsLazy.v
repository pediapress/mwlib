(* C03 — the exception-propagation discipline of the evaluator: TemplateRecursion (and MemoryLimitError) raised while a
   lazily expanded argument of a magic word / parser function is flattened passes through the magic call unchanged, and
   through every enclosing flatten call with recursion_count > 2.  That is what makes one "dive" to the recursion limit
   the LAST thing a top-level element does: nothing to the right of the failing call is evaluated any more, at any level.
   (With a handler that swallows the exception at the magic call, every level would go on with its next sibling and dive
   again: work 2^(limit/3) for  A = {{#ifexpr: 1 | x{{A}}{{A}} }}.)
   Then that template A and its variants run on the model, and `doubling_chain`: an acyclic universe whose work is exponential
   in its size without ever reaching the limit. *)
From Coq Require Import List NArith ZArith Bool Lia.
From MW Require Import Common.Str C03.Model C03.Proofs.
Import ListNotations.

Section Lazy.
  Variable tpl : str -> option node.
  Variable is_magic : str -> bool.
  Variable magic_prog : str -> nat -> mreq.
  Variable default_names : list str.

  Notation flatten := (flatten tpl is_magic magic_prog default_names).
  Notation node_body := (node_body tpl is_magic magic_prog default_names).

  Lemma run_magic_fetch_ok (fl : flat) e args i k a s :
    nth_error args i = Some a -> arg_int fl e a = Ok s -> run_magic fl e args (MAsk i k) = run_magic fl e args (k s).
  Proof. intros Ha Hs. cbn [run_magic]. rewrite Ha, Hs. reflexivity. Qed.

  Lemma run_magic_fetch_missing (fl : flat) e args i k :
    nth_error args i = None -> run_magic fl e args (MAsk i k) = run_magic fl e args (k []).
  Proof. intros Ha. cbn [run_magic]. rewrite Ha. reflexivity. Qed.

  (* an argument that is fetched by flattening raises exactly what its flatten raises *)
  Lemma arg_int_raises (fl : flat) e a x :
    node_as_str a = None -> fl a e = Err x -> arg_int fl e a = Err x.
  Proof. intros Ha Hx. unfold arg_int. rewrite Ha, Hx. reflexivity. Qed.

  (* 256 KiB cap on a parameter value fetched by name / position (ArgumentList.get, evaluate.pyx:139-155): beyond it
     MemoryLimitError voids the {{{parameter}}} node *)
  Lemma value_of_too_long (fl : flat) (ds : bool) val parent ps :
    node_as_str val = None -> fl val parent = Ok ps ->
    too_long (if ds then strip (join_nl ps) else join_nl ps) = true ->
    value_of fl ds val parent = Err XMem.
  Proof. unfold value_of. intros Hv Hf Ht. rewrite Hv, Hf, Ht. reflexivity. Qed.

  (* evaluate.flatten re-raises TemplateRecursion whenever recursion_count > 2 after the increment (evaluate.pyx:34-36) *)
  Lemma flatten_reraises b c n e :
    (2 <= c)%nat -> node_as_str n = None ->
    node_body (flatten b (S c)) (flatten b (S c)) n e = Err XRec ->
    flatten (S b) c n e = Err XRec.
  Proof.
    intros Hc Hn H. rewrite flatten_step by exact Hn. rewrite H.
    destruct (Nat.ltb_spec 2 (S c)) as [_|Hlt]; [reflexivity|lia].
  Qed.

  (* nothing to the right of the failing element is evaluated: `for x in node: flatten(x, ...)` *)
  Lemma flat_list_stops (fl : flat) e l1 x l2 l2' er :
    fl x e = Err er -> flat_list fl e (l1 ++ x :: l2) = flat_list fl e (l1 ++ x :: l2').
  Proof.
    intros Hx. induction l1 as [|y l1 IH]; cbn [app flat_list].
    - rewrite Hx. reflexivity.
    - destruct (fl y e) as [ps|er']; [rewrite IH; reflexivity|reflexivity].
  Qed.

  Lemma flat_list_first_error (fl : flat) e l1 x l2 er :
    (forall y, In y l1 -> exists ps, fl y e = Ok ps) -> fl x e = Err er ->
    flat_list fl e (l1 ++ x :: l2) = Err er.
  Proof.
    intros Hok Hx. induction l1 as [|y l1 IH]; cbn [app flat_list].
    - rewrite Hx. reflexivity.
    - destruct (Hok y (or_introl eq_refl)) as [ps Hy]. rewrite Hy.
      rewrite IH; [reflexivity|]. intros z Hz. apply Hok. right. exact Hz.
  Qed.
End Lazy.

(* #ifexpr-like strategy: fetch argument 0; if it is "1" fetch and return argument 1 else argument 2 *)
Definition ex_ifexpr : mreq :=
  MAsk 0 (fun c => if str_eqb c [49%N] then MAsk 1 (fun s => MDone s) else MAsk 2 (fun s => MDone s)).
Definition ex_lazy_is_magic (name : str) : bool := str_eqb name [35; 105; 102; 101; 120; 112; 114]%N.     (* "#ifexpr" *)
Definition ex_lazy_prog (_ : str) (_ : nat) : mreq := ex_ifexpr.
(* Template:A = {{#ifexpr|1|x{{A}}{{A}}}} (as parsed: name "#ifexpr", arguments "1" and the sequence x {{A}} {{A}}) *)
Definition ex_A : node :=
  NTpl (NStr [35; 105; 102; 101; 120; 112; 114]%N)
       [NStr [49%N]; NSeq [NStr [120%N]; NTpl (NStr [97%N]) []; NTpl (NStr [97%N]) []]].
Definition ex_lazy_tpl (name : str) : option node := if str_eqb name [97%N] then Some ex_A else None.
(* page "s {{A}} e" *)
Definition ex_lazy_page : node := NSeq [NStr [115; 32]%N; NTpl (NStr [97%N]) []; NStr [32; 101]%N].

(* the whole call yields nothing ("s  e"), for the default limit and for small ones *)
Lemma example_lazy_recursion :
  expand ex_lazy_tpl ex_lazy_is_magic ex_lazy_prog [default_key] 100 ex_lazy_page = Ok [115; 32; 32; 101]%N /\
  expand ex_lazy_tpl ex_lazy_is_magic ex_lazy_prog [default_key] 7 ex_lazy_page = Ok [115; 32; 32; 101]%N.
Proof. vm_compute. split; reflexivity. Qed.

(* the untaken branch is never flattened: {{#ifexpr|0|x{{A}}{{A}}|n}} inside A terminates with output *)
Definition ex_A0 : node :=
  NTpl (NStr [35; 105; 102; 101; 120; 112; 114]%N)
       [NStr [48%N]; NSeq [NStr [120%N]; NTpl (NStr [97%N]) []; NTpl (NStr [97%N]) []]; NStr [110%N]].
Lemma example_lazy_untaken :
  expand (fun name => if str_eqb name [97%N] then Some ex_A0 else None) ex_lazy_is_magic ex_lazy_prog [default_key] 100 ex_lazy_page
  = Ok [115; 32; 110; 32; 101]%N.
Proof. vm_compute. reflexivity. Qed.

(* Total work is NOT polynomial in the limit.
   An ACYCLIC chain T_i = {{T_(i+1)}}{{T_(i+1)}} (i < k), T_k = "x": k+1 templates of two calls each never reach the
   recursion limit (2k+1 nested flatten calls of the model) and produce 2^k characters.  So no bound on the number of node visits that is
   polynomial in (page size, universe size, limit) holds for the model - nor for the code: the bounded quantity is the
   NESTING (C03_nesting_bounded), and the number of limit hits per top-level element (one: flatten_reraises and
   flat_list_first_error above). *)
Definition chain_tpl (k : N) (name : str) : option node :=
  match name with
  | [c] => if (c <? 65 + k)%N && (65 <=? c)%N
           then Some (NSeq [NTpl (NStr [(c + 1)%N]) []; NTpl (NStr [(c + 1)%N]) []])
           else if (c =? 65 + k)%N then Some (NStr [120%N]) else None
  | _ => None
  end.

Definition xs (s : str) : Prop := Forall (eq 120%N) s.

Lemma xs_app a b : xs a -> xs b -> xs (a ++ b).
Proof. intros Ha Hb. apply Forall_app. split; assumption. Qed.

Lemma xs_quiet t : xs t -> implicit_nl t = false.
Proof. destruct 1 as [|c r <- _]; reflexivity. Qed.

Lemma chain_tpl_last k : chain_tpl (N.of_nat k) [N.of_nat (65 + k)] = Some (NStr [120%N]).
Proof.
  unfold chain_tpl. replace (N.of_nat (65 + k) <? 65 + N.of_nat k)%N with false by (symmetry; apply N.ltb_ge; lia).
  cbn [andb]. replace (N.of_nat (65 + k) =? 65 + N.of_nat k)%N with true by (symmetry; apply N.eqb_eq; lia). reflexivity.
Qed.

Lemma chain_tpl_link k i : i < k ->
  chain_tpl (N.of_nat k) [N.of_nat (65 + i)] = Some (NSeq [NTpl (NStr [N.of_nat (65 + S i)]) []; NTpl (NStr [N.of_nat (65 + S i)]) []]).
Proof.
  intros Hi. unfold chain_tpl. replace (N.of_nat (65 + i) <? 65 + N.of_nat k)%N with true by (symmetry; apply N.ltb_lt; lia).
  replace (65 <=? N.of_nat (65 + i))%N with true by (symmetry; apply N.leb_le; lia).
  replace (N.of_nat (65 + i) + 1)%N with (N.of_nat (65 + S i)) by lia. reflexivity.
Qed.

Section Chain.
  Variable k : nat.
  (* the names are the single code points 65 .. 65 + k; a template name is stripped, and below U+0085 = 133 none of them is
     white space (graphic_not_ws) *)
  Hypothesis Hk : k < 68.
  Notation FL := (flatten (chain_tpl (N.of_nat k)) (fun _ => false) (fun _ _ => MDone []) [default_key]).

  Lemma chain_tpl_call i b c e p :
    i <= k -> chain_tpl (N.of_nat k) [N.of_nat (65 + i)] = Some p -> truthy p = true ->
    FL (S b) c (NTpl (NStr [N.of_nat (65 + i)]) []) e =
    match FL b (S c) p (EArgs [] e) with
    | Ok qs => Ok (PMark :: PMaybeNL :: qs ++ [PMark])
    | Err XRec => if (2 <? S c)%nat then Err XRec else Ok []
    | Err XMem => Ok []
    end.
  Proof.
    intros Hi Hp Ht.
    assert (Hname : strip [N.of_nat (65 + i)] = [N.of_nat (65 + i)]).
    { unfold strip, strip_by. cbn [lstrip_by rev app]. rewrite graphic_not_ws by lia.
      cbn [lstrip_by rev app]. rewrite graphic_not_ws by lia. reflexivity. }
    rewrite (flatten_call _ _ _ _ b c _ [] e p Hname eq_refl eq_refl Hp), Ht. reflexivity.
  Qed.

  (* T_i with d links below it: every link doubles the output and takes two units of nesting (the call and its body) *)
  Lemma chain_call d : forall i b c e,
    i + d = k -> 2 * d + 1 <= b ->
    exists ps, FL b c (NTpl (NStr [N.of_nat (65 + i)]) []) e = Ok ps /\ Forall (quiet xs) ps /\ length (pjoin ps) = 2 ^ d.
  Proof.
    induction d as [|d IH]; intros i b c e Hi Hb.
    - (* T_k = "x" *)
      destruct b as [|b]; [lia|]. replace i with k by lia.
      rewrite (chain_tpl_call k b c e _ (le_n k) (chain_tpl_last k) eq_refl).
      rewrite (flatten_str _ _ _ _ b (S c) (NStr [120%N]) _ _ eq_refl). eexists. split; [reflexivity|].
      split; [|reflexivity]. repeat constructor.
    - (* T_i = {{T_(i+1)}}{{T_(i+1)}} *)
      destruct b as [|[|b]]; [lia|lia|].
      destruct (IH (S i) b (S (S c)) (EArgs [] e)) as (ps & H1 & H2 & H3); [lia|lia|].
      rewrite (chain_tpl_call i (S b) c e _ ltac:(lia) (chain_tpl_link k i ltac:(lia)) eq_refl).
      rewrite (flatten_step_ok _ _ _ _ b (S c) _ _ (ps ++ ps)) by (try reflexivity; cbn [node_body flat_list]; rewrite H1, app_nil_r; reflexivity).
      eexists. split; [reflexivity|]. split.
      + constructor; [constructor|]. constructor; [constructor|]. apply Forall_app. split; [|repeat constructor].
        apply Forall_app. split; assumption.
      + rewrite pjoin_call, pjoin_app, app_length, H3. cbn [Nat.pow]. lia.
  Qed.

  (* k links below the recursion limit: 2^k characters from k + 1 templates of two calls each *)
  Lemma doubling_chain limit :
    2 * k <= limit ->
    exists s, expand (chain_tpl (N.of_nat k)) (fun _ => false) (fun _ _ => MDone []) [default_key] limit (NTpl (NStr [65%N]) []) = Ok s /\ length s = 2 ^ k.
  Proof.
    intros Hl. destruct (chain_call k 0 (S limit) 0 ETop) as (ps & H1 & H2 & H3); [lia|lia|].
    exists (pjoin ps). split; [|exact H3].
    apply (expand_quiet xs (Forall_nil _) xs_app xs_quiet); assumption.
  Qed.
End Chain.
