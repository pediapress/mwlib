(* C03 — property theorems about the SIZE of the values an #expr / #ifexpr evaluation builds ("a number written in the
   wikitext cannot buy unbounded CPU time": every operator of expr.py works in time polynomial in the size of its operands,
   so it suffices that no intermediate value is larger than the text allows).  Each theorem is followed by Print Assumptions. *)
From Coq Require Import ZArith List Bool.
From MW Require Import Common.Str C03.ExprSizeModel C03.ExprSizeProofs C03.Magics C03.Gen_magics C03.MagicsProofs.
Import ListNotations.
Local Open Scope Z_scope.

(* For every expression tree (any shape, any depth, any chain) whose operators belong to the reviewed size classes and
   whose integer literals fit their declared sizes, EVERY value the evaluation can produce - under the relational
   specification of Python's arithmetic in ExprSizeModel.v: exact integers, floats of constant size, int(float) below
   2^1024, |a mod b| < |b|, round to a multiple of 10^k within 10^k/2 - fits in
        (bits of the literals) + 1025 * (number of operators)
   bits: linear in the length of the text.  (Sub-expressions are expressions: the bound holds for every intermediate value.) *)
Theorem C03_expr_value_size_linear :
  forall e v, ev e v -> wfe e -> linear e = true ->
  0 <= size_bound e /\ fits (size_bound e) v /\ size_bound e = lit_bits e + 1025 * ops e.
Proof. intros e v H1 H2 H3. destruct (size_linear e v H1 H2 H3) as [A B]. split; [exact A|]. split; [exact B|reflexivity]. Qed.
Print Assumptions C03_expr_value_size_linear.

(* The callables registered in /repo's expr.py (Gen_magics.v, regenerated on every run; texts pinned by the translator) all
   belong to those classes: one class per registered operator, none of them the exact integer power. *)
Theorem C03_expr_registered_operators_are_size_linear :
  length gen_expr_classes = gen_expr_operators /\
  forallb (fun p : str * ecls => linear_cls (snd p)) gen_expr_classes = true.
Proof. exact expr_classes_generated. Qed.
Print Assumptions C03_expr_registered_operators_are_size_linear.

(* REFUTED for an exact integer power (`base ** exponent` for integers with 0 <= exponent <= 64, seeded regression C03-4):
   the left-associative chain 9^64^64...^64 with k >= 2 links is well-formed, evaluates to 9^(64^k), its linear bound is
   4 + 1032 k bits, and the value does not fit: it has more than 3 * 64^k bits (k = 5, a 26-character #expr: > 3.2e9 bits). *)
Theorem C03_expr_exact_power_refuted :
  forall k : nat, (2 <= k)%nat ->
  ev (pow_chain k) (VI (9 ^ (64 ^ Z.of_nat k))) /\ wfe (pow_chain k) /\
  size_bound (pow_chain k) = 4 + 1032 * Z.of_nat k /\
  ~ fits (size_bound (pow_chain k)) (VI (9 ^ (64 ^ Z.of_nat k))) /\
  2 ^ (3 * 64 ^ Z.of_nat k) <= 9 ^ (64 ^ Z.of_nat k).
Proof. exact pow_exact_refuted. Qed.
Print Assumptions C03_expr_exact_power_refuted.

(* non-vacuity: (2 * 3 + 4) mod 7 evaluates to 3, is well-formed and linear; its bound is 3085 bits *)
Example C03_expr_size_example :
  ev ex_expr (VI 3) /\ wfe ex_expr /\ linear ex_expr = true /\ size_bound ex_expr = 3085.
Proof. exact size_example. Qed.
Print Assumptions C03_expr_size_example.
