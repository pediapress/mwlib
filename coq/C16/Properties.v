(* C16 — the property theorems, each followed by Print Assumptions; what they rest on is in Proofs.v and
   ProofsHandout.v. *)
From Coq Require Import List NArith Bool.
From MW Require Import C16.Model C16.Proofs C16.ProofsHandout.
Import ListNotations.
Open Scope N_scope.

(* Since fix b6f8314 waitjobs forgets the id of a dropped job only while id2job[jobid] still IS the
   waited-for (finished) object, so no op forgets the id of an unfinished job, and no theorem needs a premise about Drop.
   (Before that fix the id clause inv_addr was false with Drop: A 0 0 0 -; W 1 n0; Y n0; K 3 n0; A 0 0 0 -; L.)
   What Drop + wait still does: it removes FINISHED jobs from id2job (that is its purpose); theorems that speak about
   a job "registered under id i" (C17_wait_*, C18_restart_preserves) keep the lookup as a hypothesis. *)

(* For EVERY history h (any length, any number of jobs / connections / channels, any resolution of
   random.choice, any placement of RunLoop = any interleaving of atomic stretches) and every job
   object x accepted by the queue and not finished in the state reached by h:
   x occupies exactly ONE place — one slot of one channel queue, or the mailbox of one blocked
   puller (hand-off done, wake-up pending), or the running_jobs of one connection — never two,
   never none; it is the job registered under its id in id2job; if queued, it is queued in its own
   channel with its own priority.  (A job held by a worker is therefore in no queue and with no other
   worker; it returns to a queue only through the shutdown() of that worker's connection.) *)
Theorem C16_conservation : forall h x j,
  let s := run h init in
  getjob (s_jobs s) x = Some j -> j_done j = false ->
  (in_queues s x + with_workers s x = 1)%nat /\
  id_lookup (s_ids s) (j_id j) = Some x /\
  (forall k q p, In (k, q) (s_queues s) -> In (p, x) q -> k = j_chan j /\ p = j_prio j).
Proof. exact conservation. Qed.
Print Assumptions C16_conservation.

(* Nothing that was not accepted is ever queued or handed out. *)
Theorem C16_no_phantoms : forall h x,
  let s := run h init in
  getjob (s_jobs s) x = None -> (in_queues s x + with_workers s x = 0)%nat.
Proof. intros h x s. apply no_phantoms_inv, reachable_inv. Qed.
Print Assumptions C16_no_phantoms.

(* The defect repaired by fix 3ae1093, excluded: a puller that is still registered as waiter has an
   empty mailbox, so a hand-off (AsyncResult.set) never overwrites a job handed over before. *)
Theorem C16_registered_waiter_has_empty_mailbox : forall h c chs,
  let s := run h init in
  In (c, chs) (s_waiters s) -> c_st (get_conn (s_conns s) c) = BPull chs None.
Proof. intros h c chs s. apply (inv_wait _ _ _ (reachable_inv h)). Qed.
Print Assumptions C16_registered_waiter_has_empty_mailbox.

(* The invariant is inductive: it holds initially and EVERY single op preserves it (this is what lifts to all
   histories by fold_left).  Good = Aux (only finished jobs carry a dropdead deadline) + HubOK (every finish
   notification queued in the hub belongs to a finished job) + Inv. *)
Theorem C16_invariant_inductive : Good init /\ forall s o, Good s -> Good (fst (step s o)).
Proof. exact (conj good_init step_good). Qed.
Print Assumptions C16_invariant_inductive.

(* "It is handed out once per enqueueing (again only if its worker's connection drops before finishing it)".
   Ghost counters of the model: s_handed gets the serial at every hand-out (deliver = rpc_qpull returns the job to a
   worker, whether straight from a queue, through a hand-off mailbox or after pop's retry), s_requeued gets it when
   QPlugin.shutdown of a dying connection re-queues a job that connection held unfinished in its running_jobs (and
   nowhere else).  For EVERY history and every job object x:
     re-queues <= hand-outs <= re-queues + 1;
     while x is unfinished, hand-outs = re-queues + (number of running_jobs entries holding x), and that number is
     0 (x queued or in a hand-off mailbox) or 1 (C16_conservation): x has been handed out exactly once more than it
     was given back by a dropped connection iff a worker holds it now. *)
Theorem C16_handout_count : forall h x j,
  let s := run h init in
  getjob (s_jobs s) x = Some j ->
  (occ x (s_requeued s) <= occ x (s_handed s) <= occ x (s_requeued s) + 1)%nat /\
  (j_done j = false -> occ x (s_handed s) = (occ x (s_requeued s) + run_occ x (s_conns s))%nat).
Proof. exact handout_count. Qed.
Print Assumptions C16_handout_count.

Theorem C16_held_by_at_most_one : forall h x j,
  let s := run h init in
  getjob (s_jobs s) x = Some j -> j_done j = false -> (held s x <= 1)%nat.
Proof. exact handout_held_le_1. Qed.
Print Assumptions C16_held_by_at_most_one.

(* "... again only if its worker's connection drops": with no hypothesis on x, the n-th hand-out of x needs n-1
   re-queues by the shutdown of a dropped connection; a second hand-out needs at least one. *)
Theorem C16_handout_again_needs_requeue : forall h x,
  let s := run h init in
  (occ x (s_handed s) <= occ x (s_requeued s) + 1)%nat /\
  (2 <= occ x (s_handed s) -> 1 <= occ x (s_requeued s))%nat.
Proof. exact handout_again_needs_requeue. Qed.
Print Assumptions C16_handout_again_needs_requeue.

(* what was never accepted is never handed out or re-queued *)
Theorem C16_handout_none : forall h x,
  let s := run h init in
  getjob (s_jobs s) x = None -> occ x (s_handed s) = 0%nat /\ occ x (s_requeued s) = 0%nat.
Proof. exact handout_none. Qed.
Print Assumptions C16_handout_none.

(* Non-vacuity: job 1 is pulled by worker 1, whose connection drops; shutdown re-queues it; worker 2 pulls it:
   two hand-outs, one re-queue, held by one worker. *)
Example C16_handout_example :
  let s := run handout_history init in
  s_handed s = [1; 1] /\ s_requeued s = [1] /\
  map (fun j => (j_serial j, j_done j)) (s_jobs s) = [(1, false)] /\
  run_occ 1 (s_conns s) = 1%nat /\
  (occ 1 (s_handed s) = occ 1 (s_requeued s) + run_occ 1 (s_conns s))%nat.
Proof. exact handout_example. Qed.
Print Assumptions C16_handout_example.

(* Non-vacuity: a 10-op history with 2 channels, 3 workers, two hand-offs to blocked pullers (both by the default
   choice: the answer queued by `Choice 1` is never consumed), a disconnect that re-queues job 1, and a pull that
   prefers priority 0 of channel 1. *)
Example C16_example :
  let s := run example_history init in
  length example_history = 10%nat /\
  map (fun j => (j_serial j, j_done j)) (s_jobs s) = [(3, false); (2, false); (1, false)] /\
  map (fun x => (in_queues s x, with_workers s x)) [1; 2; 3] = [(1, 0); (0, 1); (0, 1)]%nat /\
  map (fun c => c_st c) (s_conns s) = [Dead; Idle; Idle].
Proof. exact example_ok. Qed.
Print Assumptions C16_example.
