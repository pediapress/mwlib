(* C16 — "handed out once per enqueueing (again only if its worker's connection drops before finishing it)".

   Ghost fields of the model: `s_handed` (serial consed by `deliver` = rpc_qpull returned the job) and
   `s_requeued` (serial consed by `shutdown_loop` = QPlugin.shutdown of a dying connection re-queued an
   unfinished job found in its running_jobs).

   Invariant HC s L, for every job object x:
     x does not exist        : never handed out, never re-queued;
     x exists and is finished : re-queues <= hand-outs <= re-queues + 1   (frozen from the moment it finished:
                                deliver is only called on unfinished jobs, shutdown skips finished jobs);
     x exists, unfinished     : hand-outs = re-queues + (occurrences of x in the running_jobs of all connections)
                                            + occ x L
   where L = running_jobs entries of a dying connection already removed from its record but not yet
   re-queued by shutdown_loop.  Together with conservation (Proofs.v: an unfinished job is in exactly one place)
   the number of holders is 0 or 1. *)
From Coq Require Import List NArith Bool Lia Arith.
From MW Require Import C16.Model C16.Proofs.
Import ListNotations.
Open Scope N_scope.

Fixpoint run_occ (x : N) (cs : list conn) : nat :=
  match cs with
  | [] => 0%nat
  | c :: r => (occ x (map snd (c_run c)) + run_occ x r)%nat
  end.

Definition held (s : state) (x : N) : nat := run_occ x (s_conns s).

Lemma run_occ_put : forall x cs c,
  (run_occ x (put_conn cs c) + occ x (map snd (c_run (get_conn cs (c_id c)))) =
   run_occ x cs + occ x (map snd (c_run c)))%nat.
Proof.
  intros x cs c. induction cs as [|y r IH]; cbn [put_conn get_conn run_occ].
  - cbn [new_conn c_run map occ]. lia.
  - destruct (c_id y =? c_id c) eqn:E; cbn [run_occ]; lia.
Qed.

Lemma run_occ_put_same : forall x cs c st,
  run_occ x (put_conn cs (mkConn c st (c_run (get_conn cs c)))) = run_occ x cs.
Proof.
  intros x cs c st. pose proof (run_occ_put x cs (mkConn c st (c_run (get_conn cs c)))) as P.
  cbn [c_id c_run] in P. lia.
Qed.

Lemma run_occ_le0 : forall x cs, (run_occ x cs <= occ_conns x cs)%nat.
Proof.
  intros x cs. induction cs as [|y r IH]; cbn [run_occ occ_conns]; [lia|]. unfold occ_conn. lia.
Qed.

(* a job sitting in the mailbox of c is counted by occ_conns but not by run_occ *)
Lemma run_occ_le : forall x cs c, (mb_occ x (c_st (get_conn cs c)) + run_occ x cs <= occ_conns x cs)%nat.
Proof.
  intros x cs c. induction cs as [|y r IH]; cbn [get_conn run_occ occ_conns].
  - cbn [new_conn c_st mb_occ]. lia.
  - pose proof (run_occ_le0 x r) as H0. unfold occ_conn. destruct (c_id y =? c) eqn:E; lia.
Qed.

Lemma run_get_le : forall x cs c, (occ x (map snd (c_run (get_conn cs c))) <= run_occ x cs)%nat.
Proof.
  intros x cs c. induction cs as [|y r IH]; cbn [get_conn run_occ].
  - cbn [new_conn c_run map occ]. lia.
  - destruct (c_id y =? c) eqn:E; lia.
Qed.

Lemma occ_qs_In : forall x qs k q, In (k, q) qs -> (qocc x q <= occ_qs x qs)%nat.
Proof.
  intros x qs k q. induction qs as [|kq r IH]; intro H; [destruct H|]. cbn [occ_qs].
  destruct H as [H|H]; [subst kq; cbn [snd]; lia|]. apply IH in H. lia.
Qed.

Lemma release_run : forall ser js cs x, run_occ x (fst (release ser js cs)) = run_occ x cs.
Proof.
  intros ser js cs x. induction cs as [|y r IH]; cbn [release]; [reflexivity|].
  destruct (release ser js r) as [r' o] eqn:ER. cbn [fst] in IH.
  destruct (c_st y) as [| |w|] eqn:ES; try destruct (w =? ser) eqn:EW; cbn [fst run_occ c_run]; rewrite IH; reflexivity.
Qed.

Definition hc_at (s : state) (L : list N) (x : N) : Prop :=
  match getjob (s_jobs s) x with
  | None => occ x (s_handed s) = 0%nat /\ occ x (s_requeued s) = 0%nat
  | Some j =>
    if j_done j
    then (occ x (s_requeued s) <= occ x (s_handed s) <= occ x (s_requeued s) + 1)%nat
    else occ x (s_handed s) = (occ x (s_requeued s) + run_occ x (s_conns s) + occ x L)%nat
  end.

Definition HC (s : state) (L : list N) : Prop := forall x, hc_at s L x.

Lemma hc_frame : forall s s' L,
  HC s L -> s_handed s' = s_handed s -> s_requeued s' = s_requeued s ->
  tab_eqd (s_jobs s) (s_jobs s') ->
  (forall x j, getjob (s_jobs s) x = Some j -> j_done j = false -> run_occ x (s_conns s') = run_occ x (s_conns s)) ->
  HC s' L.
Proof.
  intros s s' L H Hh Hr Hd Hc x. specialize (H x). specialize (Hd x). unfold hc_at in *. rewrite Hh, Hr.
  destruct (getjob (s_jobs s) x) as [j|] eqn:E; destruct (getjob (s_jobs s') x) as [j'|]; try contradiction; [|exact H].
  rewrite Hd. destruct (j_done j) eqn:D; [exact H|]. rewrite (Hc x j E D). exact H.
Qed.

Lemma hc_same : forall s s' L,
  HC s L -> s_jobs s' = s_jobs s -> s_conns s' = s_conns s ->
  s_handed s' = s_handed s -> s_requeued s' = s_requeued s -> HC s' L.
Proof.
  intros s s' L H Hj Hc Hh Hr. apply (hc_frame s s' L H Hh Hr).
  - rewrite Hj. apply tab_eqd_refl.
  - intros x j _ _. rewrite Hc. reflexivity.
Qed.

(* at most one holder of an unfinished job *)
Lemma held_le_1 : forall s x j, Inv s [] [] -> getjob (s_jobs s) x = Some j -> j_done j = false ->
  (run_occ x (s_conns s) <= 1)%nat.
Proof.
  intros s x j I E D.
  pose proof (inv_cons _ _ _ I x 1%nat (want_undone _ _ _ E D)) as C. unfold locs in C. cbn [occ] in C.
  pose proof (run_occ_le0 x (s_conns s)) as H0. lia.
Qed.

Lemma held_absent : forall s x, Inv s [] [] -> getjob (s_jobs s) x = None -> run_occ x (s_conns s) = 0%nat.
Proof.
  intros s x I E. pose proof (inv_cons _ _ _ I x 0%nat) as C. unfold want in C. rewrite E in C. specialize (C eq_refl).
  unfold locs in C. cbn [occ] in C. pose proof (run_occ_le0 x (s_conns s)) as H0. lia.
Qed.

Lemma mark_ghost : forall x u s,
  s_handed (mark_finished x u s) = s_handed s /\ s_requeued (mark_finished x u s) = s_requeued s.
Proof.
  intros x u s. unfold mark_finished. destruct (getjob (s_jobs s) x) as [j|]; [|split; reflexivity].
  destruct (j_done j); split; reflexivity.
Qed.

Lemma mark_hc : forall x u s, Inv s [] [] -> HC s [] -> HC (mark_finished x u s) [].
Proof.
  intros x u s I H. unfold mark_finished. destruct (getjob (s_jobs s) x) as [j|] eqn:E; [|exact H].
  destruct (j_done j) eqn:D; [exact H|]. cbv zeta. intro y. pose proof (H y) as Hy. unfold hc_at in *. sf.
  rewrite getjob_setjob by (intros; cbn [j_serial]; eapply getjob_serial; eauto).
  destruct (y =? x) eqn:Eyx; [|exact Hy].
  apply N.eqb_eq in Eyx. subst y. rewrite E in *. cbn [option_map j_done]. cbv beta iota in Hy. rewrite D in Hy.
  pose proof (held_le_1 s x j I E D) as H1. cbn [occ] in Hy. lia.
Qed.

Lemma mark_inv_hc : forall x e s, Inv s [] [] /\ HC s [] ->
  Inv (mark_finished x (upd_err e) s) [] [] /\ HC (mark_finished x (upd_err e) s) [].
Proof. intros x e s [I H]. split; [apply mark_inv|apply mark_hc]; assumption. Qed.

Lemma pushjob_ghost : forall x s,
  s_handed (pushjob x s) = s_handed s /\ s_requeued (pushjob x s) = s_requeued s.
Proof.
  intros x s. unfold pushjob. destruct (getjob (s_jobs s) x) as [j|]; [|split; reflexivity]. cbv zeta. sf.
  destruct (filter (watches (j_chan j)) (s_waiters s)); sf; split; reflexivity.
Qed.

Lemma pushjob_run : forall x s y, run_occ y (s_conns (pushjob x s)) = run_occ y (s_conns s).
Proof.
  intros x s y. unfold pushjob. destruct (getjob (s_jobs s) x) as [j|]; [|reflexivity]. cbv zeta. sf.
  destruct (filter (watches (j_chan j)) (s_waiters s)) as [|a0 alts']; sf; [reflexivity|].
  apply run_occ_put_same.
Qed.

Lemma pushjob_hc : forall x s L, HC s L -> HC (pushjob x s) L.
Proof.
  intros x s L H. destruct (pushjob_ghost x s) as [Hh Hr]. destruct (pushjob_jobs x s) as [Hj _].
  apply (hc_frame s (pushjob x s) L H Hh Hr).
  - rewrite Hj. apply tab_eqd_refl.
  - intros y jy _ _. apply pushjob_run.
Qed.

(* s0 carries the facts about the job table and the connections (the queues may differ: pop has already
   removed the head) *)
Lemma deliver_hc : forall c chs x s s0 L0 R0 j,
  Inv s0 L0 R0 -> s_jobs s0 = s_jobs s -> s_conns s0 = s_conns s ->
  HC s [] -> getjob (s_jobs s) x = Some j -> j_done j = false ->
  run_occ x (s_conns s) = 0%nat ->
  HC (fst (deliver c chs x s)) [].
Proof.
  intros c chs x s s0 L0 R0 j I J0 C0 H E D Z. unfold deliver. rewrite E. cbv zeta. cbn [fst].
  set (cn := get_conn (s_conns s) c) in *.
  (* a running_jobs entry replaced by running_jobs[j.jobid] = j belongs to a finished object *)
  assert (OLD : forall y jy, getjob (s_jobs s) y = Some jy -> j_done jy = false ->
                old_occ (c_run cn) (j_id j) y = 0%nat).
  { intros y jy Ey Dy. unfold old_occ. destruct (id_lookup (c_run cn) (j_id j)) as [w|] eqn:El; [|reflexivity].
    destruct (ind_cases w y) as [[Ewy _]|[_ Ewy]]; [|exact Ewy]. subst w. exfalso.
    apply id_lookup_In in El.
    assert (El0 : In (j_id j, y) (c_run (get_conn (s_conns s0) c))) by (rewrite C0; exact El).
    destruct (conn_run_exists _ _ _ _ _ _ I El0) as (jy'&Ey'&Hid). rewrite J0, Ey in Ey'. inversion Ey'; subst jy'.
    assert (Eyx : y = x).
    { eapply (inv_uniq _ _ _ I); try (rewrite J0; eassumption); assumption. }
    subst y.
    assert (1 <= occ x (map snd (c_run cn)))%nat.
    { apply In_occ_pos. apply in_map_iff. exists (j_id j, x). split; [reflexivity|exact El]. }
    pose proof (run_get_le x (s_conns s) c) as G. fold cn in G. lia. }
  intro y. pose proof (H y) as Hy. unfold hc_at in *. sf. cbn [occ] in *.
  pose proof (run_occ_put y (s_conns s) (mkConn c Idle (run_set (c_run cn) (j_id j) x))) as P. sf. fold cn in P.
  pose proof (occ_run_set y (c_run cn) (j_id j) x) as Q.
  destruct (getjob (s_jobs s) y) as [jy|] eqn:Ey.
  - destruct (j_done jy) eqn:Dy.
    + rewrite ind_neq; [exact Hy|]. intro Exy. subst y. congruence.
    + rewrite (OLD y jy Ey Dy) in Q. lia.
  - rewrite ind_neq; [exact Hy|]. intro Exy. subst y. congruence.
Qed.

Lemma pop_or_block_hc : forall c chs s, Inv s [] [] -> HC s [] -> HC (fst (pop_or_block c chs s)) [].
Proof.
  intros c chs s I H. unfold pop_or_block. cbv zeta.
  pose proof (preenall_inv _ _ _ I) as I1. destruct (preenall_fields s) as (Hj&Hc&Hw&Hi&Hn).
  assert (H1 : HC (preenall s) []) by (eapply hc_same; [exact H|assumption|assumption|reflexivity|reflexivity]).
  set (s1 := preenall s) in *.
  destruct (heads (s_queues s1) _) as [[p x]|] eqn:EH.
  - destruct (pop_head _ _ _ _ _ _ I EH) as (k&rest&j&_&Hq&Ej&Dj&Hch&Hp). fold s1 in Hq. rewrite <- Hj in Ej. cbn [snd].
    pose proof (q_get_In _ _ _ Hq) as Hin.
    rewrite Ej. rewrite Hch, Hq. cbn [tl].
    set (s2 := set_queues (q_set (s_queues s1) k rest) s1).
    apply (deliver_hc c chs x s2 s1 [] [] j I1); try reflexivity.
    + eapply hc_same; [exact H1|reflexivity|reflexivity|reflexivity|reflexivity].
    + exact Ej.
    + exact Dj.
    + (* the popped job was in a queue, hence with no worker *)
      unfold s2. sf.
      pose proof (inv_cons _ _ _ I1 x 1%nat (want_undone _ _ _ Ej Dj)) as C. unfold locs in C. cbn [occ] in C.
      pose proof (occ_qs_In x _ _ _ Hin) as Q. unfold qocc in Q. cbn [map snd occ] in Q. rewrite ind_refl in Q.
      pose proof (run_occ_le0 x (s_conns s1)) as H0. lia.
  - cbn [fst]. eapply hc_frame; [exact H1|reflexivity|reflexivity|apply tab_eqd_refl|].
    intros y jy _ _. sf. apply run_occ_put_same.
Qed.

Lemma shutdown_loop_hc : forall l s L, HC s (map snd l ++ L) -> HC (shutdown_loop l s) L.
Proof.
  induction l as [|[i w] r IH]; intros s L H; cbn [shutdown_loop map app snd] in *; [exact H|].
  destruct (is_done (s_jobs s) w) eqn:D.
  - apply IH. intro y. pose proof (H y) as Hy. unfold hc_at in *. unfold is_done in D.
    destruct (getjob (s_jobs s) y) as [jy|] eqn:Ey; [|exact Hy]. destruct (j_done jy) eqn:Dy; [exact Hy|].
    cbn [occ] in Hy. rewrite ind_neq in Hy; [exact Hy|]. intro Ewy. subst w. rewrite Ey in D. congruence.
  - apply IH. apply pushjob_hc.
    destruct (is_done_false _ _ D) as (j&Ej&Dj).
    intro y. pose proof (H y) as Hy. unfold hc_at in *. sf. cbn [occ] in *.
    destruct (getjob (s_jobs s) y) as [jy|] eqn:Ey.
    + destruct (j_done jy) eqn:Dy.
      * rewrite ind_neq; [exact Hy|]. intro Ewy. subst w. congruence.
      * lia.
    + rewrite ind_neq; [exact Hy|]. intro Ewy. subst w. congruence.
Qed.

Lemma die_hc : forall c s, HC s [] -> HC (fst (die c s)) [].
Proof.
  intros c s H. unfold die. cbv zeta. cbn [fst]. apply shutdown_loop_hc. rewrite app_nil_r.
  intro y. pose proof (H y) as Hy. unfold hc_at in *. sf.
  pose proof (run_occ_put y (s_conns s) (mkConn c Dead [])) as P. sf. cbn [map occ] in *.
  destruct (getjob (s_jobs s) y) as [jy|]; [|exact Hy]. destruct (j_done jy); [exact Hy|]. lia.
Qed.

Lemma run_event_hc : forall e s, Inv s [] [] -> HC s [] -> HC (fst (run_event e s)) [].
Proof.
  intros e s I H. destruct e as [c|c|ser]; cbn [run_event].
  - destruct (c_st (get_conn (s_conns s) c)) as [|chs [ser|]|w|] eqn:ES; try exact H.
    destruct (is_done (s_jobs s) ser) eqn:D.
    + apply pop_or_block_hc; assumption.
    + destruct (is_done_false _ _ D) as (j&Ej&Dj).
      apply (deliver_hc c chs ser s s [] [] j I); try reflexivity; try assumption.
      (* the job sits in the mailbox of c, hence with no worker *)
      pose proof (inv_cons _ _ _ I ser 1%nat (want_undone _ _ _ Ej Dj)) as C. unfold locs in C. cbn [occ] in C.
      pose proof (run_occ_le ser (s_conns s) c) as G. rewrite ES in G. cbn [mb_occ] in G. rewrite ind_refl in G. lia.
  - destruct (c_st (get_conn (s_conns s) c)) as [|chs mb|w|] eqn:ES; try exact H; try (apply die_hc; exact H).
    apply die_hc.
    assert (H1 : HC (set_waiters (remove_waiter c (s_waiters s)) s) [])
      by (eapply hc_same; [exact H|reflexivity|reflexivity|reflexivity|reflexivity]).
    destruct mb as [ser|]; [|exact H1].
    destruct (is_done (s_jobs (set_waiters (remove_waiter c (s_waiters s)) s)) ser); [exact H1|].
    apply pushjob_hc. exact H1.
  - pose proof (release_run ser (s_jobs s) (s_conns s)) as RR.
    destruct (release ser (s_jobs s) (s_conns s)) as [cs o] eqn:ER. cbn [fst] in RR.
    assert (H1 : HC (set_conns cs s) []).
    { eapply hc_frame; [exact H|reflexivity|reflexivity|apply tab_eqd_refl|]. intros y jy _ _. sf. apply RR. }
    destruct (getjob (s_jobs s) ser) as [j|] eqn:Ej; [|exact H1].
    destruct (j_drop j && has_waiter ser (s_conns s) && id_is (s_ids s) (j_id j) ser); [|exact H1].
    cbn [fst]. eapply hc_same; [exact H1|reflexivity|reflexivity|reflexivity|reflexivity].
Qed.

Lemma run_events_hc : forall es s, Inv s [] [] -> hub_ok (s_jobs s) es -> HC s [] ->
  HC (fst (run_events es s)) [].
Proof.
  induction es as [|e r IH]; intros s I HD H; [exact H|]. rewrite run_events_cons. cbn [fst]. apply IH.
  - apply run_event_inv; [exact I|]. intros ser E. apply HD. left. exact E.
  - rewrite run_event_jobs. intros ser Hin. apply HD. right. exact Hin.
  - apply run_event_hc; assumption.
Qed.

Lemma drop_running_hc : forall s c js,
  Inv s [] [] -> HC s [] ->
  (forall i w, In i js -> id_lookup (s_ids s) i = Some w -> is_done (s_jobs s) w = true) ->
  HC (set_conns (put_conn (s_conns s) (mkConn c (c_st (get_conn (s_conns s) c))
                                              (fold_left run_del js (c_run (get_conn (s_conns s) c))))) s) [].
Proof.
  intros s c js I H HD. eapply hc_frame; [exact H|reflexivity|reflexivity|apply tab_eqd_refl|].
  intros y jy Ey Dy. sf.
  pose proof (run_occ_put y (s_conns s) (mkConn c (c_st (get_conn (s_conns s) c))
                                                (fold_left run_del js (c_run (get_conn (s_conns s) c))))) as P. sf.
  destruct (run_del_fold js (c_run (get_conn (s_conns s) c)) y) as [F _]; [|lia].
  intros i w Hi Hin Ewy. subst w.
  destruct (conn_run_exists _ _ _ _ _ _ I Hin) as (j&Ej&Hid). rewrite Ey in Ej. inversion Ej; subst j.
  pose proof (inv_addr _ _ _ I y jy Ey Dy eq_refl) as A. rewrite Hid in A.
  pose proof (HD i y Hi A) as D. unfold is_done in D. rewrite Ey in D. congruence.
Qed.

Lemma push_hc : forall ch prio name tmo s, Inv s [] [] -> HC s [] -> HC (fst (push ch prio name tmo s)) [].
Proof.
  intros ch prio name tmo s I H.
  destruct (push_cases ch prio name tmo s) as [[n E]|(j0&i&Hs&Hd&_&E)]; rewrite E; cbn [fst]; [exact H|].
  apply pushjob_hc. intro y. pose proof (H y) as Hy. unfold hc_at in *. sf.
  cbn [getjob]. rewrite Hs. destruct (s_count s + 1 =? y) eqn:Ey; [|exact Hy].
  apply N.eqb_eq in Ey. rewrite Hd.
  (* the new serial was never used: nothing was handed out, re-queued or is held under it *)
  assert (GN : getjob (s_jobs s) y = None).
  { destruct (getjob (s_jobs s) y) as [jy|] eqn:G; [|reflexivity]. pose proof (inv_tab _ _ _ I _ _ G). lia. }
  rewrite GN in Hy. destruct Hy as [Hy1 Hy2].
  pose proof (held_absent s y I GN) as Z. cbn [occ]. lia.
Qed.

(* field edits keep the `done` flags and touch nothing the counts speak of *)
Lemma edit_hc : forall s ser f L, field_edit f -> HC s L -> HC (set_jobs (setjob ser f (s_jobs s)) s) L.
Proof.
  intros s ser f L Hf H. eapply hc_frame; [exact H|reflexivity|reflexivity| |intros; reflexivity].
  sf. apply setjob_eqd, Hf.
Qed.

Lemma dropdead_loop_hc : forall l s L, HC s L -> HC (dropdead_loop l s) L.
Proof.
  intros l s L. apply (dropdead_loop_ind (fun s => HC s L)).
  - intros i ser j s0 H _ _ _. eapply hc_same; [exact H|reflexivity|reflexivity|reflexivity|reflexivity].
  - intros ser j d s0 H _ _. apply edit_hc; [apply set_dl_edit|exact H].
Qed.

Lemma step_hc : forall s o, Good s -> HC s [] -> HC (fst (step s o)) [].
Proof.
  intros s o (A&K&I) H.
  destruct o as [ch prio name tmo|c chs| |c i res e|c js|dt|c|k|c i|i|i v| |dt|js|]; cbn [step].
  - pose proof (push_hc ch prio name tmo s I H) as P. destruct (push ch prio name tmo s) as [s1 i]. exact P.
  - destruct (is_idle c s); [|exact H]. apply pop_or_block_hc; assumption.
  - apply run_events_hc.
    + eapply inv_same; eauto.
    + exact K.
    + eapply hc_same; [exact H|reflexivity|reflexivity|reflexivity|reflexivity].
  - destruct (is_idle c s) eqn:EI; [|exact H]. apply is_idle_st in EI.
    destruct (id_lookup (s_ids s) i) as [ser|] eqn:El; [|exact H]. cbn [fst].
    set (u := fun j => upd_finish res e (if err_truthy e then N_min 10 (j_ttl j) else j_ttl j) j).
    destruct (mark_fields ser u s) as (_&Hc&_&Hi&_).
    pose proof (mark_inv ser u s _ _ I) as I1.
    pose proof (mark_hc ser u s I H) as H1.
    apply (drop_running_hc (mark_finished ser u s) c [i] I1 H1).
    intros i' w [Hi'|[]] Hl. subst i'. rewrite Hi, El in Hl. inversion Hl; subst. apply mark_done.
  - destruct (is_idle c s) eqn:EI; [|exact H]. cbn [fst].
    pose proof (killjobs_ids js s) as Hi. pose proof (js_conns _ _ (killjobs_jstep js s)) as Hc.
    destruct (killjobs_ind _ mark_inv_hc js s (conj I H)) as [I1 H1].
    apply (drop_running_hc (killjobs js s) c js I1 H1).
    intros i w Hin Hl. rewrite Hi in Hl. eapply killjobs_done; eauto.
  - cbn [fst]. unfold handletimeouts.
    eapply hc_same; [|reflexivity|reflexivity|reflexivity|reflexivity].
    apply (timeouts_loop_ind _ mark_inv_hc) with (s := set_now (s_now s + dt) s).
    + intros v s0 [I0 H0]. split; [eapply inv_same; eauto|].
      eapply hc_same; [exact H0|reflexivity|reflexivity|reflexivity|reflexivity].
    + split; [eapply inv_same; eauto|].
      eapply hc_same; [exact H|reflexivity|reflexivity|reflexivity|reflexivity].
  - destruct (c_st (get_conn (s_conns s) c)); cbn [fst]; try exact H;
      (eapply hc_same; [exact H|reflexivity|reflexivity|reflexivity|reflexivity]).
  - cbn [fst]. eapply hc_same; [exact H|reflexivity|reflexivity|reflexivity|reflexivity].
  - destruct (is_idle c s); [|exact H]. destruct (id_lookup (s_ids s) i) as [ser|]; [|exact H].
    destruct (getjob (s_jobs s) ser) as [j|]; [|exact H].
    destruct (j_done j).
    + destruct (j_drop j && id_is (s_ids s) (j_id j) ser); [|exact H]. cbn [fst].
      eapply hc_same; [exact H|reflexivity|reflexivity|reflexivity|reflexivity].
    + cbn [fst]. eapply hc_frame; [exact H|reflexivity|reflexivity|apply tab_eqd_refl|].
      intros y jy _ _. sf. apply run_occ_put_same.
  - exact H.
  - destruct (id_lookup (s_ids s) i) as [ser|]; [|exact H]. cbn [fst].
    apply edit_hc; [apply set_info_edit|exact H].
  - exact H.
  - cbn [fst]. eapply hc_same; [exact H|reflexivity|reflexivity|reflexivity|reflexivity].
  - cbn [fst]. apply (dropjobs_ind (fun s => HC s [])); [|exact H].
    intros ser s0 H0. apply edit_hc; [apply set_drop_edit|exact H0].
  - cbn [fst]. unfold dropdead. apply dropdead_loop_hc. exact H.
Qed.

Lemma hc_init : HC init [].
Proof. intro x. unfold hc_at. cbn. split; reflexivity. Qed.

Definition GoodHC (s : state) : Prop := Good s /\ HC s [].

Lemma step_goodhc : forall s o, GoodHC s -> GoodHC (fst (step s o)).
Proof. intros s o [G H]. split; [apply step_good; exact G|apply step_hc; assumption]. Qed.

Lemma reachable_goodhc : forall h, GoodHC (run h init).
Proof.
  intro h. apply (invariant_reachable GoodHC step_goodhc). split; [apply good_init|apply hc_init].
Qed.

(* For EVERY history and every job object x that exists:
   re-queues <= hand-outs <= re-queues + 1; and while x is unfinished
   hand-outs = re-queues + (number of connections holding x in running_jobs), which is 0 or 1. *)
Lemma handout_count : forall h x j,
  let s := run h init in
  getjob (s_jobs s) x = Some j ->
  (occ x (s_requeued s) <= occ x (s_handed s) <= occ x (s_requeued s) + 1)%nat /\
  (j_done j = false -> occ x (s_handed s) = (occ x (s_requeued s) + run_occ x (s_conns s))%nat).
Proof.
  intros h x j s E. destruct (reachable_goodhc h) as [(_&_&I) H]. fold s in I, H.
  pose proof (H x) as Hx. unfold hc_at in Hx. rewrite E in Hx.
  destruct (j_done j) eqn:D.
  - split; [exact Hx|discriminate].
  - pose proof (held_le_1 s x j I E D) as H1. cbn [occ] in Hx. split; [lia|]. intros _. lia.
Qed.

Lemma handout_held_le_1 : forall h x j,
  let s := run h init in
  getjob (s_jobs s) x = Some j -> j_done j = false -> (held s x <= 1)%nat.
Proof.
  intros h x j s E D. destruct (reachable_goodhc h) as [(_&_&I) _]. fold s in I.
  exact (held_le_1 s x j I E D).
Qed.

Lemma handout_none : forall h x,
  let s := run h init in
  getjob (s_jobs s) x = None -> occ x (s_handed s) = 0%nat /\ occ x (s_requeued s) = 0%nat.
Proof.
  intros h x s E. destruct (reachable_goodhc h) as [_ H]. fold s in H.
  pose proof (H x) as Hx. unfold hc_at in Hx. rewrite E in Hx. exact Hx.
Qed.

(* Unconditional form (no hypothesis on x at all — accepted or not, finished or not): the n-th hand-out of x needs
   n-1 re-queues by QPlugin.shutdown of a dropped connection; in particular a second hand-out needs a drop. *)
Lemma handout_again_needs_requeue : forall h x,
  let s := run h init in
  (occ x (s_handed s) <= occ x (s_requeued s) + 1)%nat /\
  (2 <= occ x (s_handed s) -> 1 <= occ x (s_requeued s))%nat.
Proof.
  intros h x s. assert (A : Nat.le (occ x (s_handed s)) (occ x (s_requeued s) + 1)%nat).
  { destruct (getjob (s_jobs s) x) as [j|] eqn:E.
    - destruct (handout_count h x j E) as [[_ B] _]. exact B.
    - destruct (handout_none h x E) as [B _]. fold s in B. rewrite B. lia. }
  split; [exact A|lia].
Qed.

(* Non-vacuity: job 1 is handed to worker 1, whose connection drops; shutdown re-queues it; worker 2 gets it:
   handed out twice, re-queued once, held by one worker. *)
Definition handout_history : list op :=
  [Add 0 0 None None; StartPull 1 []; Disconnect 1; RunLoop; StartPull 2 []].

Example handout_example :
  let s := run handout_history init in
  s_handed s = [1; 1] /\ s_requeued s = [1] /\
  map (fun j => (j_serial j, j_done j)) (s_jobs s) = [(1, false)] /\
  run_occ 1 (s_conns s) = 1%nat /\
  (occ 1 (s_handed s) = occ 1 (s_requeued s) + run_occ 1 (s_conns s))%nat.
Proof. vm_compute. repeat split. Qed.
