(* C16 — the conservation invariant Inv and its preservation by every step; the relations through which the other
   invariants of C16-C18 are carried over a step: jstep (the job table evolves), qmove (jobs move between queues,
   mailboxes and running_jobs), prims (every op as a path of primitive table updates, the rest being `side` steps);
   the invariants Aux and HubOK, with Inv together Good, over every history; the example history. *)
From Coq Require Import List NArith Bool Lia Arith.
From MW Require Import C16.Model.
Import ListNotations.
Open Scope N_scope.

Lemma invariant_reachable : forall (P : state -> Prop),
  (forall s o, P s -> P (fst (step s o))) ->
  forall h s, P s -> P (run h s).
Proof.
  intros P HP h. induction h as [|o h IH]; intros s Hs.
  - exact Hs.
  - change (P (run h (fst (step s o)))). apply IH. apply HP. exact Hs.
Qed.

Lemma jid_eqb_eq : forall a b, jid_eqb a b = true <-> a = b.
Proof.
  intros [x|x] [y|y]; cbn; split; intro H; try discriminate; try (apply N.eqb_eq in H; subst; reflexivity);
    try (inversion H; subst; apply N.eqb_refl).
Qed.

Lemma jid_eqb_refl : forall a, jid_eqb a a = true.
Proof. intro a. apply jid_eqb_eq. reflexivity. Qed.

Lemma jid_eqb_neq : forall a b, jid_eqb a b = false <-> a <> b.
Proof.
  intros a b. split.
  - intros H E. apply jid_eqb_eq in E. congruence.
  - intro H. destruct (jid_eqb a b) eqn:E; auto. apply jid_eqb_eq in E. contradiction.
Qed.

(* indicator of a = x *)
Definition ind (a x : N) : nat := if a =? x then 1%nat else 0%nat.

Fixpoint occ (x : N) (l : list N) : nat :=
  match l with [] => 0%nat | y :: r => (ind y x + occ x r)%nat end.

Definition qocc (x : N) (q : list qkey) : nat := occ x (map snd q).

Fixpoint occ_qs (x : N) (qs : list (N * list qkey)) : nat :=
  match qs with [] => 0%nat | kq :: r => (qocc x (snd kq) + occ_qs x r)%nat end.

Definition mb_occ (x : N) (st : cstate) : nat :=
  match st with BPull _ (Some y) => ind y x | _ => 0%nat end.

Definition occ_conn (x : N) (c : conn) : nat := (mb_occ x (c_st c) + occ x (map snd (c_run c)))%nat.

Fixpoint occ_conns (x : N) (cs : list conn) : nat :=
  match cs with [] => 0%nat | c :: r => (occ_conn x c + occ_conns x r)%nat end.

Definition locs (s : state) (x : N) : nat := (occ_qs x (s_queues s) + occ_conns x (s_conns s))%nat.

Definition qget (qs : list (N * list qkey)) (c : N) : list qkey :=
  match q_get qs c with Some q => q | None => [] end.

Lemma occ_app : forall x a b, occ x (a ++ b) = (occ x a + occ x b)%nat.
Proof. intros x a b. induction a as [|y a IH]; cbn [occ app]; lia. Qed.

Lemma occ_qs_set : forall x qs c l,
  (occ_qs x (q_set qs c l) + qocc x (qget qs c) = occ_qs x qs + qocc x l)%nat.
Proof.
  intros x qs c l. unfold qget. induction qs as [|[k m] r IH]; cbn [q_set q_get occ_qs snd].
  - cbn. lia.
  - destruct (k =? c) eqn:E; cbn [occ_qs snd]; [lia|].
    destruct (q_get r c); cbn in *; lia.
Qed.

Lemma q_get_In : forall qs c q, q_get qs c = Some q -> In (c, q) qs.
Proof.
  induction qs as [|[k m] r IH]; cbn; intros c q H; [discriminate|].
  destruct (k =? c) eqn:E.
  - apply N.eqb_eq in E. inversion H; subst. left; reflexivity.
  - right. apply IH. exact H.
Qed.

Lemma q_set_In : forall qs c l k q, In (k, q) (q_set qs c l) -> (k = c /\ q = l) \/ In (k, q) qs.
Proof.
  induction qs as [|[k0 m] r IH]; cbn [q_set]; intros c l k q H.
  - destruct H as [H|[]]. inversion H; subst. left; auto.
  - destruct (k0 =? c) eqn:E.
    + destruct H as [H|H].
      * inversion H; subst. apply N.eqb_eq in E. left; auto.
      * right; right; exact H.
    + destruct H as [H|H].
      * right; left; exact H.
      * destruct (IH _ _ _ _ H) as [H1|H1]; [left; exact H1|right; right; exact H1].
Qed.

Lemma get_conn_id : forall cs c, c_id (get_conn cs c) = c.
Proof.
  induction cs as [|y r IH]; intro c; cbn [get_conn]; [reflexivity|].
  destruct (c_id y =? c) eqn:E; [apply N.eqb_eq; exact E|apply IH].
Qed.

Lemma get_put_same : forall cs x, get_conn (put_conn cs x) (c_id x) = x.
Proof.
  induction cs as [|y r IH]; intro x; cbn [put_conn get_conn].
  - rewrite N.eqb_refl. reflexivity.
  - destruct (c_id y =? c_id x) eqn:E; cbn [get_conn].
    + rewrite N.eqb_refl. reflexivity.
    + rewrite E. apply IH.
Qed.

Lemma get_put_other : forall cs x c, c_id x <> c -> get_conn (put_conn cs x) c = get_conn cs c.
Proof.
  induction cs as [|y r IH]; intros x c H; cbn [put_conn get_conn].
  - apply N.eqb_neq in H. rewrite H. reflexivity.
  - destruct (c_id y =? c_id x) eqn:E; cbn [get_conn].
    + apply N.eqb_eq in E. assert (c_id y <> c) by congruence.
      apply N.eqb_neq in H. apply N.eqb_neq in H0. rewrite H, H0. reflexivity.
    + destruct (c_id y =? c); [reflexivity|apply IH; exact H].
Qed.

Lemma occ_conn_new : forall x c, occ_conn x (new_conn c) = 0%nat.
Proof. reflexivity. Qed.

Lemma occ_conns_put : forall x cs c,
  (occ_conns x (put_conn cs c) + occ_conn x (get_conn cs (c_id c)) = occ_conns x cs + occ_conn x c)%nat.
Proof.
  intros x cs c. induction cs as [|y r IH]; cbn [put_conn get_conn occ_conns].
  - rewrite occ_conn_new. lia.
  - destruct (c_id y =? c_id c) eqn:E; cbn [occ_conns]; lia.
Qed.

Lemma put_conn_In : forall cs x y, In y (put_conn cs x) -> y = x \/ In y cs.
Proof.
  induction cs as [|z r IH]; cbn [put_conn]; intros x y H.
  - destruct H as [H|[]]; auto.
  - destruct (c_id z =? c_id x).
    + destruct H as [H|H]; [left; auto|right; right; exact H].
    + destruct H as [H|H]; [right; left; exact H|].
      destruct (IH _ _ H); [left; auto|right; right; auto].
Qed.

Lemma qocc_ins : forall x k q, qocc x (ins k q) = (ind (snd k) x + qocc x q)%nat.
Proof.
  intros x k q. unfold qocc. induction q as [|y r IH]; cbn [ins map occ]; [reflexivity|].
  destruct (key_lt k y); cbn [map occ]; [reflexivity|]. rewrite IH. lia.
Qed.

Lemma ins_In : forall k q y, In y (ins k q) <-> y = k \/ In y q.
Proof.
  intros k q y. induction q as [|z r IH]; cbn [ins].
  - cbn. intuition.
  - destruct (key_lt k z); cbn [In]; [intuition|]. rewrite IH. intuition.
Qed.

Lemma getjob_serial : forall js x j, getjob js x = Some j -> j_serial j = x.
Proof.
  induction js as [|y r IH]; cbn; intros x j H; [discriminate|].
  destruct (j_serial y =? x) eqn:E; [inversion H; subst; apply N.eqb_eq; exact E|apply IH; exact H].
Qed.

Lemma getjob_setjob : forall js x f y,
  (forall j, j_serial j = x -> j_serial (f j) = x) ->
  getjob (setjob x f js) y = if y =? x then option_map f (getjob js x) else getjob js y.
Proof.
  intros js x f y Hf. unfold setjob. induction js as [|z r IH]; cbn [map getjob].
  - destruct (y =? x); reflexivity.
  - destruct (j_serial z =? x) eqn:E.
    + apply N.eqb_eq in E. rewrite (Hf _ E).
      destruct (y =? x) eqn:E2.
      * apply N.eqb_eq in E2. subst y. rewrite N.eqb_refl. reflexivity.
      * rewrite (N.eqb_sym x y), E2. rewrite E, (N.eqb_sym x y), E2. exact IH.
    + destruct (j_serial z =? y) eqn:E3.
      * destruct (y =? x) eqn:E2; [|reflexivity].
        apply N.eqb_eq in E2, E3. subst. rewrite N.eqb_refl in E. discriminate.
      * exact IH.
Qed.

(* how many places a job object must occupy: 1 while unfinished, 0 if it does not exist,
   unconstrained once finished (stale heap entries / running_jobs entries are harmless) *)
Definition want (js : list job) (x : N) : option nat :=
  match getjob js x with
  | None => Some 0%nat
  | Some j => if j_done j then None else Some 1%nat
  end.

Definition eligible (ch : N) (chs : list N) : Prop := chs = [] \/ mem ch chs = true.

(* L: job objects "in hand" of the code between two lines (popped, not yet delivered / re-queued);
   R: copies still visible that the code is about to drop *)
Record Inv (s : state) (L R : list N) : Prop := {
  inv_cons : forall x n, want (s_jobs s) x = Some n -> (locs s x + occ x L = n + occ x R)%nat;
  inv_addr : forall x j, getjob (s_jobs s) x = Some j -> j_done j = false -> occ x L = 0%nat ->
             id_lookup (s_ids s) (j_id j) = Some x;
  inv_uniq : forall x y jx jy, getjob (s_jobs s) x = Some jx -> getjob (s_jobs s) y = Some jy ->
             j_done jx = false -> j_done jy = false -> j_id jx = j_id jy -> x = y;
  inv_auto : forall x j n, getjob (s_jobs s) x = Some j -> j_id j = JAuto n -> n = x;
  inv_tab : forall x j, getjob (s_jobs s) x = Some j -> x <= s_count s;
  inv_err : forall x j, getjob (s_jobs s) x = Some j -> j_done j = false -> j_err j = ENone;
  inv_wait : forall c chs, In (c, chs) (s_waiters s) -> c_st (get_conn (s_conns s) c) = BPull chs None;
  inv_wnd : NoDup (map fst (s_waiters s));
  inv_q : forall k q p x, In (k, q) (s_queues s) -> In (p, x) q ->
          exists j, getjob (s_jobs s) x = Some j /\ j_chan j = k /\ j_prio j = p;
  inv_run : forall c i w, In c (s_conns s) -> In (i, w) (c_run c) ->
            exists j, getjob (s_jobs s) w = Some j /\ j_id j = i;
  inv_mb : forall c chs x, c_st (get_conn (s_conns s) c) = BPull chs (Some x) ->
           exists j, getjob (s_jobs s) x = Some j /\ eligible (j_chan j) chs
}.

(* evolution of the job table: same objects, immutable fields, done only grows *)
Definition tab_le (js js' : list job) : Prop :=
  forall x,
    match getjob js x, getjob js' x with
    | None, None => True
    | Some j, Some j' => j_id j' = j_id j /\ j_chan j' = j_chan j /\ j_prio j' = j_prio j /\
                         (j_done j' = false -> j_done j = false /\ j_err j' = j_err j)
    | _, _ => False
    end.

Lemma tab_le_refl : forall js, tab_le js js.
Proof. intros js x. destruct (getjob js x); auto. Qed.

Lemma tab_le_trans : forall a b c, tab_le a b -> tab_le b c -> tab_le a c.
Proof.
  intros a b c H1 H2 x. specialize (H1 x). specialize (H2 x).
  destruct (getjob a x), (getjob b x), (getjob c x); try contradiction; auto.
  destruct H1 as (?&?&?&H1), H2 as (?&?&?&H2). split; [congruence|]. split; [congruence|]. split; [congruence|].
  intro D. destruct (H2 D) as [D1 E1]. destruct (H1 D1) as [D2 E2]. split; congruence.
Qed.

Lemma tab_le_some : forall js js' x j', tab_le js js' -> getjob js' x = Some j' ->
  exists j, getjob js x = Some j /\ j_id j' = j_id j /\ j_chan j' = j_chan j /\ j_prio j' = j_prio j /\
            (j_done j' = false -> j_done j = false /\ j_err j' = j_err j).
Proof.
  intros js js' x j' H E. specialize (H x). rewrite E in H. destruct (getjob js x); [|contradiction].
  eexists; split; [reflexivity|]. tauto.
Qed.

Lemma tab_le_some' : forall js js' x j, tab_le js js' -> getjob js x = Some j ->
  exists j', getjob js' x = Some j' /\ j_id j' = j_id j /\ j_chan j' = j_chan j /\ j_prio j' = j_prio j.
Proof.
  intros js js' x j H E. specialize (H x). rewrite E in H. destruct (getjob js' x); [|contradiction].
  eexists; split; [reflexivity|]. tauto.
Qed.

Lemma tab_le_want : forall js js' x n, tab_le js js' -> want js' x = Some n -> want js x = Some n.
Proof.
  intros js js' x n H. unfold want. specialize (H x).
  destruct (getjob js x) as [j|], (getjob js' x) as [j'|]; try contradiction; auto.
  destruct H as (_&_&_&H). destruct (j_done j') eqn:E; [discriminate|]. destruct (H eq_refl) as [H0 _]. rewrite H0. auto.
Qed.

(* a state transformer that leaves queues, connections, waiters, ids, count alone and only
   finishes jobs preserves the invariant *)
Lemma inv_tab_le : forall s s' L R,
  Inv s L R -> tab_le (s_jobs s) (s_jobs s') ->
  s_queues s' = s_queues s -> s_conns s' = s_conns s -> s_waiters s' = s_waiters s ->
  s_ids s' = s_ids s -> s_count s' = s_count s ->
  Inv s' L R.
Proof.
  intros s s' L R I T Hq Hc Hw Hi Hn. destruct I.
  constructor; unfold locs; rewrite ?Hq, ?Hc, ?Hw, ?Hi, ?Hn.
  - intros x n W. apply inv_cons0. eapply tab_le_want; eauto.
  - intros x j' E D O. destruct (tab_le_some _ _ _ _ T E) as (j&E0&Hid&_&_&Hd).
    rewrite Hid. apply inv_addr0; auto. apply Hd; auto.
  - intros x y jx jy Ex Ey Dx Dy Hid.
    destruct (tab_le_some _ _ _ _ T Ex) as (jx0&Ex0&Hidx&_&_&Hdx).
    destruct (tab_le_some _ _ _ _ T Ey) as (jy0&Ey0&Hidy&_&_&Hdy).
    apply (inv_uniq0 x y jx0 jy0 Ex0 Ey0 (proj1 (Hdx Dx)) (proj1 (Hdy Dy))). congruence.
  - intros x j' n E Hid. destruct (tab_le_some _ _ _ _ T E) as (j&E0&Hid0&_). eapply inv_auto0; eauto. congruence.
  - intros x j' E. destruct (tab_le_some _ _ _ _ T E) as (j&E0&_). eapply inv_tab0; eauto.
  - intros x j' E D. destruct (tab_le_some _ _ _ _ T E) as (j&E0&_&_&_&Hd). destruct (Hd D) as [D0 He].
    rewrite He. eapply inv_err0; eauto.
  - exact inv_wait0.
  - exact inv_wnd0.
  - intros k q p x H1 H2. destruct (inv_q0 _ _ _ _ H1 H2) as (j&E&Hc1&Hp).
    destruct (tab_le_some' _ _ _ _ T E) as (j'&E'&_&Hc2&Hp2). exists j'. repeat split; congruence.
  - intros c i w H1 H2. destruct (inv_run0 _ _ _ H1 H2) as (j&E&Hid).
    destruct (tab_le_some' _ _ _ _ T E) as (j'&E'&Hid2&_). exists j'. split; congruence.
  - intros c chs x H. destruct (inv_mb0 _ _ _ H) as (j&E&He).
    destruct (tab_le_some' _ _ _ _ T E) as (j'&E'&_&Hc2&_). exists j'. split; [auto|]. rewrite Hc2. exact He.
Qed.

Lemma mark_fields : forall x u s,
  s_queues (mark_finished x u s) = s_queues s /\ s_conns (mark_finished x u s) = s_conns s /\
  s_waiters (mark_finished x u s) = s_waiters s /\ s_ids (mark_finished x u s) = s_ids s /\
  s_count (mark_finished x u s) = s_count s /\ s_now (mark_finished x u s) = s_now s /\
  s_tq (mark_finished x u s) = s_tq s.
Proof.
  intros x u s. unfold mark_finished. destruct (getjob (s_jobs s) x) as [j|]; [|repeat split].
  destruct (j_done j); repeat split.
Qed.

Lemma mark_tab_le : forall x u s, tab_le (s_jobs s) (s_jobs (mark_finished x u s)).
Proof.
  intros x u s. unfold mark_finished. destruct (getjob (s_jobs s) x) as [j|] eqn:E; [|apply tab_le_refl].
  destruct (j_done j) eqn:D; [apply tab_le_refl|].
  cbn [s_jobs set_cnt set_hub set_jobs]. intro y.
  rewrite getjob_setjob by (intros; cbn; eapply getjob_serial; eauto).
  destruct (y =? x) eqn:Eyx.
  - apply N.eqb_eq in Eyx. subst y. rewrite E. cbn. repeat split; try discriminate; auto.
  - destruct (getjob (s_jobs s) y); auto.
Qed.

Lemma mark_inv : forall x u s L R, Inv s L R -> Inv (mark_finished x u s) L R.
Proof.
  intros x u s L R I. destruct (mark_fields x u s) as (?&?&?&?&?&?&?).
  eapply inv_tab_le; eauto. apply mark_tab_le.
Qed.

Lemma mark_done : forall x u s, is_done (s_jobs (mark_finished x u s)) x = true.
Proof.
  intros x u s. unfold mark_finished, is_done. destruct (getjob (s_jobs s) x) as [j|] eqn:E.
  - destruct (j_done j) eqn:D.
    + rewrite E. exact D.
    + cbn [s_jobs set_cnt set_hub set_jobs].
      rewrite getjob_setjob by (intros; cbn; eapply getjob_serial; eauto).
      rewrite N.eqb_refl, E. reflexivity.
  - rewrite E. reflexivity.
Qed.

Lemma tab_le_done : forall js js' x, tab_le js js' -> is_done js x = true -> is_done js' x = true.
Proof.
  intros js js' x T. unfold is_done. specialize (T x).
  destruct (getjob js x), (getjob js' x); try contradiction; auto.
  destruct T as (_&_&_&T). intro D. destruct (j_done j0); auto. destruct (T eq_refl) as [T0 _]. rewrite T0 in D; auto.
Qed.

(* sf computes the record projections and setters of state and conn, everywhere *)
Ltac sf := cbn [s_count s_jobs s_ids s_queues s_waiters s_conns s_tq s_hub s_now s_cnt s_choices s_handed s_requeued
                set_count set_jobs set_ids set_queues set_waiters set_conns set_tq set_hub set_now set_cnt
                set_choices set_handed set_requeued fst snd c_id c_st c_run] in *.

(* killjobs and the handletimeouts sweep are sequences of _mark_finished; dropjobs sets drop flags; dropdead
   forgets ids whose dropdead deadline is set and stamps finished jobs.  What each of these steps preserves,
   the loop preserves. *)
Lemma killjobs_ind : forall P : state -> Prop,
  (forall x e s, P s -> P (mark_finished x (upd_err e) s)) -> forall js s, P s -> P (killjobs js s).
Proof.
  intros P HM. induction js as [|i r IH]; intros s H; cbn [killjobs]; [exact H|].
  destruct (id_lookup (s_ids s) i); apply IH; [apply HM|]; exact H.
Qed.

Lemma timeouts_loop_ind : forall P : state -> Prop,
  (forall x e s, P s -> P (mark_finished x (upd_err e) s)) -> (forall v s, P s -> P (set_tq v s)) ->
  forall q s, P s -> P (timeouts_loop q s).
Proof.
  intros P HM HT. induction q as [|x r IH]; intros s H; cbn [timeouts_loop]; [apply HT; exact H|].
  destruct (is_done (s_jobs s) (snd (snd x))); [apply IH; exact H|].
  destruct (s_now s <? fst x); [apply HT; exact H|]. apply IH, HM, H.
Qed.

Lemma dropjobs_ind : forall P : state -> Prop,
  (forall ser s, P s -> P (set_jobs (setjob ser set_drop (s_jobs s)) s)) -> forall js s, P s -> P (dropjobs js s).
Proof.
  intros P HD. induction js as [|i r IH]; intros s H; cbn [dropjobs]; [exact H|].
  destruct (id_lookup (s_ids s) i); apply IH; [apply HD|]; exact H.
Qed.

Lemma dropdead_loop_ind : forall P : state -> Prop,
  (forall i ser j s, P s -> id_lookup (s_ids s) i = Some ser -> getjob (s_jobs s) ser = Some j ->
                     dl_truthy (j_dl j) = true -> P (set_ids (id_del (s_ids s) i) s)) ->
  (forall ser j d s, P s -> getjob (s_jobs s) ser = Some j -> j_done j = true ->
                     P (set_jobs (setjob ser (set_dl d) (s_jobs s)) s)) ->
  forall l s, P s -> P (dropdead_loop l s).
Proof.
  intros P HI HJ. induction l as [|i r IH]; intros s H; cbn [dropdead_loop]; [exact H|].
  destruct (id_lookup (s_ids s) i) as [ser|] eqn:El; [|apply IH; exact H].
  destruct (getjob (s_jobs s) ser) as [j|] eqn:Ej; [|apply IH; exact H].
  cbv zeta. apply IH.
  set (ex := match j_dl j with Some d => negb (d =? 0) && (d <? s_now s) | None => false end).
  assert (H1 : P (if ex then set_ids (id_del (s_ids s) i) s else s)).
  { destruct ex eqn:EX; [|exact H]. apply (HI i ser j); auto.
    unfold ex in EX. destruct (j_dl j) as [d|]; [|discriminate EX]. apply andb_prop in EX. exact (proj1 EX). }
  destruct (j_done j && negb (dl_truthy (j_dl j))) eqn:EC; [|exact H1].
  apply andb_prop in EC. apply (HJ ser j); [exact H1| |exact (proj1 EC)].
  destruct ex; exact Ej.
Qed.

(* updates of one job record that touch none of the fields the invariants read (the drop flag, the dropdead
   deadline, the info field) *)
Definition field_edit (f : job -> job) : Prop :=
  forall j, j_serial (f j) = j_serial j /\ j_id (f j) = j_id j /\ j_chan (f j) = j_chan j /\ j_prio (f j) = j_prio j /\
            j_done (f j) = j_done j /\ j_err (f j) = j_err j /\ j_res (f j) = j_res j /\ j_timeout (f j) = j_timeout j.

Lemma set_drop_edit : field_edit set_drop.
Proof. intro j. cbn. tauto. Qed.

Lemma set_dl_edit : forall d, field_edit (set_dl d).
Proof. intros d j. cbn. tauto. Qed.

Lemma set_info_edit : forall v,
  field_edit (fun j => mkJob (j_serial j) (j_id j) (j_chan j) (j_prio j) (j_timeout j) (j_done j)
                             (j_err j) (j_res j) (Some v) (j_ttl j) (j_dl j) (j_drop j)).
Proof. intros v j. cbn. tauto. Qed.

Lemma getjob_edit : forall js ser f y, field_edit f ->
  getjob (setjob ser f js) y = if y =? ser then option_map f (getjob js ser) else getjob js y.
Proof. intros js ser f y Hf. apply getjob_setjob. intros j H. rewrite (proj1 (Hf j)). exact H. Qed.

Lemma setjob_tab_le : forall js ser f, field_edit f -> tab_le js (setjob ser f js).
Proof.
  intros js ser f Hf y. rewrite getjob_edit by exact Hf. destruct (y =? ser) eqn:E.
  - apply N.eqb_eq in E. subst y. destruct (getjob js ser) as [j|]; cbn [option_map]; [|exact I].
    destruct (Hf j) as (_&Hi&Hc&Hp&Hd&He&_). rewrite Hi, Hc, Hp, Hd, He. auto.
  - destruct (getjob js y); auto.
Qed.

(* same objects, same `done` flags *)
Definition tab_eqd (js js' : list job) : Prop :=
  forall x, match getjob js x, getjob js' x with
            | None, None => True
            | Some j, Some j' => j_done j' = j_done j
            | _, _ => False
            end.

Lemma tab_eqd_refl : forall js, tab_eqd js js.
Proof. intros js x. destruct (getjob js x); auto. Qed.

Lemma tab_eqd_trans : forall a b c, tab_eqd a b -> tab_eqd b c -> tab_eqd a c.
Proof.
  intros a b c H1 H2 x. specialize (H1 x). specialize (H2 x).
  destruct (getjob a x), (getjob b x), (getjob c x); try contradiction; auto. congruence.
Qed.

Lemma setjob_eqd : forall js ser f, field_edit f -> tab_eqd js (setjob ser f js).
Proof.
  intros js ser f Hf x. rewrite getjob_edit by exact Hf. destruct (x =? ser) eqn:Ex.
  - apply N.eqb_eq in Ex. subst x. destruct (getjob js ser) as [j|]; cbn [option_map]; [apply Hf|exact I].
  - destruct (getjob js x); auto.
Qed.

(* _mark_finished, the edits of a single field, and the loops made of them let the job table evolve and leave the
   queues, the connections, the waiters, the id counter and the clock alone *)
Record jstep (s s' : state) : Prop := {
  js_tab : tab_le (s_jobs s) (s_jobs s');
  js_queues : s_queues s' = s_queues s;
  js_conns : s_conns s' = s_conns s;
  js_waiters : s_waiters s' = s_waiters s;
  js_count : s_count s' = s_count s;
  js_now : s_now s' = s_now s
}.

Lemma jstep_refl : forall s, jstep s s.
Proof. intro s. constructor; try reflexivity. apply tab_le_refl. Qed.

Lemma jstep_trans : forall a b c, jstep a b -> jstep b c -> jstep a c.
Proof. intros a b c [T1 ? ? ? ? ?] [T2 ? ? ? ? ?]. constructor; try congruence. exact (tab_le_trans _ _ _ T1 T2). Qed.

Lemma mark_jstep : forall x u s, jstep s (mark_finished x u s).
Proof. intros x u s. destruct (mark_fields x u s) as (?&?&?&?&?&?&?). constructor; auto. apply mark_tab_le. Qed.

Lemma edit_jstep : forall ser f s, field_edit f -> jstep s (set_jobs (setjob ser f (s_jobs s)) s).
Proof. intros ser f s Hf. constructor; try reflexivity. apply setjob_tab_le, Hf. Qed.

Lemma killjobs_jstep : forall js s, jstep s (killjobs js s).
Proof.
  intros js s. apply (killjobs_ind (jstep s)); [|apply jstep_refl].
  intros x e s0 H. exact (jstep_trans _ _ _ H (mark_jstep _ _ _)).
Qed.

Lemma timeouts_jstep : forall q s, jstep s (timeouts_loop q s).
Proof.
  intros q s. apply (timeouts_loop_ind (jstep s)); [| |apply jstep_refl].
  - intros x e s0 H. exact (jstep_trans _ _ _ H (mark_jstep _ _ _)).
  - intros v s0 [T ? ? ? ? ?]. constructor; assumption.
Qed.

Lemma dropjobs_jstep : forall js s, jstep s (dropjobs js s).
Proof.
  intros js s. apply (dropjobs_ind (jstep s)); [|apply jstep_refl].
  intros ser s0 H. exact (jstep_trans _ _ _ H (edit_jstep _ _ _ set_drop_edit)).
Qed.

Lemma dropdead_jstep : forall l s, jstep s (dropdead_loop l s).
Proof.
  intros l s. apply (dropdead_loop_ind (jstep s)); [| |apply jstep_refl].
  - intros i ser j s0 [T ? ? ? ? ?] _ _ _. constructor; assumption.
  - intros ser j d s0 H _ _. exact (jstep_trans _ _ _ H (edit_jstep _ _ _ (set_dl_edit d))).
Qed.

Lemma ind_refl : forall x, ind x x = 1%nat.
Proof. intro x. unfold ind. rewrite N.eqb_refl. reflexivity. Qed.

Lemma ind_neq : forall a x, a <> x -> ind a x = 0%nat.
Proof. intros a x H. unfold ind. apply N.eqb_neq in H. rewrite H. reflexivity. Qed.

Lemma ind_cases : forall a x, (a = x /\ ind a x = 1%nat) \/ (a <> x /\ ind a x = 0%nat).
Proof.
  intros a x. unfold ind. destruct (a =? x) eqn:E.
  - left. apply N.eqb_eq in E. auto.
  - right. apply N.eqb_neq in E. auto.
Qed.

Lemma qocc_pos_In : forall x q, qocc x q <> 0%nat -> exists p, In (p, x) q.
Proof.
  intros x q. unfold qocc. induction q as [|[p y] r IH]; cbn [map occ snd]; intro H; [congruence|].
  destruct (ind_cases y x) as [[E _]|[_ E]].
  - subst. exists p. left; reflexivity.
  - rewrite E in H. destruct IH as [p' Hp]; [lia|]. exists p'. right; exact Hp.
Qed.

Lemma qocc_preen : forall js x q, (is_done js x = false \/ qocc x q = 0%nat) -> qocc x (preen js q) = qocc x q.
Proof.
  intros js x q. induction q as [|y r IH]; intro H; cbn [preen]; [reflexivity|].
  destruct (is_done js (snd y)) eqn:D; [|reflexivity].
  unfold qocc in *. cbn [map occ] in *.
  destruct (ind_cases (snd y) x) as [[E _]|[_ E]].
  - subst. destruct H as [H|H]; [congruence|]. rewrite ind_refl in H. lia.
  - rewrite E in *. cbn. apply IH. destruct H; [left; auto|right; lia].
Qed.

Lemma preen_In : forall js q y, In y (preen js q) -> In y q.
Proof.
  intros js q y. induction q as [|z r IH]; cbn [preen]; auto.
  destruct (is_done js (snd z)); intro H; [right; auto|exact H].
Qed.

Lemma preen_head : forall js q y r, preen js q = y :: r -> is_done js (snd y) = false.
Proof.
  intros js q y r. induction q as [|z q IH]; cbn [preen]; [discriminate|].
  destruct (is_done js (snd z)) eqn:D; [exact IH|]. intro H. inversion H; subst. exact D.
Qed.

Lemma want_cases : forall js x n, want js x = Some n ->
  (n = 1%nat /\ is_done js x = false /\ exists j, getjob js x = Some j /\ j_done j = false) \/
  (n = 0%nat /\ getjob js x = None).
Proof.
  intros js x n. unfold want, is_done. destruct (getjob js x) as [j|].
  - destruct (j_done j) eqn:D; [discriminate|]. intro H; inversion H. left. repeat split; auto. exists j; auto.
  - intro H; inversion H. right; auto.
Qed.

Lemma want_undone : forall js x j, getjob js x = Some j -> j_done j = false -> want js x = Some 1%nat.
Proof. intros js x j E D. unfold want. rewrite E, D. reflexivity. Qed.

Lemma occ_qs_preen : forall js x qs,
  (forall k q, In (k, q) qs -> is_done js x = false \/ qocc x q = 0%nat) ->
  occ_qs x (map (fun kq => (fst kq, preen js (snd kq))) qs) = occ_qs x qs.
Proof.
  intros js x qs. induction qs as [|[k q] r IH]; intro H; cbn [map occ_qs fst snd]; [reflexivity|].
  rewrite qocc_preen by (eapply H; left; reflexivity). rewrite IH; [reflexivity|].
  intros k' q' Hin. eapply H. right; exact Hin.
Qed.

Lemma inv_q_absent : forall s L R x k q, Inv s L R -> getjob (s_jobs s) x = None -> In (k, q) (s_queues s) -> qocc x q = 0%nat.
Proof.
  intros s L R x k q I E Hin. destruct (Nat.eq_dec (qocc x q) 0) as [H|H]; [exact H|].
  destruct (qocc_pos_In _ _ H) as [p Hp]. destruct (inv_q _ _ _ I _ _ _ _ Hin Hp) as (j&Ej&_). congruence.
Qed.

Lemma preenall_inv : forall s L R, Inv s L R -> Inv (preenall s) L R.
Proof.
  intros s L R I. unfold preenall. constructor; unfold locs; sf; try (destruct I; assumption).
  - intros x n W. rewrite occ_qs_preen; [apply (inv_cons _ _ _ I); exact W|].
    intros k q Hin. destruct (want_cases _ _ _ W) as [(_&D&_)|(_&E)]; [left; exact D|right].
    eapply inv_q_absent; eauto.
  - intros k q p x Hin Hp. apply in_map_iff in Hin. destruct Hin as ([k0 q0]&Heq&Hin). cbn in Heq. inversion Heq; subst.
    apply preen_In in Hp. eapply (inv_q _ _ _ I); eauto.
Qed.

Lemma preenall_fields : forall s,
  s_jobs (preenall s) = s_jobs s /\ s_conns (preenall s) = s_conns s /\ s_waiters (preenall s) = s_waiters s /\
  s_ids (preenall s) = s_ids s /\ s_count (preenall s) = s_count s.
Proof. intro s. repeat split. Qed.

Lemma id_lookup_set : forall ids i v i',
  id_lookup (id_set ids i v) i' = if jid_eqb i i' then Some v else id_lookup ids i'.
Proof.
  induction ids as [|[k w] r IH]; intros i v i'; cbn [id_set id_lookup].
  - destruct (jid_eqb i i'); reflexivity.
  - destruct (jid_eqb k i) eqn:E; cbn [id_lookup].
    + apply jid_eqb_eq in E. subst k. destruct (jid_eqb i i'); reflexivity.
    + rewrite IH. destruct (jid_eqb k i') eqn:E2; [|reflexivity].
      apply jid_eqb_eq in E2. subst k. rewrite jid_eqb_neq in E.
      destruct (jid_eqb i i') eqn:E3; [|reflexivity]. apply jid_eqb_eq in E3. congruence.
Qed.

Lemma remove_waiter_In : forall c ws w, In w (remove_waiter c ws) -> In w ws.
Proof.
  induction ws as [|y r IH]; cbn [remove_waiter]; intros w H; [exact H|].
  destruct (fst y =? c); [right; exact H|]. destruct H as [H|H]; [left; exact H|right; apply IH; exact H].
Qed.

Lemma remove_waiter_notin : forall c ws, NoDup (map fst ws) -> ~ In c (map fst (remove_waiter c ws)).
Proof.
  induction ws as [|y r IH]; cbn [remove_waiter map]; intros ND; [auto|].
  inversion ND as [|? ? Hn ND']; subst.
  destruct (fst y =? c) eqn:E.
  - apply N.eqb_eq in E. subst. exact Hn.
  - cbn [map]. intros [H|H]; [apply N.eqb_neq in E; congruence|]. apply IH in H; auto.
Qed.

Lemma remove_waiter_nodup : forall c ws, NoDup (map fst ws) -> NoDup (map fst (remove_waiter c ws)).
Proof.
  induction ws as [|y r IH]; cbn [remove_waiter map]; intros ND; [constructor|].
  inversion ND as [|? ? Hn ND']; subst.
  destruct (fst y =? c); [exact ND'|]. cbn [map]. constructor; [|apply IH; exact ND'].
  intro H. apply Hn. apply in_map_iff in H. destruct H as (w&Hw&Hin). apply in_map_iff. exists w. split; [exact Hw|].
  eapply remove_waiter_In; eauto.
Qed.

Lemma get_conn_In_or_new : forall cs c, In (get_conn cs c) cs \/ get_conn cs c = new_conn c.
Proof.
  induction cs as [|y r IH]; intro c; cbn [get_conn]; [right; reflexivity|].
  destruct (c_id y =? c); [left; left; reflexivity|]. destruct (IH c); [left; right; auto|right; auto].
Qed.

Lemma nth_In_default : forall (A : Type) n (l : list A) d, In d l -> In (nth n l d) l.
Proof.
  intros A n l d Hd. destruct (Nat.lt_ge_cases n (length l)) as [H|H].
  - apply nth_In. exact H.
  - rewrite nth_overflow by exact H. exact Hd.
Qed.

Lemma release_spec : forall ser js cs,
  (forall x, occ_conns x (fst (release ser js cs)) = occ_conns x cs) /\
  (forall c, c_run (get_conn (fst (release ser js cs)) c) = c_run (get_conn cs c) /\
             (c_st (get_conn (fst (release ser js cs)) c) = c_st (get_conn cs c) \/
              (c_st (get_conn (fst (release ser js cs)) c) = Idle /\ c_st (get_conn cs c) = BWait ser))) /\
  (forall c', In c' (fst (release ser js cs)) -> exists c0, In c0 cs /\ c_run c' = c_run c0).
Proof.
  intros ser js cs. induction cs as [|y r (IH1&IH2&IH3)].
  - cbn. repeat split; auto. intros c' [].
  - (* the head record keeps its id and its running_jobs; its state changes at most from BWait ser to Idle *)
    assert (HEAD : exists y', fst (release ser js (y :: r)) = y' :: fst (release ser js r) /\
              c_id y' = c_id y /\ c_run y' = c_run y /\
              (c_st y' = c_st y \/ (c_st y' = Idle /\ c_st y = BWait ser))).
    { cbn [release]. destruct (release ser js r) as [r' o].
      assert (SAME : exists y', y :: r' = y' :: r' /\ c_id y' = c_id y /\ c_run y' = c_run y /\
                (c_st y' = c_st y \/ (c_st y' = Idle /\ c_st y = BWait ser))) by (exists y; auto).
      destruct (c_st y) as [| |w|] eqn:ES; try exact SAME.
      destruct (w =? ser) eqn:EW; [|exact SAME]. apply N.eqb_eq in EW. subst w.
      eexists. cbn [fst]. split; [reflexivity|]. cbn [c_id c_run c_st]. auto. }
    destruct HEAD as (y'&E&Hid&Hrun&Hst). rewrite E. split; [|split].
    + intro x. cbn [occ_conns]. rewrite IH1. f_equal. unfold occ_conn. rewrite Hrun.
      destruct Hst as [->|[-> ->]]; reflexivity.
    + intro c. cbn [get_conn]. rewrite Hid. destruct (c_id y =? c); [split; [exact Hrun|exact Hst]|apply IH2].
    + intros c' [H|H]; [subst c'; exists y; split; [left; reflexivity|exact Hrun]|].
      destruct (IH3 _ H) as (c0&H0&H1). exists c0. split; [right; exact H0|exact H1].
Qed.

Lemma run_events_cons : forall e r s,
  run_events (e :: r) s =
  (fst (run_events r (fst (run_event e s))), snd (run_event e s) ++ snd (run_events r (fst (run_event e s)))).
Proof. intros e r s. cbn [run_events]. destruct (run_event e s) as [s1 o1]. cbn [fst snd]. destruct (run_events r s1). reflexivity. Qed.

Definition ledger (s : state) := (s_jobs s, s_count s, s_cnt s).

(* a state transformer that neither touches the job table nor queues / consumes a finish notification *)
Definition nnd (s s' : state) : Prop :=
  s_jobs s' = s_jobs s /\ forall ser, In (EvDone ser) (s_hub s') <-> In (EvDone ser) (s_hub s).

Lemma nnd_refl : forall s, nnd s s.
Proof. intro s. split; [reflexivity|intro; tauto]. Qed.

Lemma nnd_trans : forall a b c, nnd a b -> nnd b c -> nnd a c.
Proof. intros a b c [J1 H1] [J2 H2]. split; [congruence|]. intro ser. rewrite H2. apply H1. Qed.

Lemma nnd_same : forall s s', s_jobs s' = s_jobs s -> s_hub s' = s_hub s -> nnd s s'.
Proof. intros s s' J H. split; [exact J|]. intro ser. rewrite H. tauto. Qed.

(* Hand-offs, deliveries, re-queues, the death of a connection and whole hub turns move jobs between queues,
   mailboxes and running_jobs.  They touch neither the job table, the id counter nor the outcome counters; they
   neither queue nor consume a finish notification; and they block nobody in a wait. *)
Record qmove (s s' : state) : Prop := {
  qm_ledger : ledger s' = ledger s;
  qm_done : forall ser, In (EvDone ser) (s_hub s') <-> In (EvDone ser) (s_hub s);
  qm_wait : forall c ser, c_st (get_conn (s_conns s') c) = BWait ser -> c_st (get_conn (s_conns s) c) = BWait ser
}.

Lemma qmove_refl : forall s, qmove s s.
Proof. intro s. constructor; [reflexivity|intro; reflexivity|auto]. Qed.

Lemma qmove_trans : forall a b c, qmove a b -> qmove b c -> qmove a c.
Proof.
  intros a b c [C1 D1 W1] [C2 D2 W2]. constructor; [congruence| |auto].
  intro ser. rewrite D2. apply D1.
Qed.

Lemma qmove_same : forall s s', ledger s' = ledger s -> s_hub s' = s_hub s -> s_conns s' = s_conns s -> qmove s s'.
Proof. intros s s' C H K. constructor; [exact C|rewrite H; reflexivity|rewrite K; auto]. Qed.

Lemma qmove_jobs : forall s s', qmove s s' -> s_jobs s' = s_jobs s.
Proof. intros s s' [C _ _]. unfold ledger in C. congruence. Qed.

Lemma qmove_nnd : forall s s', qmove s s' -> nnd s s'.
Proof. intros s s' M. split; [apply qmove_jobs; exact M|apply M]. Qed.

Lemma in_done_snoc : forall ser es e, (forall x, e <> EvDone x) -> (In (EvDone ser) (es ++ [e]) <-> In (EvDone ser) es).
Proof.
  intros ser es e He. split; intro H.
  - apply in_app_or in H. destruct H as [H|[H|[]]]; [exact H|]. exfalso. eapply He; eauto.
  - apply in_or_app. left; exact H.
Qed.

(* a connection record replaced by one that is not blocked in a wait *)
Lemma bwait_put : forall cs x c ser, (forall w, c_st x <> BWait w) ->
  c_st (get_conn (put_conn cs x) c) = BWait ser -> c_st (get_conn cs c) = BWait ser.
Proof.
  intros cs x c ser Hx H. destruct (N.eq_dec (c_id x) c) as [E|E].
  - subst c. rewrite get_put_same in H. destruct (Hx _ H).
  - rewrite get_put_other in H by exact E. exact H.
Qed.

Lemma pushjob_qmove : forall x s, qmove s (pushjob x s).
Proof.
  intros x s. unfold pushjob. destruct (getjob (s_jobs s) x) as [j|]; [|apply qmove_refl]. cbv zeta. sf.
  destruct (filter (watches (j_chan j)) (s_waiters s)); [apply qmove_same; reflexivity|].
  constructor; sf; [reflexivity|intro ser; apply in_done_snoc; discriminate|intros c ser; apply bwait_put; discriminate].
Qed.

Lemma deliver_qmove : forall c chs x s, qmove s (fst (deliver c chs x s)).
Proof.
  intros. unfold deliver. destruct (getjob (s_jobs s) x); cbn [fst]; [|apply qmove_refl].
  constructor; sf; [reflexivity|intro; reflexivity|intros c0 ser; apply bwait_put; discriminate].
Qed.

Lemma pop_qmove : forall c chs s, qmove s (fst (pop_or_block c chs s)).
Proof.
  intros. unfold pop_or_block. cbv zeta. destruct (heads _ _) as [x|].
  - destruct (getjob _ _); [|apply qmove_same; reflexivity].
    eapply qmove_trans; [|apply deliver_qmove]. apply qmove_same; reflexivity.
  - constructor; sf; [reflexivity|intro; reflexivity|intros c0 ser; apply bwait_put; discriminate].
Qed.

Lemma shutdown_qmove : forall l s, qmove s (shutdown_loop l s).
Proof.
  induction l as [|[i w] r IH]; intro s; cbn [shutdown_loop]; [apply qmove_refl|].
  destruct (is_done (s_jobs s) w); [apply IH|].
  eapply qmove_trans; [|apply IH]. eapply qmove_trans; [|apply pushjob_qmove]. apply qmove_same; reflexivity.
Qed.

Lemma die_qmove : forall c s, qmove s (fst (die c s)).
Proof.
  intros. unfold die. cbv zeta. cbn [fst]. eapply qmove_trans; [|apply shutdown_qmove].
  constructor; sf; [reflexivity|intro; reflexivity|intros c0 ser; apply bwait_put; discriminate].
Qed.

Lemma run_event_qmove : forall e s, qmove s (fst (run_event e s)).
Proof.
  intros e s. destruct e as [c|c|ser]; cbn [run_event].
  - destruct (c_st (get_conn (s_conns s) c)) as [|chs [x|]|w|]; try apply qmove_refl.
    destruct (is_done (s_jobs s) x); [apply pop_qmove|apply deliver_qmove].
  - destruct (c_st (get_conn (s_conns s) c)) as [|chs mb|w|]; try apply qmove_refl; try apply die_qmove.
    eapply qmove_trans; [|apply die_qmove]. destruct mb as [x|]; [|apply qmove_same; reflexivity].
    sf. destruct (is_done (s_jobs s) x); [apply qmove_same; reflexivity|].
    eapply qmove_trans; [|apply pushjob_qmove]. apply qmove_same; reflexivity.
  - (* the notifier only turns waiters of `ser` idle *)
    destruct (release_spec ser (s_jobs s) (s_conns s)) as (_&R&_).
    assert (W : forall c w, c_st (get_conn (fst (release ser (s_jobs s) (s_conns s))) c) = BWait w ->
                            c_st (get_conn (s_conns s) c) = BWait w).
    { intros c w H. destruct (R c) as [_ [E|[E _]]]; congruence. }
    destruct (release ser (s_jobs s) (s_conns s)) as [cs o]. cbn [fst] in W.
    destruct (getjob (s_jobs s) ser) as [j|];
      [destruct (j_drop j && has_waiter ser (s_conns s) && id_is (s_ids s) (j_id j) ser)|];
      (constructor; [reflexivity|intro; reflexivity|exact W]).
Qed.

Lemma run_events_qmove : forall es s, qmove s (fst (run_events es s)).
Proof.
  induction es as [|e r IH]; intro s; [apply qmove_refl|]. rewrite run_events_cons. cbn [fst].
  eapply qmove_trans; [apply run_event_qmove|apply IH].
Qed.

Lemma pushjob_jobs : forall x s, s_jobs (pushjob x s) = s_jobs s /\ s_count (pushjob x s) = s_count s.
Proof. intros x s. pose proof (qm_ledger _ _ (pushjob_qmove x s)) as C. unfold ledger in C. split; congruence. Qed.

Lemma deliver_jobs : forall c chs x s, s_jobs (fst (deliver c chs x s)) = s_jobs s.
Proof. intros. apply qmove_jobs, deliver_qmove. Qed.

Lemma pop_jobs : forall c chs s, s_jobs (fst (pop_or_block c chs s)) = s_jobs s.
Proof. intros. apply qmove_jobs, pop_qmove. Qed.

Lemma shutdown_jobs : forall l s, s_jobs (shutdown_loop l s) = s_jobs s.
Proof. intros. apply qmove_jobs, shutdown_qmove. Qed.

Lemma die_jobs : forall c s, s_jobs (fst (die c s)) = s_jobs s.
Proof. intros. apply qmove_jobs, die_qmove. Qed.

Lemma run_event_jobs : forall e s, s_jobs (fst (run_event e s)) = s_jobs s.
Proof. intros. apply qmove_jobs, run_event_qmove. Qed.

Lemma run_events_jobs : forall es s, s_jobs (fst (run_events es s)) = s_jobs s.
Proof. intros. apply qmove_jobs, run_events_qmove. Qed.

Lemma conn_run_exists : forall s L R c i w, Inv s L R -> In (i, w) (c_run (get_conn (s_conns s) c)) ->
  exists j, getjob (s_jobs s) w = Some j /\ j_id j = i.
Proof.
  intros s L R c i w I H. destruct (get_conn_In_or_new (s_conns s) c) as [H0|H0].
  - eapply (inv_run _ _ _ I); eauto.
  - rewrite H0 in H. destruct H.
Qed.

Lemma not_waiter : forall s L R c, Inv s L R ->
  (forall chs', c_st (get_conn (s_conns s) c) <> BPull chs' None) -> ~ In c (map fst (s_waiters s)).
Proof.
  intros s L R c I NW Hin. apply in_map_iff in Hin. destruct Hin as ([c' chs']&Hf&Hin). cbn in Hf. subst c'.
  apply (inv_wait _ _ _ I) in Hin. eapply NW; eauto.
Qed.

(* The record of one connection is replaced, the job table, the queues and the id counter stay.  The counting clause
   is an equation between the old record, the new one and the lists of jobs in hand; what Inv says about
   running_jobs entries and the mailbox has to hold of the new record only; the other waiters were waiters, and
   this connection is one only if it blocks with an empty mailbox. *)
Lemma inv_put_conn : forall s s' x L R L' R',
  Inv s L R ->
  s_jobs s' = s_jobs s -> s_queues s' = s_queues s -> s_count s' = s_count s ->
  s_conns s' = put_conn (s_conns s) x ->
  (forall y n, want (s_jobs s) y = Some n ->
     (occ_conn y x + occ y L' + occ y R = occ_conn y (get_conn (s_conns s) (c_id x)) + occ y L + occ y R')%nat) ->
  (forall y j, getjob (s_jobs s) y = Some j -> j_done j = false -> occ y L' = 0%nat ->
     id_lookup (s_ids s') (j_id j) = Some y) ->
  (forall c chs, In (c, chs) (s_waiters s') -> c <> c_id x -> In (c, chs) (s_waiters s)) ->
  (forall chs, In (c_id x, chs) (s_waiters s') -> c_st x = BPull chs None) ->
  NoDup (map fst (s_waiters s')) ->
  (forall i w, In (i, w) (c_run x) -> exists j, getjob (s_jobs s) w = Some j /\ j_id j = i) ->
  (forall chs y, c_st x = BPull chs (Some y) -> exists j, getjob (s_jobs s) y = Some j /\ eligible (j_chan j) chs) ->
  Inv s' L' R'.
Proof.
  intros s s' x L R L' R' I Hj Hq Hn Hc CNT ADDR OTHER SELF WND RUN MB.
  constructor; unfold locs; rewrite ?Hj, ?Hq, ?Hn, ?Hc; try (destruct I; assumption).
  - intros y n W. pose proof (inv_cons _ _ _ I y n W) as H. unfold locs in H.
    pose proof (occ_conns_put y (s_conns s) x). specialize (CNT y n W). lia.
  - intros c chs Hin. destruct (N.eq_dec c (c_id x)) as [->|Hne].
    + rewrite get_put_same. apply SELF. exact Hin.
    + rewrite get_put_other by congruence. apply (inv_wait _ _ _ I). apply OTHER; assumption.
  - intros c i w Hin Hr. apply put_conn_In in Hin. destruct Hin as [->|Hin]; [auto|]. eapply (inv_run _ _ _ I); eauto.
  - intros c chs y H. destruct (N.eq_dec (c_id x) c) as [E|E].
    + subst c. rewrite get_put_same in H. auto.
    + rewrite get_put_other in H by exact E. apply (inv_mb _ _ _ I) in H. exact H.
Qed.

Lemma watches_eligible : forall ch w, watches ch w = true -> eligible ch (snd w).
Proof. intros ch [c chs]. unfold watches, eligible. cbn [snd]. destruct chs; [left; reflexivity|right; assumption]. Qed.

Lemma pushjob_inv : forall x s L R j,
  Inv s (x :: L) R -> getjob (s_jobs s) x = Some j -> j_done j = false ->
  Inv (pushjob x s) L R.
Proof.
  intros x s L R j I E D. unfold pushjob. rewrite E. cbv zeta. sf.
  assert (ADDR : forall y jy, getjob (s_jobs s) y = Some jy -> j_done jy = false -> occ y L = 0%nat ->
                 id_lookup (id_set (s_ids s) (j_id j) x) (j_id jy) = Some y).
  { intros y jy Ey Dy Oy. rewrite id_lookup_set. destruct (jid_eqb (j_id j) (j_id jy)) eqn:Eid.
    - apply jid_eqb_eq in Eid. f_equal. eapply (inv_uniq _ _ _ I); eauto.
    - apply (inv_addr _ _ _ I); auto. cbn [occ].
      destruct (ind_cases x y) as [[Exy _]|[_ Exy]]; [|lia].
      subst. rewrite E in Ey. inversion Ey; subst. rewrite jid_eqb_refl in Eid. discriminate. }
  destruct (filter (watches (j_chan j)) (s_waiters s)) as [|a0 alts'] eqn:EA.
  - (* queued *)
    constructor; unfold locs; sf; try (destruct I; assumption).
    + intros y n W. pose proof (inv_cons _ _ _ I y n W) as H. unfold locs in H. cbn [occ] in H.
      pose proof (occ_qs_set y (s_queues s) (j_chan j) (ins (j_prio j, x) (qget (s_queues s) (j_chan j)))) as H2.
      rewrite qocc_ins in H2. cbn [snd] in H2. unfold qget in *. lia.
    + intros k q p y Hin Hp. apply q_set_In in Hin. destruct Hin as [[Hk Hq]|Hin].
      * subst. apply ins_In in Hp. destruct Hp as [Hp|Hp].
        -- inversion Hp; subst. exists j. auto.
        -- destruct (q_get (s_queues s) (j_chan j)) as [q0|] eqn:Eq; [|destruct Hp].
           apply q_get_In in Eq. eapply (inv_q _ _ _ I); eauto.
      * eapply (inv_q _ _ _ I); eauto.
  - (* handed to a blocked puller *)
    remember (nth (N.to_nat ((match s_choices s with [] => 0 | k :: _ => k end) mod N.of_nat (length (a0 :: alts')))) (a0 :: alts') a0) as w.
    assert (Hw : In w (a0 :: alts')) by (subst w; apply nth_In_default; left; reflexivity).
    rewrite <- EA in Hw. apply filter_In in Hw. destruct Hw as [Hw1 Hw2].
    destruct w as [c chs]. sf.
    pose proof (inv_wait _ _ _ I _ _ Hw1) as Hst.
    apply (inv_put_conn s _ (mkConn c (BPull chs (Some x)) (c_run (get_conn (s_conns s) c))) (x :: L) R L R I);
      try reflexivity; sf.
    + intros y n W. unfold occ_conn. sf. rewrite Hst. cbn [mb_occ occ]. lia.
    + exact ADDR.
    + intros c' chs' Hin _. eapply remove_waiter_In; exact Hin.
    + intros chs' Hin. destruct (remove_waiter_notin c _ (inv_wnd _ _ _ I) (in_map fst _ _ Hin)).
    + apply remove_waiter_nodup. apply (inv_wnd _ _ _ I).
    + intros i w0. apply (conn_run_exists _ _ _ _ _ _ I).
    + intros chs' y Hs. inversion Hs; subst. exists j. split; auto. apply (watches_eligible _ _ Hw2).
Qed.

Definition old_occ (l : list (jid * N)) (i : jid) (x : N) : nat :=
  match id_lookup l i with Some w => ind w x | None => 0%nat end.

Lemma occ_run_set : forall x l i v,
  (occ x (map snd (run_set l i v)) + old_occ l i x = occ x (map snd l) + ind v x)%nat.
Proof.
  intros x l i v. unfold old_occ. induction l as [|[k w] r IH]; cbn [run_set id_lookup map occ snd].
  - lia.
  - destruct (jid_eqb k i); cbn [map occ snd]; [lia|]. destruct (id_lookup r i); lia.
Qed.

Lemma run_set_In : forall l i v k w, In (k, w) (run_set l i v) -> (k = i /\ w = v) \/ In (k, w) l.
Proof.
  induction l as [|[k0 w0] r IH]; cbn [run_set]; intros i v k w H.
  - destruct H as [H|[]]. inversion H; auto.
  - destruct (jid_eqb k0 i) eqn:E.
    + destruct H as [H|H]; [|right; right; exact H]. inversion H; subst. apply jid_eqb_eq in E. auto.
    + destruct H as [H|H]; [right; left; exact H|]. destruct (IH _ _ _ _ H); [left; auto|right; right; auto].
Qed.

Lemma id_lookup_In : forall l i w, id_lookup l i = Some w -> In (i, w) l.
Proof.
  induction l as [|[k0 w0] r IH]; cbn [id_lookup]; intros i w H; [discriminate|].
  destruct (jid_eqb k0 i) eqn:E.
  - apply jid_eqb_eq in E. inversion H; subst. left; reflexivity.
  - right. apply IH. exact H.
Qed.

Lemma occ_conn_le : forall x cs c, (occ_conn x (get_conn cs c) <= occ_conns x cs)%nat.
Proof.
  intros x cs c. induction cs as [|y r IH]; cbn [get_conn occ_conns].
  - rewrite occ_conn_new. lia.
  - destruct (c_id y =? c); lia.
Qed.

Lemma occ_pos_In : forall x l, occ x l <> 0%nat -> In x l.
Proof.
  intros x l. induction l as [|y r IH]; cbn [occ]; intro H; [congruence|].
  destruct (ind_cases y x) as [[E _]|[_ E]]; [left; exact E|]. right. apply IH. lia.
Qed.

Lemma In_occ_pos : forall x l, In x l -> (1 <= occ x l)%nat.
Proof.
  intros x l. induction l as [|y r IH]; cbn [occ]; intro H; [destruct H|].
  destruct H as [H|H]; [subst; rewrite ind_refl; lia|]. apply IH in H. lia.
Qed.

Lemma deliver_inv : forall c chs x s L0 L1 j,
  Inv s L0 [] -> getjob (s_jobs s) x = Some j -> j_done j = false ->
  id_lookup (s_ids s) (j_id j) = Some x ->
  (forall y n, want (s_jobs s) y = Some n ->
             (occ y L0 + mb_occ y (c_st (get_conn (s_conns s) c)) = ind x y + occ y L1)%nat) ->
  (forall chs', c_st (get_conn (s_conns s) c) <> BPull chs' None) ->
  Inv (fst (deliver c chs x s)) L1 [].
Proof.
  intros c chs x s L0 L1 j I E D A HL Hnw. unfold deliver. rewrite E. cbv zeta. sf.
  set (cn := get_conn (s_conns s) c) in *.
  pose proof (not_waiter s L0 [] c I Hnw) as NW.
  assert (OLD : forall y n, want (s_jobs s) y = Some n -> old_occ (c_run cn) (j_id j) y = 0%nat).
  { intros y n W. unfold old_occ. destruct (id_lookup (c_run cn) (j_id j)) as [w|] eqn:El; [|reflexivity].
    destruct (ind_cases w y) as [[Ewy _]|[_ Ewy]]; [|exact Ewy]. subst w. exfalso.
    apply id_lookup_In in El. destruct (conn_run_exists _ _ _ _ _ _ I El) as (jy&Ey&Hid).
    destruct (want_cases _ _ _ W) as [(_&_&jy'&Ey'&Dy)|(_&En)]; [|congruence].
    rewrite Ey in Ey'. inversion Ey'; subst jy'.
    assert (y = x) by (eapply (inv_uniq _ _ _ I); eauto). subst y.
    pose proof (want_undone _ _ _ E D) as W1.
    pose proof (inv_cons _ _ _ I x 1%nat W1) as H. unfold locs in H.
    pose proof (occ_conn_le x (s_conns s) c) as H2. fold cn in H2. unfold occ_conn in H2.
    assert (1 <= occ x (map snd (c_run cn)))%nat.
    { apply In_occ_pos. apply in_map_iff. exists (j_id j, x). auto. }
    specialize (HL x _ W1). rewrite ind_refl in HL. cbn [occ] in H. lia. }
  apply (inv_put_conn s _ (mkConn c Idle (run_set (c_run cn) (j_id j) x)) L0 [] L1 [] I); try reflexivity; sf.
  - intros y n W. unfold occ_conn. sf. fold cn. cbn [mb_occ occ].
    pose proof (occ_run_set y (c_run cn) (j_id j) x) as H3. rewrite (OLD y n W) in H3.
    specialize (HL y n W). lia.
  - intros y jy Ey Dy Oy. destruct (N.eq_dec y x) as [Eyx|Eyx].
    + subst y. rewrite E in Ey. inversion Ey; subst. exact A.
    + apply (inv_addr _ _ _ I); auto.
      specialize (HL y _ (want_undone _ _ _ Ey Dy)). rewrite ind_neq in HL by congruence. lia.
  - auto.
  - intros chs' Hin. destruct (NW (in_map fst _ _ Hin)).
  - apply (inv_wnd _ _ _ I).
  - intros i w Hr. apply run_set_In in Hr. destruct Hr as [[Hi Hw]|Hr].
    + subst. exists j. auto.
    + eapply conn_run_exists; eauto.
  - discriminate.
Qed.

Lemma heads_spec : forall qs chs x, heads qs chs = Some x ->
  exists k rest, In k chs /\ q_get qs k = Some (x :: rest).
Proof.
  intros qs chs. induction chs as [|c r IH]; cbn [heads]; intros x H; [discriminate|].
  destruct (q_get qs c) as [[|y rest]|] eqn:E.
  - destruct (IH _ H) as (k&rest&Hk&Hq). exists k, rest. split; [right; auto|auto].
  - destruct (heads qs r) as [z|] eqn:Eh.
    + destruct (key_lt z y).
      * inversion H; subst. destruct (IH _ eq_refl) as (k&rest'&Hk&Hq). exists k, rest'. split; [right; auto|auto].
      * inversion H; subst. exists c, rest. split; [left; auto|auto].
    + inversion H; subst. exists c, rest. split; [left; auto|auto].
  - destruct (IH _ H) as (k&rest&Hk&Hq). exists k, rest. split; [right; auto|auto].
Qed.

Lemma q_get_map : forall (f : list qkey -> list qkey) qs k,
  q_get (map (fun kq => (fst kq, f (snd kq))) qs) k = option_map f (q_get qs k).
Proof.
  intros f qs k. induction qs as [|[k0 q0] r IH]; cbn [map q_get fst snd]; [reflexivity|].
  destruct (k0 =? k); [reflexivity|exact IH].
Qed.

Lemma preenall_head : forall s k y r,
  q_get (s_queues (preenall s)) k = Some (y :: r) -> is_done (s_jobs s) (snd y) = false.
Proof.
  intros s k y r H. unfold preenall in H. sf. rewrite q_get_map in H.
  destruct (q_get (s_queues s) k) as [q|]; cbn [option_map] in H; [|discriminate]. inversion H as [H1].
  exact (preen_head _ _ _ _ H1).
Qed.

(* what pop takes: the head of the preened queue of a requested channel, an unfinished job of that channel *)
Lemma pop_head : forall s L R chs p x, Inv s L R -> heads (s_queues (preenall s)) chs = Some (p, x) ->
  exists k rest j, In k chs /\ q_get (s_queues (preenall s)) k = Some ((p, x) :: rest) /\
    getjob (s_jobs s) x = Some j /\ j_done j = false /\ j_chan j = k /\ j_prio j = p.
Proof.
  intros s L R chs p x I EH. destruct (heads_spec _ _ _ EH) as (k&rest&Hk&Hq).
  destruct (inv_q _ _ _ (preenall_inv _ _ _ I) _ _ _ _ (q_get_In _ _ _ Hq) (or_introl eq_refl)) as (j&Ej&Hch&Hp).
  change (getjob (s_jobs s) x = Some j) in Ej. exists k, rest, j. split; [exact Hk|]. split; [exact Hq|]. split; [exact Ej|]. split; [|split; assumption].
  apply preenall_head in Hq. unfold is_done in Hq. cbn [snd] in Hq. rewrite Ej in Hq. exact Hq.
Qed.

Lemma NoDup_snoc : forall (l : list N) c, NoDup l -> ~ In c l -> NoDup (l ++ [c]).
Proof.
  induction l as [|y r IH]; cbn [app]; intros c ND Hn.
  - constructor; [intros []|constructor].
  - inversion ND; subst. constructor.
    + intro H. apply in_app_or in H. destruct H as [H|[H|[]]]; [contradiction|]. subst. apply Hn. left; reflexivity.
    + apply IH; auto. intro H. apply Hn. right; exact H.
Qed.

Lemma pop_or_block_inv : forall c chs s,
  Inv s [] [] ->
  (forall y n, want (s_jobs s) y = Some n -> mb_occ y (c_st (get_conn (s_conns s) c)) = 0%nat) ->
  (forall chs', c_st (get_conn (s_conns s) c) <> BPull chs' None) ->
  Inv (fst (pop_or_block c chs s)) [] [].
Proof.
  intros c chs s I MB NW. unfold pop_or_block. cbv zeta.
  pose proof (preenall_inv _ _ _ I) as I1. destruct (preenall_fields s) as (Hj&Hc&Hw&Hi&Hn).
  set (s1 := preenall s) in *.
  destruct (heads (s_queues s1) _) as [[p x]|] eqn:EH.
  - destruct (pop_head _ _ _ _ _ _ I EH) as (k&rest&j&_&Hq&Ej&Dj&Hch&Hp). fold s1 in Hq. rewrite <- Hj in Ej. cbn [snd].
    pose proof (q_get_In _ _ _ Hq) as Hin.
    rewrite Ej. rewrite Hch, Hq. cbn [tl].
    set (s2 := set_queues (q_set (s_queues s1) k rest) s1).
    assert (I2 : Inv s2 [x] []).
    { constructor; unfold locs, s2; sf; try (destruct I1; assumption).
      * intros y n W. pose proof (inv_cons _ _ _ I1 y n W) as H. unfold locs in H.
        pose proof (occ_qs_set y (s_queues s1) k rest) as H2. unfold qget in H2. rewrite Hq in H2.
        change (qocc y ((p, x) :: rest)) with (ind x y + qocc y rest)%nat in H2. cbn [occ] in *. lia.
      * intros y jy Ey Dy Oy. apply (inv_addr _ _ _ I1); auto.
      * intros k' q' p' y Hin' Hp'. apply q_set_In in Hin'. destruct Hin' as [[Hk Hq']|Hin'].
        -- subst. eapply (inv_q _ _ _ I1); eauto. right; exact Hp'.
        -- eapply (inv_q _ _ _ I1); eauto. }
    apply (deliver_inv c chs x s2 [x] [] j I2 Ej Dj).
    + apply (inv_addr _ _ _ I1); auto.
    + intros y n W. unfold s2 in *. sf. rewrite Hc. rewrite Hj in W. rewrite (MB y n W). cbn [occ]. lia.
    + unfold s2. sf. rewrite Hc. exact NW.
  - sf.
    assert (NW1 : ~ In c (map fst (s_waiters s1))) by (apply (not_waiter s1 [] [] c I1); rewrite Hc; exact NW).
    apply (inv_put_conn s1 _ (mkConn c (BPull chs None) (c_run (get_conn (s_conns s1) c))) [] [] [] [] I1);
      try reflexivity; sf.
    + intros y n W. unfold occ_conn. sf. rewrite Hj in W. rewrite Hc, (MB y n W). reflexivity.
    + apply (inv_addr _ _ _ I1).
    + intros c' chs' Hin Hne. apply in_app_or in Hin. destruct Hin as [Hin|[Hin|[]]]; [exact Hin|]. inversion Hin. congruence.
    + intros chs' Hin. apply in_app_or in Hin. destruct Hin as [Hin|[Hin|[]]]; [|inversion Hin; reflexivity].
      destruct (NW1 (in_map fst _ _ Hin)).
    + rewrite map_app. apply NoDup_snoc; [apply (inv_wnd _ _ _ I1)|exact NW1].
    + intros i w. apply (conn_run_exists _ _ _ _ _ _ I1).
    + discriminate.
Qed.

Lemma inv_drop_done : forall s w L R, Inv s (w :: L) R -> is_done (s_jobs s) w = true ->
  getjob (s_jobs s) w <> None -> Inv s L R.
Proof.
  intros s w L R I D Ex. constructor; try (destruct I; assumption).
  - intros y n W. pose proof (inv_cons _ _ _ I y n W) as H. cbn [occ] in H.
    rewrite ind_neq in H; [exact H|]. intro; subst y.
    destruct (want_cases _ _ _ W) as [(_&D'&_)|(_&E)]; congruence.
  - intros y jy Ey Dy Oy. apply (inv_addr _ _ _ I); auto. cbn [occ]. rewrite ind_neq; [lia|].
    intro; subst y. unfold is_done in D. rewrite Ey in D. congruence.
Qed.

Lemma inv_same : forall s s' L R, Inv s L R ->
  s_jobs s' = s_jobs s -> s_queues s' = s_queues s -> s_conns s' = s_conns s -> s_waiters s' = s_waiters s ->
  s_ids s' = s_ids s -> s_count s' = s_count s -> Inv s' L R.
Proof.
  intros s s' L R I Hj Hq Hc Hw Hi Hn. eapply inv_tab_le; eauto. rewrite Hj. apply tab_le_refl.
Qed.

Lemma is_done_false : forall js x, is_done js x = false -> exists j, getjob js x = Some j /\ j_done j = false.
Proof. intros js x. unfold is_done. destruct (getjob js x) as [j|]; [eauto|discriminate]. Qed.

Lemma shutdown_loop_inv : forall l s L R,
  Inv s (map snd l ++ L) R ->
  (forall i w, In (i, w) l -> getjob (s_jobs s) w <> None) ->
  Inv (shutdown_loop l s) L R.
Proof.
  induction l as [|[i w] r IH]; intros s L R I Ex; cbn [shutdown_loop map app snd] in *; [exact I|].
  destruct (is_done (s_jobs s) w) eqn:D.
  - apply IH.
    + eapply inv_drop_done; eauto. eapply Ex. left; reflexivity.
    + intros i' w' Hin. eapply Ex. right; exact Hin.
  - destruct (is_done_false _ _ D) as (j&Ej&Dj).
    apply IH.
    + eapply pushjob_inv with (j := j); sf; auto. eapply inv_same; eauto.
    + intros i' w' Hin. destruct (pushjob_jobs w (set_requeued (w :: s_requeued s) s)) as [Hj _]. rewrite Hj. sf.
      eapply Ex. right; exact Hin.
Qed.

Lemma die_inv : forall c s L R M,
  Inv s L (M ++ R) ->
  (forall y n, want (s_jobs s) y = Some n -> mb_occ y (c_st (get_conn (s_conns s) c)) = occ y M) ->
  ~ In c (map fst (s_waiters s)) ->
  Inv (fst (die c s)) L R.
Proof.
  intros c s L R M I MB NW. unfold die. cbv zeta. cbn [fst].
  set (cn := get_conn (s_conns s) c) in *.
  apply shutdown_loop_inv.
  - apply (inv_put_conn s _ (mkConn c Dead []) L (M ++ R) (map snd (c_run cn) ++ L) R I); try reflexivity; sf.
    + intros y n W. unfold occ_conn. sf. fold cn. cbn [mb_occ map occ]. rewrite (MB y n W), !occ_app. lia.
    + intros y jy Ey Dy Oy. apply (inv_addr _ _ _ I); auto. rewrite occ_app in Oy. lia.
    + auto.
    + intros chs Hin. destruct (NW (in_map fst _ _ Hin)).
    + apply (inv_wnd _ _ _ I).
    + intros i w [].
    + discriminate.
  - sf. intros i w Hin. destruct (conn_run_exists _ _ _ _ _ _ I Hin) as (j&Ej&_). congruence.
Qed.

Lemma pushjob_conn_other : forall x s c, ~ In c (map fst (s_waiters s)) ->
  get_conn (s_conns (pushjob x s)) c = get_conn (s_conns s) c.
Proof.
  intros x s c Hn. unfold pushjob. destruct (getjob (s_jobs s) x) as [j|]; [|reflexivity]. cbv zeta. sf.
  destruct (filter (watches (j_chan j)) (s_waiters s)) as [|a0 alts'] eqn:EA; sf; [reflexivity|].
  remember (nth _ (a0 :: alts') a0) as w.
  assert (Hw : In w (a0 :: alts')) by (subst w; apply nth_In_default; left; reflexivity).
  rewrite <- EA in Hw. apply filter_In in Hw. destruct Hw as [Hw1 _].
  apply get_put_other. sf. intro; subst c. apply Hn. apply in_map. exact Hw1.
Qed.

Lemma pushjob_waiters_sub : forall x s w, In w (s_waiters (pushjob x s)) -> In w (s_waiters s).
Proof.
  intros x s w. unfold pushjob. destruct (getjob (s_jobs s) x) as [j|]; [|auto]. cbv zeta. sf.
  destruct (filter (watches (j_chan j)) (s_waiters s)); sf; [auto|]. apply remove_waiter_In.
Qed.

Lemma mb_done_occ : forall s L R c chs ser y n, Inv s L R ->
  c_st (get_conn (s_conns s) c) = BPull chs (Some ser) -> is_done (s_jobs s) ser = true ->
  want (s_jobs s) y = Some n -> ind ser y = 0%nat.
Proof.
  intros s L R c chs ser y n I Hs D W. destruct (ind_cases ser y) as [[E _]|[_ E]]; [|exact E]. subst y. exfalso.
  destruct (inv_mb _ _ _ I _ _ _ Hs) as (j&Ej&_).
  destruct (want_cases _ _ _ W) as [(_&D'&_)|(_&E)]; congruence.
Qed.

(* the death of a connection whose mailbox holds no unfinished job *)
Lemma die_inv_free : forall c s, Inv s [] [] ->
  (forall chs x, c_st (get_conn (s_conns s) c) = BPull chs (Some x) -> is_done (s_jobs s) x = true) ->
  ~ In c (map fst (s_waiters s)) ->
  Inv (fst (die c s)) [] [].
Proof.
  intros c s I MB NW. apply die_inv with (M := []); [exact I| |exact NW].
  intros y n W. destruct (c_st (get_conn (s_conns s) c)) as [|chs [x|]|w|] eqn:ES; try reflexivity.
  cbn [mb_occ occ]. exact (mb_done_occ _ _ _ _ _ _ _ _ I ES (MB _ _ eq_refl) W).
Qed.

(* side invariant on the job table: only finished jobs carry a dropdead deadline (so the watchdog only
   forgets finished jobs) *)
Definition Aux (s : state) : Prop :=
  forall x j, getjob (s_jobs s) x = Some j -> j_done j = false -> j_dl j = None.

(* the jobs whose finish notification is queued in the hub are finished (finish_event.set() is called by
   _mark_finished only, after job.done = True) *)
Definition really_done (js : list job) (ser : N) : Prop := exists j, getjob js ser = Some j /\ j_done j = true.
Definition hub_ok (js : list job) (es : list event) : Prop := forall ser, In (EvDone ser) es -> really_done js ser.
Definition HubOK (s : state) : Prop := hub_ok (s_jobs s) (s_hub s).

Lemma really_done_is_done : forall js ser, really_done js ser -> is_done js ser = true.
Proof. intros js ser (j&E&D). unfold is_done. rewrite E. exact D. Qed.

Lemma tab_le_really_done : forall js js' x, tab_le js js' -> really_done js x -> really_done js' x.
Proof.
  intros js js' x T (j&E&D). specialize (T x). rewrite E in T. destruct (getjob js' x) as [j'|] eqn:E'; [|contradiction].
  exists j'. split; [exact E'|]. destruct T as (_&_&_&T). destruct (j_done j') eqn:D'; [reflexivity|].
  destruct (T eq_refl) as [T0 _]. congruence.
Qed.

Lemma id_is_spec : forall ids i ser, id_is ids i ser = true -> id_lookup ids i = Some ser.
Proof.
  intros ids i ser. unfold id_is. destruct (id_lookup ids i) as [w|]; [|discriminate].
  intro H. apply N.eqb_eq in H. subst. reflexivity.
Qed.

Lemma id_lookup_del_other : forall ids i k, jid_eqb i k = false -> id_lookup (id_del ids i) k = id_lookup ids k.
Proof.
  induction ids as [|[a w] r IH]; intros i k H; cbn [id_del id_lookup]; [reflexivity|].
  destruct (jid_eqb a i) eqn:E1.
  - apply jid_eqb_eq in E1. subst a. rewrite H. reflexivity.
  - cbn [id_lookup]. destruct (jid_eqb a k); [reflexivity|apply IH; exact H].
Qed.

(* forgetting the id of a FINISHED job keeps the invariant *)
Lemma inv_del_done : forall s L R i ser, Inv s L R ->
  id_lookup (s_ids s) i = Some ser -> is_done (s_jobs s) ser = true ->
  Inv (set_ids (id_del (s_ids s) i) s) L R.
Proof.
  intros s L R i ser I El D. constructor; unfold locs; sf; try (destruct I; assumption).
  intros x j E Dj O. pose proof (inv_addr _ _ _ I x j E Dj O) as H.
  destruct (jid_eqb i (j_id j)) eqn:Ei.
  - apply jid_eqb_eq in Ei. subst i. rewrite El in H. inversion H; subst ser.
    unfold is_done in D. rewrite E in D. congruence.
  - rewrite id_lookup_del_other by exact Ei. exact H.
Qed.

Lemma run_event_inv : forall e s, Inv s [] [] -> (forall ser, e = EvDone ser -> really_done (s_jobs s) ser) ->
  Inv (fst (run_event e s)) [] [].
Proof.
  intros e s I HD. destruct e as [c|c|ser]; cbn [run_event].
  - destruct (c_st (get_conn (s_conns s) c)) as [|chs [ser|]|w|] eqn:ES; try exact I.
    destruct (is_done (s_jobs s) ser) eqn:D.
    + apply pop_or_block_inv; auto.
      * intros y n W. rewrite ES. cbn [mb_occ]. eapply mb_done_occ; eauto.
      * intros chs' H. rewrite ES in H. discriminate.
    + destruct (is_done_false _ _ D) as (j&Ej&Dj).
      apply (deliver_inv c chs ser s [] [] j I Ej Dj).
      * apply (inv_addr _ _ _ I); auto.
      * intros y n W. rewrite ES. cbn [mb_occ occ]. lia.
      * intros chs' H. rewrite ES in H. discriminate.
  - destruct (c_st (get_conn (s_conns s) c)) as [|chs mb|w|] eqn:ES; try exact I.
    + apply die_inv_free; [exact I|rewrite ES; discriminate|]. apply (not_waiter _ _ _ _ I). rewrite ES. discriminate.
    + set (s1 := set_waiters (remove_waiter c (s_waiters s)) s).
      assert (I1 : Inv s1 [] []).
      { constructor; unfold s1, locs; sf; try (destruct I; assumption).
        - intros c' chs' Hin. apply remove_waiter_In in Hin. apply (inv_wait _ _ _ I); auto.
        - apply remove_waiter_nodup. apply (inv_wnd _ _ _ I). }
      assert (NI : ~ In c (map fst (s_waiters s1))) by (apply remove_waiter_notin; apply (inv_wnd _ _ _ I)).
      assert (ES1 : c_st (get_conn (s_conns s1) c) = BPull chs mb) by exact ES.
      destruct mb as [ser|].
      * destruct (is_done (s_jobs s1) ser) eqn:D.
        -- apply die_inv_free; [exact I1| |exact NI]. intros chs' x H. rewrite ES1 in H. congruence.
        -- destruct (is_done_false _ _ D) as (j&Ej&Dj).
           assert (I2 : Inv s1 [ser] [ser]).
           { constructor; try (destruct I1; assumption).
             - intros y n W. pose proof (inv_cons _ _ _ I1 y n W) as H. cbn [occ] in *. lia.
             - intros y jy Ey Dy Oy. apply (inv_addr _ _ _ I1); auto. }
           pose proof (pushjob_inv ser s1 [] [ser] j I2 Ej Dj) as I3.
           destruct (pushjob_jobs ser s1) as [Hj _].
           apply die_inv with (M := [ser]); auto.
           ++ intros y n W. rewrite pushjob_conn_other by exact NI. rewrite ES1. cbn [mb_occ occ]. lia.
           ++ intro Hin. apply NI. apply in_map_iff in Hin. destruct Hin as (w0&Hf&Hin).
              apply in_map_iff. exists w0. split; [exact Hf|]. eapply pushjob_waiters_sub; eauto.
      * apply die_inv_free; [exact I1|rewrite ES1; discriminate|exact NI].
    + apply die_inv_free; [exact I|rewrite ES; discriminate|]. apply (not_waiter _ _ _ _ I). rewrite ES. discriminate.
  - destruct (release ser (s_jobs s) (s_conns s)) as [cs o] eqn:ER.
    destruct (release_spec ser (s_jobs s) (s_conns s)) as (R1&R2&R3). rewrite ER in *. cbn [fst] in *.
    assert (I1 : Inv (set_conns cs s) [] []).
    { constructor; unfold locs; sf; try (destruct I; assumption).
      + intros y n W. rewrite R1. apply (inv_cons _ _ _ I); auto.
      + intros c chs Hin. pose proof (inv_wait _ _ _ I _ _ Hin) as H. destruct (R2 c) as [_ [H2|[_ H2]]]; congruence.
      + intros c' i w Hin Hr. destruct (R3 _ Hin) as (c0&H0&H1). rewrite H1 in Hr. eapply (inv_run _ _ _ I); eauto.
      + intros c chs y Hs. destruct (R2 c) as [_ [H2|[H2 _]]]; [|congruence]. rewrite H2 in Hs. apply (inv_mb _ _ _ I) in Hs. exact Hs. }
    destruct (getjob (s_jobs s) ser) as [j|] eqn:Ej; [|exact I1].
    destruct (j_drop j && has_waiter ser (s_conns s) && id_is (s_ids s) (j_id j) ser) eqn:EC; [|exact I1].
    apply andb_true_iff in EC. destruct EC as [_ EI]. apply id_is_spec in EI. cbn [fst].
    (* the entry that is deleted refers to the finished job itself *)
    apply (inv_del_done (set_conns cs s) [] [] (j_id j) ser I1); sf; [exact EI|].
    apply really_done_is_done. apply HD. reflexivity.
Qed.

Lemma run_events_inv : forall es s, Inv s [] [] -> hub_ok (s_jobs s) es -> Inv (fst (run_events es s)) [] [].
Proof.
  induction es as [|e r IH]; intros s I HD; [exact I|]. rewrite run_events_cons. cbn [fst]. apply IH.
  - apply run_event_inv; [exact I|]. intros ser E. apply HD. left. exact E.
  - rewrite run_event_jobs. intros ser Hin. apply HD. right. exact Hin.
Qed.

Lemma is_idle_st : forall c s, is_idle c s = true -> c_st (get_conn (s_conns s) c) = Idle.
Proof. intros c s. unfold is_idle. destruct (c_st (get_conn (s_conns s) c)); congruence. Qed.

Lemma conn_update_inv : forall s c st l,
  Inv s [] [] -> c_st (get_conn (s_conns s) c) = Idle ->
  (st = Idle \/ exists w, st = BWait w) ->
  (forall y n, want (s_jobs s) y = Some n -> occ y (map snd l) = occ y (map snd (c_run (get_conn (s_conns s) c)))) ->
  incl l (c_run (get_conn (s_conns s) c)) ->
  Inv (set_conns (put_conn (s_conns s) (mkConn c st l)) s) [] [].
Proof.
  intros s c st l I ES Hst Hocc Hincl.
  assert (NW : ~ In c (map fst (s_waiters s))) by (apply (not_waiter s [] [] c I); rewrite ES; discriminate).
  apply (inv_put_conn s _ (mkConn c st l) [] [] [] [] I); try reflexivity; sf.
  - intros y n W. unfold occ_conn. sf. rewrite ES, (Hocc y n W). destruct Hst as [->|[w ->]]; reflexivity.
  - apply (inv_addr _ _ _ I).
  - auto.
  - intros chs Hin. destruct (NW (in_map fst _ _ Hin)).
  - apply (inv_wnd _ _ _ I).
  - intros i w Hr. eapply conn_run_exists; eauto.
  - destruct Hst as [->|[w ->]]; discriminate.
Qed.

Lemma occ_run_del : forall x l i, (occ x (map snd (run_del l i)) + old_occ l i x = occ x (map snd l))%nat.
Proof.
  intros x l i. unfold old_occ. induction l as [|[k w] r IH]; cbn [run_del id_lookup map occ snd]; [lia|].
  destruct (jid_eqb k i); cbn [map occ snd]; [lia|]. destruct (id_lookup r i); lia.
Qed.

Lemma run_del_incl : forall l i, incl (run_del l i) l.
Proof.
  induction l as [|[k w] r IH]; intros i; cbn [run_del]; [apply incl_refl|].
  destruct (jid_eqb k i); [apply incl_tl, incl_refl|]. intros y [H|H]; [left; auto|right; apply (IH i); auto].
Qed.

Lemma run_del_fold : forall js l y,
  (forall i w, In i js -> In (i, w) l -> w <> y) ->
  occ y (map snd (fold_left run_del js l)) = occ y (map snd l) /\ incl (fold_left run_del js l) l.
Proof.
  induction js as [|i r IH]; intros l y H; cbn [fold_left]; [split; [reflexivity|apply incl_refl]|].
  destruct (IH (run_del l i) y) as [H1 H2].
  - intros i' w Hi Hin. apply (H i' w); [right; auto|]. eapply run_del_incl; eauto.
  - split; [|eapply incl_tran; [exact H2|apply run_del_incl]].
    rewrite H1. pose proof (occ_run_del y l i) as H3. unfold old_occ in H3.
    destruct (id_lookup l i) as [w|] eqn:El; [|lia]. apply id_lookup_In in El.
    rewrite ind_neq in H3; [lia|]. apply (H i w); [left; auto|auto].
Qed.

Lemma run_del_fold_incl : forall js l, incl (fold_left run_del js l) l.
Proof.
  induction js as [|i r IH]; intros l; cbn [fold_left]; [apply incl_refl|].
  eapply incl_tran; [apply IH|apply run_del_incl].
Qed.

Lemma killjobs_ids : forall js s, s_ids (killjobs js s) = s_ids s.
Proof.
  intros js s. apply (killjobs_ind (fun s' => s_ids s' = s_ids s)); [|reflexivity].
  intros x e s0 H. destruct (mark_fields x (upd_err e) s0) as (_&_&_&Hi&_). congruence.
Qed.

Lemma killjobs_done : forall js s i w, In i js -> id_lookup (s_ids s) i = Some w ->
  is_done (s_jobs (killjobs js s)) w = true.
Proof.
  induction js as [|i0 r IH]; intros s i w Hin El; [destruct Hin|]. cbn [killjobs].
  destruct Hin as [Hin|Hin].
  - subst i0. rewrite El. eapply tab_le_done; [apply killjobs_jstep|apply mark_done].
  - destruct (id_lookup (s_ids s) i0) as [ser|] eqn:E0; [|eapply IH; eauto].
    eapply IH; eauto. destruct (mark_fields ser (upd_err e_killed) s) as (_&_&_&Hi&_). rewrite Hi. exact El.
Qed.

(* entries dropped from running_jobs after finish/kill are finished jobs *)
Lemma drop_running_inv : forall s c js,
  Inv s [] [] -> c_st (get_conn (s_conns s) c) = Idle ->
  (forall i w, In i js -> id_lookup (s_ids s) i = Some w -> is_done (s_jobs s) w = true) ->
  Inv (set_conns (put_conn (s_conns s) (mkConn c (c_st (get_conn (s_conns s) c))
                                               (fold_left run_del js (c_run (get_conn (s_conns s) c))))) s) [] [].
Proof.
  intros s c js I ES HD. apply conn_update_inv; auto.
  - intros y n W. apply run_del_fold. intros i w Hi Hin Ewy. subst w.
    destruct (conn_run_exists _ _ _ _ _ _ I Hin) as (j&Ej&Hid).
    destruct (want_cases _ _ _ W) as [(_&D&j'&Ej'&Dj)|(_&En)]; [|congruence].
    rewrite Ej in Ej'. inversion Ej'; subst j'.
    pose proof (inv_addr _ _ _ I y j Ej Dj eq_refl) as A. rewrite Hid in A.
    rewrite (HD i y Hi A) in D. discriminate.
  - apply run_del_fold_incl.
Qed.

Lemma getjob_cons_old : forall j js x j0, getjob js x = Some j0 -> j_serial j <> x -> getjob (j :: js) x = Some j0.
Proof. intros j js x j0 E H. cbn [getjob]. apply N.eqb_neq in H. rewrite H. exact E. Qed.

(* a job object enters the job table under a serial nothing refers to, with an id that no unfinished job has: every
   clause of Inv about the other objects is untouched, and the object itself, if unfinished, is "in hand" (L) until it
   is queued *)
Lemma inv_new_job : forall s s' j,
  Inv s [] [] ->
  s_queues s' = s_queues s -> s_conns s' = s_conns s -> s_waiters s' = s_waiters s -> s_ids s' = s_ids s ->
  getjob (s_jobs s) (j_serial j) = None -> getjob (s_jobs s') (j_serial j) = Some j ->
  (forall y, y <> j_serial j -> getjob (s_jobs s') y = getjob (s_jobs s) y) ->
  (forall y jy, getjob (s_jobs s) y = Some jy -> j_done jy = false -> j_id jy <> j_id j) ->
  s_count s <= s_count s' -> j_serial j <= s_count s' ->
  (forall k, j_id j = JAuto k -> k = j_serial j) -> (j_done j = false -> j_err j = ENone) ->
  Inv s' (if j_done j then [] else [j_serial j]) [].
Proof.
  intros s s' j I Hq Hc Hw Hi GN GS GO NEW LE0 LE AU ER.
  set (ser := j_serial j) in *.
  assert (KEEP : forall y jy, getjob (s_jobs s) y = Some jy -> getjob (s_jobs s') y = Some jy).
  { intros y jy Ey. rewrite GO; [exact Ey|]. intro; subst y; congruence. }
  pose proof (inv_cons _ _ _ I ser 0%nat) as W0. unfold want in W0. rewrite GN in W0. specialize (W0 eq_refl).
  unfold locs in W0. cbn [occ] in W0.
  constructor; unfold locs; rewrite ?Hq, ?Hc, ?Hw, ?Hi; try (destruct I; assumption).
  - intros y n W. unfold want in W. destruct (N.eq_dec y ser) as [E|E].
    + subst y. rewrite GS in W. destruct (j_done j); [discriminate|].
      inversion W; subst n. cbn [occ]. rewrite ind_refl. lia.
    + rewrite GO in W by exact E. pose proof (inv_cons _ _ _ I y n W) as H. unfold locs in H. cbn [occ] in H.
      destruct (j_done j); cbn [occ]; rewrite ?ind_neq by congruence; lia.
  - intros y jy Ey Dy Oy. destruct (N.eq_dec y ser) as [E|E].
    + subst y. rewrite GS in Ey. inversion Ey; subst jy. rewrite Dy in Oy. cbn [occ] in Oy. rewrite ind_refl in Oy. discriminate.
    + rewrite GO in Ey by exact E. apply (inv_addr _ _ _ I); auto.
  - intros x y jx jy Ex Ey Dx Dy Hid.
    destruct (N.eq_dec x ser) as [E1|E1]; destruct (N.eq_dec y ser) as [E2|E2]; try congruence.
    + subst x. rewrite GS in Ex. inversion Ex; subst jx. rewrite GO in Ey by exact E2. exfalso. eapply NEW; eauto.
    + subst y. rewrite GS in Ey. inversion Ey; subst jy. rewrite GO in Ex by exact E1. exfalso. eapply NEW; eauto.
    + rewrite GO in Ex, Ey by assumption. eapply (inv_uniq _ _ _ I); eauto.
  - intros x jx n Ex Hid. destruct (N.eq_dec x ser) as [E|E].
    + subst x. rewrite GS in Ex. inversion Ex; subst jx. apply AU. exact Hid.
    + rewrite GO in Ex by exact E. eapply (inv_auto _ _ _ I); eauto.
  - intros x jx Ex. destruct (N.eq_dec x ser) as [E|E]; [subst; exact LE|].
    rewrite GO in Ex by exact E. pose proof (inv_tab _ _ _ I _ _ Ex). lia.
  - intros x jx Ex Dx. destruct (N.eq_dec x ser) as [E|E].
    + subst x. rewrite GS in Ex. inversion Ex; subst jx. apply ER. exact Dx.
    + rewrite GO in Ex by exact E. eapply (inv_err _ _ _ I); eauto.
  - intros k q p x Hin Hp. destruct (inv_q _ _ _ I _ _ _ _ Hin Hp) as (j0&E0&H0). exists j0. split; [apply KEEP; exact E0|exact H0].
  - intros c0 i0 w Hin Hr. destruct (inv_run _ _ _ I _ _ _ Hin Hr) as (j0&E0&H0). exists j0. split; [apply KEEP; exact E0|exact H0].
  - intros c0 chs x Hs. destruct (inv_mb _ _ _ I _ _ _ Hs) as (j0&E0&H0). exists j0. split; [apply KEEP; exact E0|exact H0].
Qed.

Lemma push_inv : forall ch prio name tmo s, Inv s [] [] -> Inv (fst (push ch prio name tmo s)) [] [].
Proof.
  intros ch prio name tmo s I. unfold push.
  set (ser := s_count s + 1).
  set (i := match name with Some n => JName n | None => JAuto ser end).
  set (j := mkJob ser i ch prio (s_now s + match tmo with Some t => t | None => 120 end) false ENone None None 3600 None false).
  (* the serial is fresh by inv_tab; the id is fresh in each branch of push for a reason of its own *)
  assert (FRESH : (forall y jy, getjob (s_jobs s) y = Some jy -> j_done jy = false -> j_id jy <> i) ->
                  Inv (fst (pushjob ser (set_jobs (j :: s_jobs s) (set_count ser s)), i)) [] []).
  { intro NEW. cbn [fst].
    assert (GN : getjob (s_jobs s) ser = None).
    { destruct (getjob (s_jobs s) ser) as [j0|] eqn:E; [|reflexivity]. pose proof (inv_tab _ _ _ I _ _ E). unfold ser in *. lia. }
    assert (GS : getjob (j :: s_jobs s) ser = Some j).
    { cbn [getjob]. change (j_serial j) with ser. rewrite N.eqb_refl. reflexivity. }
    apply pushjob_inv with (j := j); [|exact GS|reflexivity].
    apply (inv_new_job s _ j I); try reflexivity; try assumption.
    - intros y Hy. sf. cbn [getjob]. change (j_serial j) with ser in *.
      destruct (ser =? y) eqn:E; [apply N.eqb_eq in E; congruence|reflexivity].
    - sf. unfold ser. lia.
    - intros k Hid. cbn in Hid. unfold i in Hid. destruct name; inversion Hid; reflexivity. }
  destruct name as [n|].
  - destruct (id_lookup (s_ids s) (JName n)) as [ser0|] eqn:El.
    + destruct (getjob (s_jobs s) ser0) as [j0|] eqn:E0.
      * destruct (err_is_killed (j_err j0)) eqn:EK; [|exact I].
        apply FRESH. intros y jy Ey Dy Hid. unfold i in Hid.
        pose proof (inv_addr _ _ _ I y jy Ey Dy eq_refl) as A. rewrite Hid, El in A. inversion A; subst ser0.
        rewrite Ey in E0. inversion E0; subst j0. rewrite (inv_err _ _ _ I _ _ Ey Dy) in EK. discriminate.
      * apply FRESH. intros y jy Ey Dy Hid. unfold i in Hid.
        pose proof (inv_addr _ _ _ I y jy Ey Dy eq_refl) as A. rewrite Hid, El in A. inversion A; subst ser0. congruence.
    + apply FRESH. intros y jy Ey Dy Hid. unfold i in Hid.
      pose proof (inv_addr _ _ _ I y jy Ey Dy eq_refl) as A. rewrite Hid, El in A. discriminate.
  - apply FRESH. intros y jy Ey Dy Hid. unfold i in Hid.
    pose proof (inv_auto _ _ _ I _ _ _ Ey Hid) as A. pose proof (inv_tab _ _ _ I _ _ Ey). unfold ser in A. lia.
Qed.

Lemma edit_inv : forall s ser f L R, field_edit f -> Inv s L R -> Inv (set_jobs (setjob ser f (s_jobs s)) s) L R.
Proof.
  intros s ser f L R Hf I. apply (inv_tab_le s _ L R I); try reflexivity. apply setjob_tab_le, Hf.
Qed.

(* push returns the id of a job that is already there, or creates the job object with the next serial and
   pushes it *)
Lemma push_cases : forall ch prio name tmo s,
  (exists n, push ch prio name tmo s = (s, JName n)) \/
  exists j0 i, j_serial j0 = s_count s + 1 /\ j_done j0 = false /\ j_dl j0 = None /\
    push ch prio name tmo s =
    (pushjob (s_count s + 1) (set_jobs (j0 :: s_jobs s) (set_count (s_count s + 1) s)), i).
Proof.
  intros ch prio name tmo s. unfold push. cbv zeta.
  assert (F : forall i0 t, exists j0 i, j_serial j0 = s_count s + 1 /\ j_done j0 = false /\ j_dl j0 = None /\
    (pushjob (s_count s + 1)
       (set_jobs (mkJob (s_count s + 1) i0 ch prio t false ENone None None 3600 None false :: s_jobs s)
                 (set_count (s_count s + 1) s)), i0) =
    (pushjob (s_count s + 1) (set_jobs (j0 :: s_jobs s) (set_count (s_count s + 1) s)), i)).
  { intros i0 t. do 2 eexists. refine (conj _ (conj _ (conj _ eq_refl))); reflexivity. }
  destruct name as [n|]; [|right; apply F].
  destruct (id_lookup (s_ids s) (JName n)) as [ser|]; [|right; apply F].
  destruct (getjob (s_jobs s) ser) as [j|]; [|right; apply F].
  destruct (err_is_killed (j_err j)); [right; apply F|left; exists n; reflexivity].
Qed.

(* the job objects that exist keep their place when a job with the next serial is created *)
Lemma getjob_fresh : forall s L R j0 x j, Inv s L R -> j_serial j0 = s_count s + 1 ->
  getjob (s_jobs s) x = Some j -> getjob (j0 :: s_jobs s) x = Some j.
Proof.
  intros s L R j0 x j I Hs E. apply getjob_cons_old; [exact E|]. pose proof (inv_tab _ _ _ I _ _ E). lia.
Qed.

(* The job table, the id counter, the outcome counters, id2job and timeoutq are written in six ways only: a job
   object is created and registered (push), an existing one is registered (pushjob), a job is finished
   (_mark_finished), a field that no queue looks at is edited (info, drop flag, dropdead stamp), an id2job entry is
   deleted, finished entries are popped from timeoutq.  Whatever else an op does - to queues, waiters, connections,
   the clock, hub events other than finish notifications - is a `side` step.  An invariant that reads only these
   tables and the pending finish notifications is checked once per kind of update (prims_inv), away from `step`. *)
Record side (s s' : state) : Prop := {
  sd_ledger : ledger s' = ledger s;
  sd_ids : s_ids s' = s_ids s;
  sd_tq : s_tq s' = s_tq s;
  sd_done : forall ser, In (EvDone ser) (s_hub s') -> In (EvDone ser) (s_hub s)
}.

Lemma side_same : forall s s',
  ledger s' = ledger s -> s_ids s' = s_ids s -> s_tq s' = s_tq s -> s_hub s' = s_hub s -> side s s'.
Proof. intros s s' C I T H. constructor; try assumption. rewrite H. auto. Qed.

Lemma side_jobs : forall s s', side s s' -> s_jobs s' = s_jobs s.
Proof. intros s s' [C _ _ _]. unfold ledger in C. congruence. Qed.

(* jobs.py:258-268 of pushjob: id2job[job.jobid] = job; heappush(timeoutq, (job.timeout, job)) *)
Definition register (j : job) (x : N) (s : state) : state :=
  set_tq (tins (j_timeout j, (j_prio j, x)) (s_tq s)) (set_ids (id_set (s_ids s) (j_id j) x) s).

Inductive prim : state -> state -> Prop :=
| pr_side : forall s s', side s s' -> prim s s'
| pr_new : forall s j0, j_serial j0 = s_count s + 1 -> getjob (s_jobs s) (j_serial j0) = None ->
    j_done j0 = false -> j_dl j0 = None ->
    prim s (register j0 (j_serial j0) (set_jobs (j0 :: s_jobs s) (set_count (s_count s + 1) s)))
| pr_reg : forall s x j, getjob (s_jobs s) x = Some j -> prim s (register j x s)
| pr_mark : forall s x u, prim s (mark_finished x u s)
| pr_edit : forall s ser f, field_edit f ->
    (forall j, getjob (s_jobs s) ser = Some j -> j_done j = false -> j_dl (f j) = j_dl j) ->
    prim s (set_jobs (setjob ser f (s_jobs s)) s)
| pr_del : forall s i, prim s (set_ids (id_del (s_ids s) i) s)
| pr_pop : forall s l tq, s_tq s = l ++ tq -> (forall e, In e l -> is_done (s_jobs s) (snd (snd e)) = true) ->
    prim s (set_tq tq s).

Inductive prims : state -> state -> Prop :=
| prims_refl : forall s, prims s s
| prims_step : forall s s1 s2, prims s s1 -> prim s1 s2 -> prims s s2.

Lemma prims_one : forall s s', prim s s' -> prims s s'.
Proof. intros s s' H. eapply prims_step; [apply prims_refl|exact H]. Qed.

Lemma prims_trans : forall a b c, prims a b -> prims b c -> prims a c.
Proof. intros a b c H1 H2. induction H2 as [|b c1 c2 _ IH P]; [exact H1|]. eapply prims_step; [apply IH; exact H1|exact P]. Qed.

Lemma prims_inv : forall P : state -> Prop, (forall s s', prim s s' -> P s -> P s') ->
  forall s s', prims s s' -> P s -> P s'.
Proof. intros P HP s s' H K. induction H as [|s s1 s2 _ IH Q]; [exact K|]. exact (HP _ _ Q (IH K)). Qed.

Lemma pushjob_side : forall x s j, getjob (s_jobs s) x = Some j -> side (register j x s) (pushjob x s).
Proof.
  intros x s j E. unfold pushjob, register. rewrite E. cbv zeta.
  destruct (filter _ _); constructor; sf; auto.
  intros ser H. apply in_done_snoc in H; [exact H|discriminate].
Qed.

Lemma pushjob_prims : forall x s, prims s (pushjob x s).
Proof.
  intros x s. destruct (getjob (s_jobs s) x) as [j|] eqn:E.
  - eapply prims_step; [apply prims_one, (pr_reg s x j E)|apply pr_side, pushjob_side, E].
  - unfold pushjob. rewrite E. apply prims_refl.
Qed.

Lemma deliver_side : forall c chs x s, side s (fst (deliver c chs x s)).
Proof. intros. unfold deliver. destruct (getjob (s_jobs s) x); apply side_same; reflexivity. Qed.

Lemma pop_side : forall c chs s, side s (fst (pop_or_block c chs s)).
Proof.
  intros. unfold pop_or_block, deliver. cbv zeta. destruct (heads _ _) as [x|]; [|apply side_same; reflexivity].
  destruct (getjob _ _); [|apply side_same; reflexivity]. destruct (getjob _ _); apply side_same; reflexivity.
Qed.

Lemma shutdown_prims : forall l s, prims s (shutdown_loop l s).
Proof.
  induction l as [|[i w] r IH]; intro s; cbn [shutdown_loop]; [apply prims_refl|].
  destruct (is_done (s_jobs s) w); [apply IH|].
  eapply prims_trans; [|apply IH]. eapply prims_trans; [|apply pushjob_prims]. apply prims_one, pr_side, side_same; reflexivity.
Qed.

Lemma die_prims : forall c s, prims s (fst (die c s)).
Proof.
  intros. unfold die. cbv zeta. cbn [fst]. eapply prims_trans; [|apply shutdown_prims].
  apply prims_one, pr_side, side_same; reflexivity.
Qed.

Lemma run_event_prims : forall e s, prims s (fst (run_event e s)).
Proof.
  intros e s. destruct e as [c|c|ser]; cbn [run_event].
  - destruct (c_st (get_conn (s_conns s) c)) as [|chs [x|]|w|]; try apply prims_refl.
    destruct (is_done (s_jobs s) x); apply prims_one, pr_side; [apply pop_side|apply deliver_side].
  - destruct (c_st (get_conn (s_conns s) c)) as [|chs mb|w|]; try apply prims_refl; try apply die_prims.
    eapply prims_trans; [|apply die_prims].
    destruct mb as [x|]; [|apply prims_one, pr_side, side_same; reflexivity].
    sf. destruct (is_done (s_jobs s) x); [apply prims_one, pr_side, side_same; reflexivity|].
    eapply prims_trans; [|apply pushjob_prims]. apply prims_one, pr_side, side_same; reflexivity.
  - destruct (release ser (s_jobs s) (s_conns s)) as [cs o].
    assert (S : prims s (set_conns cs s)) by (apply prims_one, pr_side, side_same; reflexivity).
    destruct (getjob (s_jobs s) ser) as [j|]; [|exact S].
    destruct (j_drop j && has_waiter ser (s_conns s) && id_is (s_ids s) (j_id j) ser); [|exact S].
    eapply prims_step; [exact S|]. exact (pr_del (set_conns cs s) (j_id j)).
Qed.

Lemma run_events_prims : forall es s, prims s (fst (run_events es s)).
Proof.
  induction es as [|e r IH]; intro s; [apply prims_refl|]. rewrite run_events_cons. cbn [fst].
  eapply prims_trans; [apply run_event_prims|apply IH].
Qed.

(* the sweep pops entries of finished jobs off the heap, finishing some on the way *)
Lemma timeouts_prims : forall q s l, s_tq s = l ++ q ->
  (forall e, In e l -> is_done (s_jobs s) (snd (snd e)) = true) -> prims s (timeouts_loop q s).
Proof.
  induction q as [|x r IH]; intros s l Hq Hl; cbn [timeouts_loop]; [apply prims_one, (pr_pop s l []); assumption|].
  assert (SNOC : forall s', tab_le (s_jobs s) (s_jobs s') -> is_done (s_jobs s') (snd (snd x)) = true ->
                 forall e, In e (l ++ [x]) -> is_done (s_jobs s') (snd (snd e)) = true).
  { intros s' T Dx e H. apply in_app_or in H. destruct H as [H|[H|[]]]; [|subst e; exact Dx].
    eapply tab_le_done; [exact T|apply Hl; exact H]. }
  destruct (is_done (s_jobs s) _) eqn:Dx.
  - apply (IH s (l ++ [x])); [rewrite <- app_assoc; exact Hq|apply SNOC; [apply tab_le_refl|exact Dx]].
  - destruct (s_now s <? _); [apply prims_one, (pr_pop s l (x :: r)); assumption|].
    set (s1 := mark_finished _ _ s). assert (Ht : s_tq s1 = s_tq s) by apply mark_fields.
    apply (prims_trans _ s1); [apply prims_one, pr_mark|].
    apply (IH s1 (l ++ [x])); [rewrite Ht, <- app_assoc; exact Hq|apply SNOC; [apply mark_tab_le|apply mark_done]].
Qed.

Lemma dropdead_prims : forall l s, prims s (dropdead_loop l s).
Proof.
  intros l s. apply (dropdead_loop_ind (prims s)); [| |apply prims_refl].
  - intros i ser j s0 H _ _ _. eapply prims_step; [exact H|apply pr_del].
  - intros ser j d s0 H Ej Dj. eapply prims_step; [exact H|]. apply pr_edit; [apply set_dl_edit|].
    intros j' Ej' Dj'. congruence.
Qed.

Lemma step_prims : forall s o, (forall x j, getjob (s_jobs s) x = Some j -> x <= s_count s) ->
  prims s (fst (step s o)).
Proof.
  intros s o LE.
  destruct o as [ch prio name tmo|c chs| |c i res e|c js|dt|c|k|c i|i|i v| |dt|js|]; cbn [step].
  - destruct (push_cases ch prio name tmo s) as [[n E]|(j0&i&Hs&Hd&Hl&E)]; rewrite E; cbn [fst]; [apply prims_refl|].
    (* the new object gets a serial that no object has *)
    assert (N : getjob (s_jobs s) (j_serial j0) = None).
    { destruct (getjob (s_jobs s) (j_serial j0)) as [j|] eqn:Ej; [|reflexivity]. pose proof (LE _ _ Ej). lia. }
    eapply prims_step; [apply prims_one, (pr_new s j0 Hs N Hd Hl)|]. apply pr_side. rewrite <- Hs.
    apply pushjob_side. sf. cbn [getjob]. rewrite N.eqb_refl. reflexivity.
  - destruct (is_idle c s); [apply prims_one, pr_side, pop_side|apply prims_refl].
  - eapply prims_trans; [|apply run_events_prims]. apply prims_one, pr_side. constructor; try reflexivity. intros ser [].
  - destruct (is_idle c s); [|apply prims_refl]. destruct (id_lookup (s_ids s) i) as [ser|]; [|apply prims_refl]. cbn [fst].
    eapply (prims_step _ (mark_finished ser _ s)); [apply prims_one, pr_mark|apply pr_side, side_same; reflexivity].
  - destruct (is_idle c s); [|apply prims_refl]. cbn [fst].
    apply (prims_step _ (killjobs js s)); [|apply pr_side, side_same; reflexivity].
    apply (killjobs_ind (prims s)); [|apply prims_refl]. intros x e0 s0 H. eapply prims_step; [exact H|apply pr_mark].
  - cbn [fst]. unfold handletimeouts. set (s1 := set_now (s_now s + dt) s).
    apply (prims_step _ (timeouts_loop (s_tq s1) s1)); [|apply pr_side, side_same; reflexivity].
    apply (prims_trans _ s1); [apply prims_one, pr_side, side_same; reflexivity|].
    apply (timeouts_prims _ _ []); [reflexivity|intros e0 []].
  - destruct (c_st (get_conn (s_conns s) c)); cbn [fst]; try apply prims_refl;
      (apply prims_one, pr_side; constructor; sf; try reflexivity; intros y H; apply in_done_snoc in H; [exact H|discriminate]).
  - apply prims_one, pr_side, side_same; reflexivity.
  - destruct (is_idle c s); [|apply prims_refl]. destruct (id_lookup (s_ids s) i) as [ser|]; [|apply prims_refl].
    destruct (getjob (s_jobs s) ser) as [j|]; [|apply prims_refl].
    destruct (j_done j); [destruct (j_drop j && id_is (s_ids s) (j_id j) ser)|]; cbn [fst];
      [apply prims_one, pr_del|apply prims_refl|apply prims_one, pr_side, side_same; reflexivity].
  - apply prims_refl.
  - destruct (id_lookup (s_ids s) i) as [ser|]; [|apply prims_refl]. cbn [fst].
    apply prims_one, pr_edit; [apply set_info_edit|intros; reflexivity].
  - apply prims_refl.
  - apply prims_one, pr_side, side_same; reflexivity.
  - cbn [fst]. apply (dropjobs_ind (prims s)); [|apply prims_refl].
    intros ser s0 H. eapply prims_step; [exact H|]. apply pr_edit; [apply set_drop_edit|intros; reflexivity].
  - apply dropdead_prims.
Qed.

Lemma aux_same : forall s s', s_jobs s' = s_jobs s -> Aux s -> Aux s'.
Proof. intros s s' H A x j E. rewrite H in E. exact (A x j E). Qed.

Lemma aux_mark : forall x u s, Aux s -> Aux (mark_finished x u s).
Proof.
  intros x u s A. unfold mark_finished. destruct (getjob (s_jobs s) x) as [j|] eqn:E; [|exact A].
  destruct (j_done j) eqn:D; [exact A|]. intros y jy. sf.
  rewrite getjob_setjob by (intros; cbn; eapply getjob_serial; eauto).
  destruct (y =? x) eqn:Eyx.
  - apply N.eqb_eq in Eyx. subst y. rewrite E. cbn. intro H. inversion H; subst jy. cbn. discriminate.
  - apply A.
Qed.

Lemma aux_edit : forall s ser f, field_edit f ->
  (forall j, getjob (s_jobs s) ser = Some j -> j_done j = false -> j_dl (f j) = j_dl j) ->
  Aux s -> Aux (set_jobs (setjob ser f (s_jobs s)) s).
Proof.
  intros s ser f Hf Hl A x jx. sf. rewrite getjob_edit by exact Hf. destruct (x =? ser) eqn:E; [|apply A].
  apply N.eqb_eq in E. subst x. destruct (getjob (s_jobs s) ser) as [j|] eqn:Ej; cbn [option_map]; [|discriminate].
  intro H. injection H as <-. destruct (Hf j) as (_&_&_&_&Hd&_). rewrite Hd. intro D. rewrite (Hl j eq_refl D). exact (A _ _ Ej D).
Qed.

Lemma aux_prim : forall s s', prim s s' -> Aux s -> Aux s'.
Proof.
  intros s s' [s0 s1 S|s0 j0 _ _ _ L|s0 x j _|s0 x u|s0 ser f Hf Hl|s0 i|s0 l tq _ _] A; try exact A.
  - eapply aux_same; [apply side_jobs; exact S|exact A].
  - intros x jx. unfold register. sf. cbn [getjob]. destruct (j_serial j0 =? x); [intro H; injection H as <-; auto|apply A].
  - apply aux_mark. exact A.
  - apply aux_edit; assumption.
Qed.

Lemma step_aux : forall s o, Aux s -> Inv s [] [] -> Aux (fst (step s o)).
Proof. intros s o A I. exact (prims_inv Aux aux_prim _ _ (step_prims s o (inv_tab _ _ _ I)) A). Qed.

Lemma dropdead_loop_good : forall l s, Aux s -> Inv s [] [] ->
  Aux (dropdead_loop l s) /\ Inv (dropdead_loop l s) [] [].
Proof.
  intros l s A I. apply (dropdead_loop_ind (fun s => Aux s /\ Inv s [] [])); [| |split; assumption].
  - (* only a finished job carries a deadline, and the id of a finished job may be forgotten *)
    intros i ser j s0 [A0 I0] El Ej Hl. split; [exact A0|].
    apply (inv_del_done s0 [] [] i ser I0 El). unfold is_done. rewrite Ej.
    destruct (j_done j) eqn:Dj; [reflexivity|]. rewrite (A0 _ _ Ej Dj) in Hl. discriminate Hl.
  - intros ser j d s0 [A0 I0] Ej Dj. split; [apply aux_edit; [apply set_dl_edit|congruence|exact A0]|].
    apply edit_inv; [apply set_dl_edit|exact I0].
Qed.

Lemma hub_nnd : forall s s', nnd s s' -> HubOK s -> HubOK s'.
Proof. intros s s' [J H] K ser Hin. unfold HubOK, hub_ok in *. rewrite J. apply K. apply H. exact Hin. Qed.

Lemma hub_same : forall s s', s_jobs s' = s_jobs s -> s_hub s' = s_hub s -> HubOK s -> HubOK s'.
Proof. intros s s' J H K. unfold HubOK. rewrite J, H. exact K. Qed.

Lemma mark_hub_cases : forall x u s,
  s_hub (mark_finished x u s) = s_hub s \/
  (s_hub (mark_finished x u s) = s_hub s ++ [EvDone x] /\ really_done (s_jobs (mark_finished x u s)) x).
Proof.
  intros x u s. unfold mark_finished. destruct (getjob (s_jobs s) x) as [j|] eqn:E; [|left; reflexivity].
  destruct (j_done j) eqn:D; [left; reflexivity|]. sf.
  destruct (has_waiter x (s_conns s)); [right|left; reflexivity]. split; [reflexivity|].
  unfold really_done. rewrite getjob_setjob by (intros; cbn; eapply getjob_serial; eauto).
  rewrite N.eqb_refl, E. cbn. eexists; split; [reflexivity|reflexivity].
Qed.

Lemma mark_hub : forall x u s, HubOK s -> HubOK (mark_finished x u s).
Proof.
  intros x u s K ser Hin. destruct (mark_hub_cases x u s) as [H|[H R]]; rewrite H in Hin.
  - eapply tab_le_really_done; [apply mark_tab_le|]. apply K. exact Hin.
  - apply in_app_or in Hin. destruct Hin as [Hin|[Hin|[]]].
    + eapply tab_le_really_done; [apply mark_tab_le|]. apply K. exact Hin.
    + inversion Hin; subst ser. exact R.
Qed.

Lemma hub_prim : forall s s', prim s s' -> HubOK s -> HubOK s'.
Proof.
  intros s s' [s0 s1 S|s0 j0 _ N _ _|s0 x j _|s0 x u|s0 ser f Hf _|s0 i|s0 l tq _ _] K; try exact K.
  - intros ser Hin. unfold HubOK, hub_ok in *. rewrite (side_jobs _ _ S). apply K, (sd_done _ _ S), Hin.
  - intros ser Hin. destruct (K ser Hin) as (j&Ej&D). exists j. split; [|exact D].
    unfold register. sf. apply getjob_cons_old; [exact Ej|congruence].
  - apply mark_hub. exact K.
  - intros y Hin. eapply tab_le_really_done; [apply setjob_tab_le; exact Hf|apply K; exact Hin].
Qed.

Lemma step_hub : forall s o, Inv s [] [] -> HubOK s -> HubOK (fst (step s o)).
Proof. intros s o I K. exact (prims_inv HubOK hub_prim _ _ (step_prims s o (inv_tab _ _ _ I)) K). Qed.

Lemma step_inv : forall s o, Aux s -> HubOK s -> Inv s [] [] -> Inv (fst (step s o)) [] [].
Proof.
  intros s o A K I.
  destruct o as [ch prio name tmo|c chs| |c i res e|c js|dt|c|k|c i|i|i v| |dt|js|]; cbn [step].
  - pose proof (push_inv ch prio name tmo s I) as H. destruct (push ch prio name tmo s) as [s1 i]. exact H.
  - destruct (is_idle c s) eqn:EI; [|exact I]. apply is_idle_st in EI.
    apply pop_or_block_inv; auto.
    + intros y n W. rewrite EI. reflexivity.
    + intros chs' H. rewrite EI in H. discriminate.
  - apply run_events_inv; [eapply inv_same; eauto|exact K].
  - destruct (is_idle c s) eqn:EI; [|exact I]. apply is_idle_st in EI.
    destruct (id_lookup (s_ids s) i) as [ser|] eqn:El; [|exact I]. cbn [fst].
    set (u := fun j => upd_finish res e (if err_truthy e then N_min 10 (j_ttl j) else j_ttl j) j).
    destruct (mark_fields ser u s) as (_&Hc&_&Hi&_).
    pose proof (mark_inv ser u s _ _ I) as I1.
    apply (drop_running_inv (mark_finished ser u s) c [i] I1).
    + rewrite Hc. exact EI.
    + intros i' w [Hi'|[]] Hl. subst i'. rewrite Hi, El in Hl. inversion Hl; subst. apply mark_done.
  - destruct (is_idle c s) eqn:EI; [|exact I]. apply is_idle_st in EI. cbn [fst].
    pose proof (killjobs_ids js s) as Hi. pose proof (js_conns _ _ (killjobs_jstep js s)) as Hc.
    apply (drop_running_inv (killjobs js s) c js
             (killjobs_ind (fun s => Inv s [] []) (fun x e s => mark_inv x (upd_err e) s [] []) js s I)).
    + rewrite Hc. exact EI.
    + intros i w Hin Hl. rewrite Hi in Hl. eapply killjobs_done; eauto.
  - cbn [fst]. unfold handletimeouts. apply preenall_inv.
    apply (timeouts_loop_ind (fun s => Inv s [] []) (fun x e s => mark_inv x (upd_err e) s [] []));
      [intros v s0 I0|]; eapply inv_same; eauto.
  - destruct (c_st (get_conn (s_conns s) c)); cbn [fst]; try exact I; eapply inv_same; eauto.
  - cbn [fst]. eapply inv_same; eauto.
  - destruct (is_idle c s) eqn:EI; [|exact I]. apply is_idle_st in EI.
    destruct (id_lookup (s_ids s) i) as [ser|]; [|exact I].
    destruct (getjob (s_jobs s) ser) as [j|] eqn:Ej; [|exact I].
    destruct (j_done j) eqn:ED.
    + (* released at once; a dropped job's id is forgotten only while it still names this finished job *)
      destruct (j_drop j && id_is (s_ids s) (j_id j) ser) eqn:EC; [|exact I]. cbn [fst].
      apply andb_true_iff in EC. destruct EC as [_ EI2]. apply id_is_spec in EI2.
      apply (inv_del_done s [] [] (j_id j) ser I EI2). unfold is_done. rewrite Ej. exact ED.
    + cbn [fst]. apply conn_update_inv; auto; [right; eexists; reflexivity|apply incl_refl].
  - exact I.
  - destruct (id_lookup (s_ids s) i) as [ser|]; [|exact I]. cbn [fst].
    apply edit_inv; [apply set_info_edit|exact I].
  - exact I.
  - cbn [fst]. eapply inv_same; eauto.
  - cbn [fst]. apply (dropjobs_ind (fun s => Inv s [] [])); [|exact I].
    intros ser s0 I0. apply edit_inv; [apply set_drop_edit|exact I0].
  - cbn [fst]. unfold dropdead. apply dropdead_loop_good; assumption.
Qed.

Definition Good (s : state) : Prop := Aux s /\ HubOK s /\ Inv s [] [].

Lemma step_good : forall s o, Good s -> Good (fst (step s o)).
Proof.
  intros s o (A&K&I). split; [apply step_aux; assumption|]. split; [apply step_hub; assumption|apply step_inv; assumption].
Qed.

Lemma inv_init : Inv init [] [].
Proof.
  constructor; cbn; try discriminate; try tauto.
  - intros x n H. inversion H. reflexivity.
  - constructor.
Qed.

Lemma aux_init : Aux init.
Proof. intros x j H. discriminate H. Qed.

Lemma hub_init : HubOK init.
Proof. intros ser []. Qed.

Lemma good_init : Good init.
Proof. split; [apply aux_init|]. split; [apply hub_init|apply inv_init]. Qed.

Lemma run_good : forall h s, Good s -> Good (run h s).
Proof. intro h. apply (invariant_reachable Good). intros s o. apply step_good. Qed.

Lemma run_inv : forall h s, Good s -> Inv (run h s) [] [].
Proof. intros h s G. apply (run_good h s G). Qed.

Lemma reachable_good : forall h, Good (run h init).
Proof. intro h. apply run_good. apply good_init. Qed.

Lemma reachable_inv : forall h, Inv (run h init) [] [].
Proof. intro h. apply (reachable_good h). Qed.

Lemma reachable_aux : forall h, Aux (run h init).
Proof. intro h. apply (reachable_good h). Qed.

Lemma reachable_hub : forall h, HubOK (run h init).
Proof. intro h. apply (reachable_good h). Qed.

(* places where job object x sits: channel queues + (mailboxes of blocked pullers + running_jobs) *)
Definition in_queues (s : state) (x : N) : nat := occ_qs x (s_queues s).
Definition with_workers (s : state) (x : N) : nat := occ_conns x (s_conns s).

(* what the invariant says about one unfinished job, in any state that satisfies it *)
Lemma conservation_inv : forall s x j,
  Inv s [] [] -> getjob (s_jobs s) x = Some j -> j_done j = false ->
  (in_queues s x + with_workers s x = 1)%nat /\
  id_lookup (s_ids s) (j_id j) = Some x /\
  (forall k q p, In (k, q) (s_queues s) -> In (p, x) q -> k = j_chan j /\ p = j_prio j).
Proof.
  intros s x j I E D. split; [|split].
  - pose proof (inv_cons _ _ _ I x 1%nat (want_undone _ _ _ E D)) as H. unfold locs in H. cbn [occ] in H.
    unfold in_queues, with_workers. lia.
  - apply (inv_addr _ _ _ I); auto.
  - intros k q p Hin Hp. destruct (inv_q _ _ _ I _ _ _ _ Hin Hp) as (j'&E'&Hc&Hpp). rewrite E in E'. inversion E'; subst. auto.
Qed.

Lemma conservation : forall h x j,
  let s := run h init in
  getjob (s_jobs s) x = Some j -> j_done j = false ->
  (in_queues s x + with_workers s x = 1)%nat /\
  id_lookup (s_ids s) (j_id j) = Some x /\
  (forall k q p, In (k, q) (s_queues s) -> In (p, x) q -> k = j_chan j /\ p = j_prio j).
Proof. intros h x j s. apply conservation_inv, reachable_inv. Qed.

Lemma no_phantoms_inv : forall s x, Inv s [] [] -> getjob (s_jobs s) x = None ->
  (in_queues s x + with_workers s x = 0)%nat.
Proof.
  intros s x I E. pose proof (inv_cons _ _ _ I x 0%nat) as H. unfold want in H. rewrite E in H. specialize (H eq_refl).
  unfold locs in H. cbn [occ] in H. unfold in_queues, with_workers. lia.
Qed.

Lemma mailbox_eligible : forall h c chs x,
  let s := run h init in
  c_st (get_conn (s_conns s) c) = BPull chs (Some x) ->
  exists j, getjob (s_jobs s) x = Some j /\ eligible (j_chan j) chs.
Proof. intros h c chs x s. apply (inv_mb _ _ _ (reachable_inv h)). Qed.

Definition example_history : list op :=
  [StartPull 1 [0]; StartPull 2 []; Add 0 1 None None; Add 0 0 (Some 0) None; Choice 1; Add 1 0 None (Some 5);
   RunLoop; Disconnect 1; RunLoop; StartPull 3 [1; 0]].

Lemma example_ok :
  let s := run example_history init in
  length example_history = 10%nat /\
  map (fun j => (j_serial j, j_done j)) (s_jobs s) = [(3, false); (2, false); (1, false)] /\
  map (fun x => (in_queues s x, with_workers s x)) [1; 2; 3] = [(1, 0); (0, 1); (0, 1)]%nat /\
  map (fun c => c_st c) (s_conns s) = [Dead; Idle; Idle].
Proof. vm_compute. repeat split. Qed.
