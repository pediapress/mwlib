(* C14 — property theorems only, each followed by Print Assumptions.
   Model.v: writer, revisions file, reader, index, lookups, fs_escape, image path; title normalisation is the C12 model
   instantiated with the generated tables (C12/Gen_*.v, regenerated on every run). *)
From Coq Require Import List NArith ZArith Bool.
From MW Require Import Common.Str C12.Model C12.ListLemmas C12.Proofs C12.Inst C12.ProofsInst.
From MW Require Import C14.Model C14.Inst C14.ProofsIndex C14.ProofsEscape C14.ProofsFile C14.ProofsExpanded C14.ProofsStore C14.ProofsFallback C14.ProofsHistory.
Import ListNotations.
Open Scope N_scope.

(* THE FILE.  For every list of records whose JSON headers contain no newline and whose texts do not contain the record
   separator "\n\x0c --page-- " (texts may START with its tail "\x0c --page-- ", may end with any prefix of it, may be
   empty, may contain "--page--" lines and fake headers), the reader's chunking (split on the separator, re-join of a chunk
   that follows a header without newline, split at the first newline) returns exactly the (header, text) pairs written. *)
Theorem C14_file_roundtrip : forall rs,
  Forall (fun r => ~ In c_lf (r_json r) /\ contains sep (r_text r) = false) rs ->
  read_chunks (file_of rs) = Some (hs_of rs).
Proof. exact read_chunks_file. Qed.
Print Assumptions C14_file_roundtrip.

(* PAGES, BY REVISION ID.  loads/dumps is the JSON codec oracle (loads (dumps m) = m on the headers written).  For all
   write operations through write_pages (any order, any batches, re-deliveries), every stored revision is served with
   its text under its revision id — unless the text is itself a redirect page, which mwlib follows. *)
Theorem C14_pages_roundtrip_by_revid : forall loads redirect_of ops redirects r v name,
  let rs := write_ops [] ops in
  (forall o, In o ops -> exists r, o = WPage r) ->
  (forall r, In r rs -> loads (r_json r) = Some (r_meta r)) ->
  Forall (fun r => ~ In c_lf (r_json r) /\ contains sep (r_text r) = false) rs ->
  In r rs -> rev_of r = Some v -> dict_get str_eqb name redirects = None ->
  (r_text r = [] \/ redirect_of (r_text r) = None) ->
  exists ix, read_revisions loads (file_of rs) = Some ix /\
             get_page redirect_of ix redirects name (Some v) = Some (page_of r).
Proof.
  intros loads redirect_of ops redirects r v name rs Hops Hl Hok Hin Hv Hred Htxt.
  destruct (written_pages_read loads ops Hops Hl Hok) as [E Hn]. exists (index_of rs). split; [exact E|].
  apply get_page_revid; [exact Hred | exact (index_by_revid rs r v Hn Hin Hv) | exact Htxt].
Qed.
Print Assumptions C14_pages_roundtrip_by_revid.

(* PAGES, BY TITLE: THE NEWEST REVISION, whatever the order of writing. *)
Theorem C14_pages_roundtrip_by_title : forall loads redirect_of ops redirects r v t,
  let rs := write_ops [] ops in
  (forall o, In o ops -> exists r, o = WPage r) ->
  (forall r, In r rs -> loads (r_json r) = Some (r_meta r)) ->
  Forall (fun r => ~ In c_lf (r_json r) /\ contains sep (r_text r) = false) rs ->
  In r rs -> title_of r = t -> rev_of r = Some v ->
  (forall r', In r' rs -> title_of r' = t -> exists v', rev_of r' = Some v' /\ (v' <= v)%Z) ->
  dict_get str_eqb t redirects = None ->
  exists ix, read_revisions loads (file_of rs) = Some ix /\
             get_page redirect_of ix redirects t None = Some (page_of r).
Proof.
  intros loads redirect_of ops redirects r v t rs Hops Hl Hok Hin Ht Hv Hmax Hred.
  destruct (written_pages_read loads ops Hops Hl Hok) as [E Hn]. exists (index_of rs). split; [exact E|].
  apply get_page_title; [exact Hred | exact (index_by_title_newest rs r v t Hn Hin Ht Hv Hmax)].
Qed.
Print Assumptions C14_pages_roundtrip_by_title.

(* normalize_and_get_page (nuwiki.py:215-217) looks a spelling up under get_fqname(spelling).  Since equivalent
   spellings have the same canonical title (C12_spelling_invariant, C12_idempotent), the page
   C14_pages_roundtrip_by_title serves under the canonical title is served under each of them. *)
Theorem C14_pages_by_spelling : forall st rtab ix redirects spelling dns k P t,
  py_splitname st spelling dns = Ok (k, P, t) ->
  q_norm st rtab ix redirects spelling dns = Ok (q_get rtab ix redirects t None).
Proof.
  intros st rtab ix redirects spelling dns k P t H. unfold q_norm, q_get, py_get_fqname, get_fqname.
  unfold py_splitname in H. rewrite H. reflexivity.
Qed.
Print Assumptions C14_pages_by_spelling.

(* REDIRECTS recorded at write time resolve to the newest revision of the target page. *)
Theorem C14_redirects_resolve : forall loads redirect_of ops redirects src dst r v rev,
  let rs := write_ops [] ops in
  (forall o, In o ops -> exists r, o = WPage r) ->
  (forall r, In r rs -> loads (r_json r) = Some (r_meta r)) ->
  Forall (fun r => ~ In c_lf (r_json r) /\ contains sep (r_text r) = false) rs ->
  dict_get str_eqb src redirects = Some dst ->
  In r rs -> title_of r = dst -> rev_of r = Some v ->
  (forall r', In r' rs -> title_of r' = dst -> exists v', rev_of r' = Some v' /\ (v' <= v)%Z) ->
  exists ix, read_revisions loads (file_of rs) = Some ix /\
             get_page redirect_of ix redirects src rev = Some (page_of r).
Proof.
  intros loads redirect_of ops redirects src dst r v rev rs Hops Hl Hok Hred Hin Ht Hv Hmax.
  destruct (written_pages_read loads ops Hops Hl Hok) as [E Hn]. exists (index_of rs). split; [exact E|].
  apply (get_page_redirected _ _ _ src dst); [exact Hred | exact (index_by_title_newest rs r v dst Hn Hin Ht Hv Hmax)].
Qed.
Print Assumptions C14_redirects_resolve.

(* FILE NAMES.  Two titles over the property's alphabet (every non-ASCII code point, ASCII letters and digits,
   '-' '.' '_' '~' and space; no edge spaces) that get the same file name are equal up to '_' versus ' '. *)
Theorem C14_fs_escape_injective : forall a b,
  forallb alpha a = true -> forallb alpha b = true -> ends_nonspace a -> ends_nonspace b ->
  fs_escape a = fs_escape b -> map us2sp a = map us2sp b.
Proof. exact fs_escape_injective. Qed.
Print Assumptions C14_fs_escape_injective.

(* IMAGES.  For every bundled site: an image stored under its canonical title T (local File-namespace name, ':',
   capitalised remainder p) is found — at the very file name the writer used — under every spelling of the C12 grammar
   (any name/alias of namespace 6 in any letter case, '_' or runs of spaces, leading colon, edge white space and marks),
   and under the bare remainder (default namespace 6).  Names are taken after URL-unquoting; %XX is excluded. *)
Theorem C14_image_found_by_spelling : forall nm st en L n s NS' W p P' E1 C E3 E4 stored,
  In (nm, st) all_sites -> In n (names_of st 6%Z) -> n <> [] -> star_of st 6%Z = Some L ->
  cv py_upper_char py_lower_char s n -> expands s NS' ->
  Forall (ws' py_is_ws) W -> Forall (edge' py_is_ws) E1 ->
  Forall (edge' py_is_ws) (match C with Some E2 => E2 | None => [] end) ->
  Forall (edge' py_is_ws) E3 -> Forall (edge' py_is_ws) E4 ->
  tidy py_is_ws p -> expands p P' ->
  let T := prefix_of L ++ maybe_capitalize py_upper_char (s_capitalize st) p in
  ~ In 47 T -> In T stored ->
  q_image st en stored (E1 ++ lead C ++ NS' ++ W ++ c_colon :: E3 ++ P' ++ E4) = Ok (Some (stored_name T)).
Proof.
  intros nm st en L n s NS' W p P' E1 C E3 E4 stored Hin Hn Hne HL Hcv Hex HW H1 HC H3 H4 Hp Hexp T.
  apply (q_image_found st en stored _ (maybe_capitalize py_upper_char (s_capitalize st) p) T).
  exact (py_spelling nm st 6%Z L n s NS' W p P' E1 C E3 E4 6%Z Hin Hn Hne HL Hcv Hex HW H1 HC H3 H4 Hp Hexp).
Qed.
Print Assumptions C14_image_found_by_spelling.

Theorem C14_image_found_by_bare_name : forall nm st en L p P' E1 E4 stored,
  In (nm, st) all_sites -> star_of st 6%Z = Some L ->
  Forall (edge' py_is_ws) E1 -> Forall (edge' py_is_ws) E4 ->
  tidy py_is_ws p -> ~ In c_colon p -> expands p P' ->
  let T := prefix_of L ++ maybe_capitalize py_upper_char (s_capitalize st) p in
  ~ In 47 T -> In T stored ->
  q_image st en stored (E1 ++ P' ++ E4) = Ok (Some (stored_name T)).
Proof.
  intros nm st en L p P' E1 E4 stored Hin HL H1 H4 Hp Hnc Hexp T.
  apply (q_image_found st en stored _ (maybe_capitalize py_upper_char (s_capitalize st) p) T).
  exact (py_spelling_plain nm st p P' E1 None E4 6%Z 6%Z L Hin H1 (Forall_nil _) H4 Hp Hnc Hexp eq_refl HL).
Qed.
Print Assumptions C14_image_found_by_bare_name.

(* EXPANDED PAGES (write_expanded_page) in ANY mix with write_pages deliveries (no restriction on the operations before
   or after).  An expanded page written without revision id is served under its title with the text written, as long as no
   LATER operation writes the same title without revision id (raw revisions of the title that carry ids, older expansions,
   other titles do not matter) ... *)
Theorem C14_expanded_page_by_title : forall loads redirect_of ops1 r ops2 redirects t,
  let rs := write_ops [] (ops1 ++ WExpanded r :: ops2) in
  (forall r, In r rs -> loads (r_json r) = Some (r_meta r)) ->
  Forall (fun r => ~ In c_lf (r_json r) /\ contains sep (r_text r) = false) rs ->
  title_of r = t -> rev_of r = None ->
  (forall r', In r' (recs_of ops2) -> title_of r' = t -> rev_of r' <> None) ->
  dict_get str_eqb t redirects = None ->
  exists ix, read_revisions loads (file_of rs) = Some ix /\
             get_page redirect_of ix redirects t None = Some (page_of r).
Proof.
  intros loads redirect_of ops1 r ops2 redirects t rs Hl Hok Ht Hv Hlater Hred.
  destruct (written_expanded_read loads ops1 r ops2 Hl Hok) as [E [rs2 [Ers Hsub]]]. exists (index_of rs). split; [exact E|].
  apply get_page_title; [exact Hred|]. unfold rs. rewrite Ers.
  apply index_by_title_norevid; [exact Ht | exact Hv | intros r' Hr'; exact (Hlater r' (Hsub r' Hr'))].
Qed.
Print Assumptions C14_expanded_page_by_title.

(* ... through a redirects.json entry pointing to its title ... *)
Theorem C14_expanded_page_through_redirect : forall loads redirect_of ops1 r ops2 redirects src t rev,
  let rs := write_ops [] (ops1 ++ WExpanded r :: ops2) in
  (forall r, In r rs -> loads (r_json r) = Some (r_meta r)) ->
  Forall (fun r => ~ In c_lf (r_json r) /\ contains sep (r_text r) = false) rs ->
  title_of r = t -> rev_of r = None ->
  (forall r', In r' (recs_of ops2) -> title_of r' = t -> rev_of r' <> None) ->
  dict_get str_eqb src redirects = Some t ->
  exists ix, read_revisions loads (file_of rs) = Some ix /\
             get_page redirect_of ix redirects src rev = Some (page_of r).
Proof.
  intros loads redirect_of ops1 r ops2 redirects src t rev rs Hl Hok Ht Hv Hlater Hred.
  destruct (written_expanded_read loads ops1 r ops2 Hl Hok) as [E [rs2 [Ers Hsub]]]. exists (index_of rs). split; [exact E|].
  apply (get_page_redirected _ _ _ src t); [exact Hred|]. unfold rs. rewrite Ers.
  apply index_by_title_norevid; [exact Ht | exact Hv | intros r' Hr'; exact (Hlater r' (Hsub r' Hr'))].
Qed.
Print Assumptions C14_expanded_page_through_redirect.

(* ... and an expanded page written WITH a revision id is served under that id unless a later operation writes the id again
   (write_expanded_page does not mark revision ids as seen). *)
Theorem C14_expanded_page_by_revid : forall loads redirect_of ops1 r ops2 redirects v name,
  let rs := write_ops [] (ops1 ++ WExpanded r :: ops2) in
  (forall r, In r rs -> loads (r_json r) = Some (r_meta r)) ->
  Forall (fun r => ~ In c_lf (r_json r) /\ contains sep (r_text r) = false) rs ->
  rev_of r = Some v ->
  (forall r', In r' (recs_of ops2) -> rev_of r' <> Some v) ->
  dict_get str_eqb name redirects = None ->
  (r_text r = [] \/ redirect_of (r_text r) = None) ->
  exists ix, read_revisions loads (file_of rs) = Some ix /\
             get_page redirect_of ix redirects name (Some v) = Some (page_of r).
Proof.
  intros loads redirect_of ops1 r ops2 redirects v name rs Hl Hok Hv Hlater Hred Htxt.
  destruct (written_expanded_read loads ops1 r ops2 Hl Hok) as [E [rs2 [Ers Hsub]]]. exists (index_of rs). split; [exact E|].
  apply get_page_revid; [exact Hred | | exact Htxt]. unfold rs. rewrite Ers.
  apply (by_rev_last _ r rs2 v); [exact Hv | intros r' Hr'; exact (Hlater r' (Hsub r' Hr'))].
Qed.
Print Assumptions C14_expanded_page_by_revid.

(* NO LENGTH RESTRICTION.  C14_fs_escape_injective above quantifies over titles of every length; the next two theorems say
   so explicitly: the file name is never shorter than the title (nothing is cut off), and two titles that share a prefix
   of ANY length and differ afterwards get different file names. *)
Theorem C14_fs_escape_no_truncation : forall s, forallb alpha s = true -> ends_nonspace s ->
  (length s <= length (fs_escape s))%nat.
Proof. intros s Ha He. rewrite (fs_escape_on_alpha s Ha He). exact (flat_map_code_length s Ha). Qed.
Print Assumptions C14_fs_escape_no_truncation.

Theorem C14_long_titles_kept_apart : forall p x y,
  forallb alpha (p ++ x) = true -> forallb alpha (p ++ y) = true ->
  ends_nonspace (p ++ x) -> ends_nonspace (p ++ y) ->
  map us2sp x <> map us2sp y ->
  fs_escape (p ++ x) <> fs_escape (p ++ y).
Proof. exact long_titles_kept_apart. Qed.
Print Assumptions C14_long_titles_kept_apart.

(* EVERY IMAGE ITS OWN BYTES.  Any number of images written into one directory (store_images: a later write to the same
   file name replaces the content), titles over the property's alphabet of any length, different titles possibly with
   different bytes: asked under any spelling of its title (C12 grammar), an image comes back with the bytes stored under
   THAT title. *)
Theorem C14_image_own_bytes_by_spelling : forall (D : Type) nm st en L n s NS' W p P' E1 C E3 E4 (imgs : list (str * D)) d,
  In (nm, st) all_sites -> In n (names_of st 6%Z) -> n <> [] -> star_of st 6%Z = Some L ->
  cv py_upper_char py_lower_char s n -> expands s NS' ->
  Forall (ws' py_is_ws) W -> Forall (edge' py_is_ws) E1 ->
  Forall (edge' py_is_ws) (match C with Some E2 => E2 | None => [] end) ->
  Forall (edge' py_is_ws) E3 -> Forall (edge' py_is_ws) E4 ->
  tidy py_is_ws p -> expands p P' ->
  let T := prefix_of L ++ maybe_capitalize py_upper_char (s_capitalize st) p in
  ~ In 47 T -> In (T, d) imgs ->
  (forall T' d', In (T', d') imgs -> forallb alpha T' = true /\ ends_nonspace T') ->
  (forall T' d', In (T', d') imgs -> map us2sp T' = map us2sp T -> d' = d) ->
  image_bytes (store_images imgs) (q_image st en (map fst imgs) (E1 ++ lead C ++ NS' ++ W ++ c_colon :: E3 ++ P' ++ E4)) = Some d.
Proof.
  intros D nm st en L n s NS' W p P' E1 C E3 E4 imgs d Hin Hn Hne HL Hcv Hex HW H1 HC H3 H4 Hp Hexp T Hslash Hst Hal Hfun.
  rewrite (C14_image_found_by_spelling nm st en L n s NS' W p P' E1 C E3 E4 (map fst imgs) Hin Hn Hne HL Hcv Hex HW H1 HC H3 H4
             Hp Hexp Hslash (in_map fst imgs (T, d) Hst)).
  exact (stored_own_bytes imgs T d Hst Hal Hfun).
Qed.
Print Assumptions C14_image_own_bytes_by_spelling.

Theorem C14_image_own_bytes_by_bare_name : forall (D : Type) nm st en L p P' E1 E4 (imgs : list (str * D)) d,
  In (nm, st) all_sites -> star_of st 6%Z = Some L ->
  Forall (edge' py_is_ws) E1 -> Forall (edge' py_is_ws) E4 ->
  tidy py_is_ws p -> ~ In c_colon p -> expands p P' ->
  let T := prefix_of L ++ maybe_capitalize py_upper_char (s_capitalize st) p in
  ~ In 47 T -> In (T, d) imgs ->
  (forall T' d', In (T', d') imgs -> forallb alpha T' = true /\ ends_nonspace T') ->
  (forall T' d', In (T', d') imgs -> map us2sp T' = map us2sp T -> d' = d) ->
  image_bytes (store_images imgs) (q_image st en (map fst imgs) (E1 ++ P' ++ E4)) = Some d.
Proof.
  intros D nm st en L p P' E1 E4 imgs d Hin HL H1 H4 Hp Hnc Hexp T Hslash Hst Hal Hfun.
  rewrite (C14_image_found_by_bare_name nm st en L p P' E1 E4 (map fst imgs) Hin HL H1 H4 Hp Hnc Hexp Hslash
             (in_map fst imgs (T, d) Hst)).
  exact (stored_own_bytes imgs T d Hst Hal Hfun).
Qed.
Print Assumptions C14_image_own_bytes_by_bare_name.

(* Non-vacuity of the length claims: 250 and 2000 shared characters (ASCII, and non-ASCII that is escaped to 5 characters
   each), different last character before the extension: different file names; a 251-character title keeps 251 characters. *)
Example C14_long_titles_example :
  fs_escape (repeat 97 250 ++ [49]) <> fs_escape (repeat 97 250 ++ [50]) /\
  fs_escape (65 :: repeat 233 2000 ++ [49; 46; 112; 110; 103]) <> fs_escape (65 :: repeat 233 2000 ++ [50; 46; 112; 110; 103]) /\
  length (fs_escape (repeat 97 250 ++ [49])) = 251%nat.
Proof. exact long_titles_example. Qed.
Print Assumptions C14_long_titles_example.

(* THE ENGLISH FALLBACK (nuwiki.py:231-236).  For every bundled site st and the bundled English site en: an image stored
   under the ENGLISH File-namespace name Len ++ ":" ++ P (P = the capitalised remainder) while no file exists under the
   site's local name L ++ ":" ++ P is found — at the file written for the English name — under every spelling of the C12
   grammar a page of the site may use (local / canonical / alias name of namespace 6 in any case, decorations), and under
   the bare remainder. *)
Theorem C14_image_found_by_english_name : forall nm st nm_en en L Len n s NS' W p P' E1 C E3 E4 stored,
  In (nm, st) all_sites -> In (nm_en, en) all_sites -> star_of en 6%Z = Some Len -> s_capitalize en = s_capitalize st ->
  In n (names_of st 6%Z) -> n <> [] -> star_of st 6%Z = Some L ->
  cv py_upper_char py_lower_char s n -> expands s NS' ->
  Forall (ws' py_is_ws) W -> Forall (edge' py_is_ws) E1 ->
  Forall (edge' py_is_ws) (match C with Some E2 => E2 | None => [] end) ->
  Forall (edge' py_is_ws) E3 -> Forall (edge' py_is_ws) E4 ->
  tidy py_is_ws p -> ~ In c_colon p -> expands p P' ->
  let P := maybe_capitalize py_upper_char (s_capitalize st) p in
  let T := prefix_of L ++ P in
  let Ten := prefix_of Len ++ P in
  ~ In 47 T -> ~ In (stored_name T) (map stored_name stored) -> In Ten stored ->
  q_image st en stored (E1 ++ lead C ++ NS' ++ W ++ c_colon :: E3 ++ P' ++ E4) = Ok (Some (stored_name Ten)).
Proof.
  intros nm st nm_en en L Len n s NS' W p P' E1 C E3 E4 stored Hin Hen HLen Hcap Hn Hne HL Hcv Hex HW H1 HC H3 H4 Hp Hnc Hexp P T.
  apply (q_image_found_english nm_en st en stored _ T Len p Hen HLen Hcap Hp Hnc).
  exact (py_spelling nm st 6%Z L n s NS' W p P' E1 C E3 E4 6%Z Hin Hn Hne HL Hcv Hex HW H1 HC H3 H4 Hp Hexp).
Qed.
Print Assumptions C14_image_found_by_english_name.

Theorem C14_image_found_by_bare_name_english : forall nm st nm_en en L Len p P' E1 E4 stored,
  In (nm, st) all_sites -> In (nm_en, en) all_sites -> star_of en 6%Z = Some Len -> s_capitalize en = s_capitalize st ->
  star_of st 6%Z = Some L ->
  Forall (edge' py_is_ws) E1 -> Forall (edge' py_is_ws) E4 ->
  tidy py_is_ws p -> ~ In c_colon p -> expands p P' ->
  let P := maybe_capitalize py_upper_char (s_capitalize st) p in
  let T := prefix_of L ++ P in
  let Ten := prefix_of Len ++ P in
  ~ In 47 T -> ~ In (stored_name T) (map stored_name stored) -> In Ten stored ->
  q_image st en stored (E1 ++ P' ++ E4) = Ok (Some (stored_name Ten)).
Proof.
  intros nm st nm_en en L Len p P' E1 E4 stored Hin Hen HLen Hcap HL H1 H4 Hp Hnc Hexp P T.
  apply (q_image_found_english nm_en st en stored _ T Len p Hen HLen Hcap Hp Hnc).
  exact (py_spelling_plain nm st p P' E1 None E4 6%Z 6%Z L Hin H1 (Forall_nil _) H4 Hp Hnc Hexp eq_refl HL).
Qed.
Print Assumptions C14_image_found_by_bare_name_english.

(* Non-vacuity: German site, "File:X.png" stored (file "FileX.png"), nothing under "Datei:X.png"; "bild:x.png" finds it. *)
Example C14_fallback_example :
  exists st en, In ([100; 101], st) all_sites /\ In ([101; 110], en) all_sites /\
  q_image st en [[70; 105; 108; 101; 58; 88; 46; 112; 110; 103]] [98; 105; 108; 100; 58; 120; 46; 112; 110; 103]
  = Ok (Some [70; 105; 108; 101; 88; 46; 112; 110; 103]).
Proof. exact fallback_example. Qed.
Print Assumptions C14_fallback_example.

(* Non-vacuity: two revisions of "A" written oldest first, the newer text starting with the separator tail; the file is
   read back, title lookup gives revision 9, revision 5 is still served by id. *)
Example C14_example :
  let m5 := {| m_title := [65]; m_ns := 0%Z; m_revid := Some 5%Z; m_expanded := false |} in
  let m9 := {| m_title := [65]; m_ns := 0%Z; m_revid := Some 9%Z; m_expanded := false |} in
  let r5 := {| r_meta := m5; r_json := [123; 53; 125]; r_text := [102; 105; 118; 101] |} in
  let r9 := {| r_meta := m9; r_json := [123; 57; 125]; r_text := tl sep ++ [110; 105; 110; 101] |} in
  let ops := [WPage r5; WPage r9; WPage r5] in
  match archive_index ops with
  | Some ix => q_get [] ix [] [65] None = Some (page_of r9) /\ q_get [] ix [] [65] (Some 5%Z) = Some (page_of r5)
  | None => False
  end.
Proof. vm_compute. split; reflexivity. Qed.
Print Assumptions C14_example.

(* HISTORY INDEPENDENCE OF THE LOOKUPS ON ONE OPENED ARCHIVE.  A session = the answers to a list of queries
   (normalize_and_get_page with any default namespace, get_page, get_fqname) asked one after the other on the one opened
   archive.  Whatever was asked before and after, the answer to a query is the answer it gets as the only query on the fresh
   archive.  (The model has no handler state, so this holds by construction; it is stated because the real NsHandler/NuWiki
   objects live across lookups: the correspondence run asks the lookups of one archive in random order on the one object.) *)
Theorem C14_lookup_history_independent : forall st rtab ix redirects before q after,
  nth_error (session st rtab ix redirects (before ++ q :: after)) (length before)
    = nth_error (session st rtab ix redirects [q]) 0
  /\ nth_error (session st rtab ix redirects [q]) 0 = Some (answer_of st rtab ix redirects q).
Proof. exact session_history_independent. Qed.
Print Assumptions C14_lookup_history_independent.
