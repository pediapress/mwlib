(* C14 — the revision index and the lookups: by revision id, newest revision by title, redirects. *)
From Coq Require Import List NArith ZArith Bool Lia Sorting.Sorted.
From MW Require Import Common.Str C12.Model C14.Model.
Import ListNotations.

Definition page_of (r : rec) : page := {| p_meta := r_meta r; p_text := r_text r |}.
Definition hs_of (rs : list rec) : list (str * str) := map (fun r => (r_json r, r_text r)) rs.
Definition rev_of (r : rec) : option Z := m_revid (r_meta r).
Definition title_of (r : rec) : str := m_title (r_meta r).
Definition revids (rs : list rec) : list Z := flat_map (fun r => match rev_of r with Some v => [v] | None => [] end) rs.

Section Dict.
  Context {K V : Type} (eqb : K -> K -> bool).
  Hypothesis eqb_spec : forall a b, eqb a b = true <-> a = b.

  Lemma dict_eqb_refl a : eqb a a = true.
  Proof. apply eqb_spec. reflexivity. Qed.
  Lemma dict_eqb_neq a b : a <> b -> eqb a b = false.
  Proof. intros H. destruct (eqb a b) eqn:E; [apply eqb_spec in E; contradiction | reflexivity]. Qed.

  Lemma get_set_same k (v : V) d : dict_get eqb k (dict_set eqb k v d) = Some v.
  Proof.
    induction d as [|[k' v'] d IH]; cbn; [rewrite dict_eqb_refl; reflexivity|].
    destruct (eqb k k') eqn:E; cbn; [rewrite dict_eqb_refl; reflexivity | rewrite E; exact IH].
  Qed.

  Lemma get_set_other k k2 (v : V) d : k2 <> k -> dict_get eqb k2 (dict_set eqb k v d) = dict_get eqb k2 d.
  Proof.
    intros Hne. induction d as [|[k' v'] d IH]; cbn; [rewrite dict_eqb_neq by exact Hne; reflexivity|].
    destruct (eqb k k') eqn:E; cbn.
    - apply eqb_spec in E. subst k'. rewrite dict_eqb_neq by exact Hne. reflexivity.
    - destruct (eqb k2 k'); [reflexivity | exact IH].
  Qed.

  Lemma in_set k (v : V) d x : In x (dict_set eqb k v d) -> x = (k, v) \/ In x d.
  Proof.
    induction d as [|[k' v'] d IH]; cbn; [intros [H|[]]; auto|].
    destruct (eqb k k'); cbn; intros [H|H]; auto. destruct (IH H); auto.
  Qed.

  Lemma keys_set k (v : V) d : NoDup (map fst d) -> NoDup (map fst (dict_set eqb k v d)).
  Proof.
    induction d as [|[k' v'] d IH]; cbn; intros H; [constructor; [intros []|constructor]|].
    inversion H as [|? ? Hn Hd]; subst. destruct (eqb k k') eqn:E; cbn.
    - apply eqb_spec in E. subst k'. constructor; assumption.
    - constructor; [|exact (IH Hd)]. intros X. apply in_map_iff in X as [[a b] [Ea Hin]]. cbn in Ea. subst a.
      apply in_set in Hin as [Hin|Hin]; [inversion Hin; subst; rewrite dict_eqb_refl in E; discriminate|].
      apply Hn. apply in_map_iff. exists (k', b). auto.
  Qed.

  Lemma get_in k (v : V) d : dict_get eqb k d = Some v -> In (k, v) d.
  Proof.
    induction d as [|[k' v'] d IH]; cbn; [discriminate|]. destruct (eqb k k') eqn:E.
    - apply eqb_spec in E. subst. intros H. inversion H. left. reflexivity.
    - intros H. right. exact (IH H).
  Qed.

  Lemma in_get k (v : V) d : NoDup (map fst d) -> In (k, v) d -> dict_get eqb k d = Some v.
  Proof.
    induction d as [|[k' v'] d IH]; cbn; intros Hn Hin; [contradiction|]. inversion Hn as [|? ? Hx Hd]; subst.
    destruct Hin as [Hin|Hin].
    - inversion Hin; subst. rewrite dict_eqb_refl. reflexivity.
    - destruct (eqb k k') eqn:E; [|exact (IH Hd Hin)]. apply eqb_spec in E. subst k'.
      exfalso. apply Hx. apply in_map_iff. exists (k, v). auto.
  Qed.

  Lemma get_app_one k k' (v : V) d : dict_get eqb k (d ++ [(k', v)]) =
    match dict_get eqb k d with Some x => Some x | None => if eqb k k' then Some v else None end.
  Proof. induction d as [|[a b] d IH]; cbn; [reflexivity|]. destruct (eqb k a); [reflexivity | exact IH]. Qed.
End Dict.

(* phase 1 (nuwiki.py:164-175): the records, in file order *)
Definition load_rec (ix : index) (r : rec) : index :=
  match rev_of r with
  | None => {| by_rev := by_rev ix; by_title := dict_set str_eqb (title_of r) (page_of r) (by_title ix) |}
  | Some v => {| by_rev := dict_set Z.eqb v (page_of r) (by_rev ix); by_title := by_title ix |}
  end.
Definition load_recs (rs : list rec) (ix : index) : index := fold_left load_rec rs ix.

Lemma load_pages_recs loads rs : (forall r, In r rs -> loads (r_json r) = Some (r_meta r)) ->
  forall ix, load_pages loads (hs_of rs) ix = Some (load_recs rs ix).
Proof.
  induction rs as [|r rs IH]; intros H ix; [reflexivity|]. cbn [hs_of map load_pages].
  rewrite (H r (or_introl eq_refl)). unfold load_recs. cbn [fold_left]. unfold load_rec at 2, rev_of, title_of, page_of.
  destruct (m_revid (r_meta r)); apply IH; intros r' Hr'; apply H; right; exact Hr'.
Qed.

Lemma by_rev_absent v rs : (forall r, In r rs -> rev_of r <> Some v) ->
  forall ix, dict_get Z.eqb v (by_rev (load_recs rs ix)) = dict_get Z.eqb v (by_rev ix).
Proof.
  induction rs as [|r rs IH]; intros H ix; [reflexivity|]. unfold load_recs. cbn [fold_left]. fold (load_recs rs (load_rec ix r)).
  rewrite IH by (intros r' Hr'; apply H; right; exact Hr'). unfold load_rec.
  destruct (rev_of r) as [w|] eqn:E; [|reflexivity]. cbn [by_rev].
  apply (get_set_other Z.eqb Z.eqb_eq). intros ->. exact (H r (or_introl eq_refl) E).
Qed.

Lemma revids_in r v rs : In r rs -> rev_of r = Some v -> In v (revids rs).
Proof. intros Hin Hv. unfold revids. apply in_flat_map. exists r. split; [exact Hin|]. rewrite Hv. left. reflexivity. Qed.

Lemma load_recs_app rs1 r rs2 ix : load_recs (rs1 ++ r :: rs2) ix = load_recs rs2 (load_rec (load_recs rs1 ix) r).
Proof. unfold load_recs. rewrite fold_left_app. reflexivity. Qed.

Lemma by_rev_last rs1 r rs2 v ix : rev_of r = Some v -> (forall r', In r' rs2 -> rev_of r' <> Some v) ->
  dict_get Z.eqb v (by_rev (load_recs (rs1 ++ r :: rs2) ix)) = Some (page_of r).
Proof.
  intros Hv Hl. rewrite load_recs_app, by_rev_absent by exact Hl. unfold load_rec. rewrite Hv. cbn [by_rev].
  apply (get_set_same Z.eqb Z.eqb_eq).
Qed.

Lemma by_rev_found rs r v ix : NoDup (revids rs) -> In r rs -> rev_of r = Some v ->
  dict_get Z.eqb v (by_rev (load_recs rs ix)) = Some (page_of r).
Proof.
  intros Hn Hin Hv. apply in_split in Hin as [rs1 [rs2 ->]]. apply by_rev_last; [exact Hv|]. intros r' Hr' E.
  unfold revids in Hn. rewrite flat_map_app in Hn. cbn [flat_map] in Hn. rewrite Hv in Hn.
  apply NoDup_remove_2 in Hn. apply Hn, in_or_app. right. exact (revids_in r' v rs2 Hr' E).
Qed.

Lemma by_rev_keys rs : forall ix, NoDup (map fst (by_rev ix)) -> NoDup (map fst (by_rev (load_recs rs ix))).
Proof.
  induction rs as [|r rs IH]; intros ix H; [exact H|]. unfold load_recs. cbn [fold_left]. apply IH.
  unfold load_rec. destruct (rev_of r); [|exact H]. cbn [by_rev]. apply (keys_set Z.eqb Z.eqb_eq). exact H.
Qed.

Lemma by_rev_sound rs : forall ix v p, In (v, p) (by_rev (load_recs rs ix)) ->
  (exists r, In r rs /\ rev_of r = Some v /\ p = page_of r) \/ In (v, p) (by_rev ix).
Proof.
  induction rs as [|r rs IH]; intros ix v p H; [right; exact H|]. unfold load_recs in H. cbn [fold_left] in H.
  apply IH in H as [[r' [A [B C]]]|H]; [left; exists r'; split; [right; exact A | auto]|].
  unfold load_rec in H. destruct (rev_of r) as [w|] eqn:E; [|right; exact H]. cbn [by_rev] in H.
  apply in_set in H as [H|H]; [|right; exact H]. inversion H; subst. left. exists r. split; [left; reflexivity | auto].
Qed.

Lemma by_title_absent t rs : (forall r, In r rs -> title_of r = t -> rev_of r <> None) ->
  forall ix, dict_get str_eqb t (by_title (load_recs rs ix)) = dict_get str_eqb t (by_title ix).
Proof.
  induction rs as [|r rs IH]; intros H ix; [reflexivity|]. unfold load_recs. cbn [fold_left]. fold (load_recs rs (load_rec ix r)).
  rewrite IH by (intros r' Hr'; apply H; right; exact Hr'). unfold load_rec.
  destruct (rev_of r) as [w|] eqn:E; [reflexivity|]. cbn [by_title].
  apply (get_set_other str_eqb str_eqb_spec). intros X. exact (H r (or_introl eq_refl) (eq_sym X) E).
Qed.

(* phase 2 (nuwiki.py:177-182): titles from the revisions, newest first *)
Definition desc (a b : Z * page) : Prop := (fst b <= fst a)%Z.

Lemma insert_desc_in x a l : In x (insert_desc a l) <-> x = a \/ In x l.
Proof.
  induction l as [|y l IH]; cbn; [intuition (subst; auto)|]. destruct (Z.leb (fst y) (fst a)); cbn; [intuition (subst; auto)|].
  rewrite IH. intuition (subst; auto).
Qed.

Lemma sort_desc_in x l : In x (sort_desc l) <-> In x l.
Proof.
  induction l as [|a l IH]; [cbn; tauto|]. unfold sort_desc in *. cbn [fold_right]. rewrite insert_desc_in, IH. cbn. intuition (subst; auto).
Qed.

Lemma insert_desc_sorted a l : StronglySorted desc l -> StronglySorted desc (insert_desc a l).
Proof.
  induction 1 as [|y l Hs IH Hall]; cbn; [constructor; constructor|].
  destruct (Z.leb_spec (fst y) (fst a)) as [Hle|Hgt].
  - constructor; [constructor; assumption|]. constructor; [exact Hle|].
    rewrite Forall_forall in *. intros z Hz. unfold desc in *. specialize (Hall z Hz). lia.
  - constructor; [exact IH|]. apply Forall_forall. intros z Hz. apply insert_desc_in in Hz as [->|Hz].
    + unfold desc. lia.
    + rewrite Forall_forall in Hall. exact (Hall z Hz).
Qed.

Lemma sort_desc_sorted l : StronglySorted desc (sort_desc l).
Proof. induction l as [|a l IH]; [constructor|]. unfold sort_desc in *. cbn [fold_right]. apply insert_desc_sorted. exact IH. Qed.

Definition ptitle (kp : Z * page) : str := m_title (p_meta (snd kp)).
Definition add_step (bt : list (str * page)) (kp : Z * page) : list (str * page) :=
  match dict_get str_eqb (ptitle kp) bt with Some _ => bt | None => bt ++ [(ptitle kp, snd kp)] end.

Lemma add_steps_get t S : forall bt, dict_get str_eqb t (fold_left add_step S bt) =
  match dict_get str_eqb t bt with
  | Some p => Some p
  | None => option_map (@snd Z page) (find (fun kp => str_eqb (ptitle kp) t) S)
  end.
Proof.
  induction S as [|kp S IH]; intros bt; cbn [fold_left find]; [destruct (dict_get str_eqb t bt); reflexivity|].
  rewrite IH. unfold add_step at 1.
  destruct (dict_get str_eqb (ptitle kp) bt) as [q|] eqn:E.
  - destruct (dict_get str_eqb t bt) eqn:E2; [reflexivity|].
    destruct (str_eqb (ptitle kp) t) eqn:E3; [|reflexivity]. apply str_eqb_spec in E3. congruence.
  - rewrite (get_app_one str_eqb). destruct (dict_get str_eqb t bt); [reflexivity|].
    destruct (str_eqb t (ptitle kp)) eqn:E3.
    + apply str_eqb_spec in E3. subst t. rewrite str_eqb_refl. reflexivity.
    + destruct (str_eqb (ptitle kp) t) eqn:E4; [apply str_eqb_spec in E4; subst t; rewrite str_eqb_refl in E3; discriminate | reflexivity].
Qed.

(* after add_titles a title maps to the entry it had, else to the first revision of the sorted list that carries it *)
Lemma add_titles_get t ix : dict_get str_eqb t (by_title (add_titles ix)) =
  match dict_get str_eqb t (by_title ix) with
  | Some p => Some p
  | None => option_map (@snd Z page) (find (fun kp => str_eqb (ptitle kp) t) (sort_desc (by_rev ix)))
  end.
Proof. exact (add_steps_get t (sort_desc (by_rev ix)) (by_title ix)). Qed.

Lemma find_sorted_max (P : Z * page -> bool) S x : StronglySorted desc S -> find P S = Some x ->
  forall y, In y S -> P y = true -> (fst y <= fst x)%Z.
Proof.
  induction 1 as [|a S Hs IH Hall]; cbn [find]; [discriminate|]. destruct (P a) eqn:E.
  - intros H y Hy Py. inversion H; subst. destruct Hy as [->|Hy]; [lia|]. rewrite Forall_forall in Hall. exact (Hall y Hy).
  - intros H y Hy Py. destruct Hy as [->|Hy]; [congruence|]. exact (IH H y Hy Py).
Qed.

(* in a list sorted by descending key the first match is x, if x matches, no match has a greater key and no other
   element has the key of x *)
Lemma find_desc_newest (P : Z * page -> bool) S x : StronglySorted desc S -> In x S -> P x = true ->
  (forall y, In y S -> P y = true -> (fst y <= fst x)%Z) -> (forall y, In y S -> fst y = fst x -> y = x) ->
  find P S = Some x.
Proof.
  intros Hs Hin Px Hmax Huniq. destruct (find P S) as [y|] eqn:Ef.
  - destruct (find_some _ _ Ef) as [Hy Py]. f_equal. apply (Huniq y Hy).
    pose proof (find_sorted_max P S y Hs Ef x Hin Px). pose proof (Hmax y Hy Py). lia.
  - rewrite (find_none _ _ Ef x Hin) in Px. discriminate.
Qed.

Definition empty_index : index := {| by_rev := []; by_title := [] |}.
Definition index_of (rs : list rec) : index := add_titles (load_recs rs empty_index).

Lemma read_index loads rs : (forall r, In r rs -> loads (r_json r) = Some (r_meta r)) ->
  match load_pages loads (hs_of rs) empty_index with Some ix => Some (add_titles ix) | None => None end = Some (index_of rs).
Proof. intros H. rewrite (load_pages_recs loads rs H). reflexivity. Qed.

Theorem index_by_revid rs r v : NoDup (revids rs) -> In r rs -> rev_of r = Some v ->
  dict_get Z.eqb v (by_rev (index_of rs)) = Some (page_of r).
Proof. intros Hn Hin Hv. unfold index_of. cbn [add_titles by_rev]. apply by_rev_found; assumption. Qed.

(* BY TITLE: THE NEWEST REVISION.  If every record of title t carries a revision id, the page served under t is the
   record with the greatest revision id, in whatever order the records were written. *)
Theorem index_by_title_newest rs r v t : NoDup (revids rs) -> In r rs -> title_of r = t -> rev_of r = Some v ->
  (forall r', In r' rs -> title_of r' = t -> exists v', rev_of r' = Some v' /\ (v' <= v)%Z) ->
  dict_get str_eqb t (by_title (index_of rs)) = Some (page_of r).
Proof.
  intros Hn Hin Ht Hv Hmax. unfold index_of. rewrite add_titles_get.
  rewrite by_title_absent by (intros r' Hr' Et E; destruct (Hmax r' Hr' Et) as [v' [A _]]; congruence). cbn [by_title empty_index dict_get].
  set (B := by_rev (load_recs rs empty_index)).
  assert (HB : dict_get Z.eqb v B = Some (page_of r)) by (apply by_rev_found; assumption).
  rewrite (find_desc_newest _ (sort_desc B) (v, page_of r)); [reflexivity | apply sort_desc_sorted | | | |].
  - apply sort_desc_in, (get_in Z.eqb Z.eqb_eq). exact HB.
  - unfold ptitle. cbn [snd page_of p_meta]. fold (title_of r). rewrite Ht. apply str_eqb_refl.
  - (* a revision of title t in the index is a record of rs *)
    intros [v' p'] Hy Py. apply (proj1 (sort_desc_in _ _)), by_rev_sound in Hy as [[r' [A [Bv ->]]]|[]]. apply str_eqb_spec in Py.
    destruct (Hmax r' A Py) as [v'' [D E]]. assert (v'' = v') by congruence. subst v''. exact E.
  - intros [v' p'] Hy Ev. cbn [fst] in Ev. subst v'. apply (proj1 (sort_desc_in _ _)) in Hy.
    assert (HK : NoDup (map fst B)) by (apply by_rev_keys; constructor).
    pose proof (in_get Z.eqb Z.eqb_eq v p' B HK Hy) as G. congruence.
Qed.

(* BY TITLE, page without revision id: the last such record written under the title *)
Theorem index_by_title_norevid rs1 r rs2 t : title_of r = t -> rev_of r = None ->
  (forall r', In r' rs2 -> title_of r' = t -> rev_of r' <> None) ->
  dict_get str_eqb t (by_title (index_of (rs1 ++ r :: rs2))) = Some (page_of r).
Proof.
  intros Ht Hv Hlater. unfold index_of. rewrite add_titles_get, load_recs_app.
  rewrite by_title_absent by exact Hlater. unfold load_rec. rewrite Hv. cbn [by_title]. rewrite Ht.
  rewrite (get_set_same str_eqb str_eqb_spec). reflexivity.
Qed.

(* _get_page (nuwiki.py:193-209) on an index of which the entry asked for is known *)
Section GetPage.
  Variable redirect_of : str -> option str.
  Variable ix : index.
  Variable redirects : list (str * str).

  (* by revision id (a text that is a redirect page would be served by following it) *)
  Lemma get_page_revid name v p : dict_get str_eqb name redirects = None -> dict_get Z.eqb v (by_rev ix) = Some p ->
    (p_text p = [] \/ redirect_of (p_text p) = None) ->
    get_page redirect_of ix redirects name (Some v) = Some p.
  Proof.
    intros Hred Hp Htxt. unfold get_page. rewrite Hred, Hp. destruct Htxt as [->| ->]; [reflexivity|].
    destruct (p_text p); reflexivity.
  Qed.

  Lemma get_page_title t p : dict_get str_eqb t redirects = None -> dict_get str_eqb t (by_title ix) = Some p ->
    get_page redirect_of ix redirects t None = Some p.
  Proof. intros Hred Hp. unfold get_page, get_by_title. rewrite Hred, Hp. reflexivity. Qed.

  (* through a redirect recorded at write time, with or without revision *)
  Lemma get_page_redirected src dst p rev : dict_get str_eqb src redirects = Some dst ->
    dict_get str_eqb dst (by_title ix) = Some p ->
    get_page redirect_of ix redirects src rev = Some p.
  Proof. intros Hred Hp. unfold get_page, get_by_title. rewrite Hred, Hp. destruct rev; reflexivity. Qed.
End GetPage.
