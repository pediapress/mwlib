(* C14 — expanded-page records (fetch.py:177-185 write_expanded_page) in ANY mix with write_pages operations.
   write_expanded_page never consults or feeds the revision-id part of `seen`, so its record is always written and
   nothing after it is de-duplicated against it; which record is served is then decided by the last one written under
   the key (ProofsIndex: by_rev_last, index_by_title_norevid), without NoDup (revids rs). *)
From Coq Require Import List NArith ZArith Bool Lia.
From MW Require Import Common.Str C12.Model C14.Model C14.ProofsIndex C14.ProofsFile.
Import ListNotations.

Definition rec_of_op (o : wop) : rec := match o with WPage r => r | WExpanded r => r end.
Definition recs_of (ops : list wop) : list rec := map rec_of_op ops.

Lemma write_ops_sub ops : forall seen r, In r (write_ops seen ops) -> In r (recs_of ops).
Proof.
  induction ops as [|o ops IH]; intros seen r H; [exact H|]. destruct o as [x|x]; cbn [write_ops] in H; cbn [recs_of map rec_of_op].
  - destruct (m_revid (r_meta x)) as [v|].
    + destruct (existsb (Z.eqb v) seen); [right; exact (IH _ _ H)|]. destruct H as [H|H]; [left; exact H | right; exact (IH _ _ H)].
    + destruct H as [H|H]; [left; exact H | right; exact (IH _ _ H)].
  - destruct H as [H|H]; [left; exact H | right; exact (IH _ _ H)].
Qed.

Lemma write_ops_app a : forall seen b, exists seen', write_ops seen (a ++ b) = write_ops seen a ++ write_ops seen' b.
Proof.
  induction a as [|o a IH]; intros seen b; [exists seen; reflexivity|]. destruct o as [x|x]; cbn [app write_ops].
  - destruct (m_revid (r_meta x)) as [v|].
    + destruct (existsb (Z.eqb v) seen).
      * apply IH.
      * destruct (IH (v :: seen) b) as [s' E]. exists s'. rewrite E. reflexivity.
    + destruct (IH seen b) as [s' E]. exists s'. rewrite E. reflexivity.
  - destruct (IH seen b) as [s' E]. exists s'. rewrite E. reflexivity.
Qed.

Lemma written_expanded_read loads ops1 r ops2 :
  let rs := write_ops [] (ops1 ++ WExpanded r :: ops2) in
  (forall r, In r rs -> loads (r_json r) = Some (r_meta r)) ->
  Forall rec_ok rs ->
  read_revisions loads (file_of rs) = Some (index_of rs) /\
  exists rs2, rs = write_ops [] ops1 ++ r :: rs2 /\ (forall r', In r' rs2 -> In r' (recs_of ops2)).
Proof.
  intros rs Hl Hok. split; [apply read_revisions_file; assumption|].
  destruct (write_ops_app ops1 [] (WExpanded r :: ops2)) as [s' E]. exists (write_ops s' ops2). split; [exact E|].
  exact (write_ops_sub ops2 s').
Qed.
