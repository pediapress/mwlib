(* C14 — images are kept apart whatever their length: fs_escape never shortens a title of the property's alphabet, two such
   titles sharing a prefix of ANY length get different file names, and every stored image is served with ITS OWN bytes. *)
From Coq Require Import List NArith ZArith Bool Lia.
From MW Require Import Common.Str C12.Model C12.ListLemmas C14.Model C14.ProofsIndex C14.ProofsEscape.
Import ListNotations. Open Scope N_scope.

Lemma code_nonempty c : alpha c = true -> (1 <= length (code c))%nat.
Proof.
  intros H. destruct (code_shape c H) as [[k [E _]]|[[_ E]|[_ E]]]; rewrite E; cbn [length]; lia.
Qed.

Lemma flat_map_code_length s : forallb alpha s = true -> (length s <= length (flat_map code s))%nat.
Proof.
  induction s as [|c s IH]; [reflexivity|]. cbn [forallb flat_map length]. intros H.
  apply andb_true_iff in H as [H1 H2]. rewrite app_length. pose proof (code_nonempty c H1). pose proof (IH H2). lia.
Qed.

Lemma map_app_cancel {A B} (f : A -> B) p x y : map f (p ++ x) = map f (p ++ y) -> map f x = map f y.
Proof. rewrite !map_app. apply app_inv_head. Qed.

Theorem long_titles_kept_apart : forall p x y,
  forallb alpha (p ++ x) = true -> forallb alpha (p ++ y) = true ->
  ends_nonspace (p ++ x) -> ends_nonspace (p ++ y) ->
  map us2sp x <> map us2sp y ->
  fs_escape (p ++ x) <> fs_escape (p ++ y).
Proof.
  intros p x y Ax Ay Ex Ey Hne E. apply Hne.
  apply (map_app_cancel us2sp p). exact (fs_escape_injective _ _ Ax Ay Ex Ey E).
Qed.

Lemma store_get_gen {D} (key : str) (d : D) : forall imgs fs,
  (forall T' d', In (T', d') imgs -> stored_name T' = key -> d' = d) ->
  (exists T, In (T, d) imgs /\ stored_name T = key) \/ dict_get str_eqb key fs = Some d ->
  dict_get str_eqb key (fold_left (fun fs im => dict_set str_eqb (stored_name (fst im)) (snd im) fs) imgs fs) = Some d.
Proof.
  induction imgs as [|[T0 d0] imgs IH]; intros fs Hc H.
  - cbn [fold_left]. destruct H as [[T [[] _]]|H]. exact H.
  - cbn [fold_left fst snd]. apply IH; [intros T' d' Hin; apply Hc; right; exact Hin|].
    destruct (str_eqb (stored_name T0) key) eqn:Ek.
    + apply str_eqb_spec in Ek. right.
      assert (d0 = d) by (apply (Hc T0 d0 (or_introl eq_refl) Ek)). subst d0.
      rewrite Ek. apply (get_set_same str_eqb str_eqb_spec).
    + destruct H as [[T [[Hin|Hin] Hk]]|H].
      * inversion Hin; subst. rewrite str_eqb_refl in Ek. discriminate Ek.
      * left. exists T. split; assumption.
      * right. rewrite (get_set_other str_eqb str_eqb_spec); [exact H|].
        intros Heq. subst key. rewrite str_eqb_refl in Ek. discriminate Ek.
Qed.

Theorem stored_own_bytes : forall {D} (imgs : list (str * D)) T d,
  In (T, d) imgs ->
  (forall T' d', In (T', d') imgs -> forallb alpha T' = true /\ ends_nonspace T') ->
  (forall T' d', In (T', d') imgs -> map us2sp T' = map us2sp T -> d' = d) ->
  dict_get str_eqb (stored_name T) (store_images imgs) = Some d.
Proof.
  intros D imgs T d Hin Hal Hfun. unfold store_images. apply store_get_gen.
  - intros T' d' Hin' Ek. apply (Hfun T' d' Hin'). unfold stored_name in Ek.
    destruct (Hal T' d' Hin') as [A1 A2]. destruct (Hal T d Hin) as [B1 B2].
    exact (fs_escape_injective T' T A1 B1 A2 B2 Ek).
  - left. exists T. split; [exact Hin | reflexivity].
Qed.

(* non-vacuity at MediaWiki's title limit and far beyond: 250 / 2000 shared characters, different last character *)
Example long_titles_example :
  fs_escape (repeat 97 250 ++ [49]) <> fs_escape (repeat 97 250 ++ [50]) /\
  fs_escape (65 :: repeat 233 2000 ++ [49; 46; 112; 110; 103]) <> fs_escape (65 :: repeat 233 2000 ++ [50; 46; 112; 110; 103]) /\
  length (fs_escape (repeat 97 250 ++ [49])) = 251%nat.
Proof.
  split; [|split].
  - apply (long_titles_kept_apart (repeat 97 250) [49] [50]); try (vm_compute; reflexivity); try (vm_compute; split; reflexivity).
    vm_compute. discriminate.
  - apply (long_titles_kept_apart (65 :: repeat 233 2000) [49; 46; 112; 110; 103] [50; 46; 112; 110; 103]);
      try (vm_compute; reflexivity); try (vm_compute; split; reflexivity).
    vm_compute. discriminate.
  - vm_compute. reflexivity.
Qed.
