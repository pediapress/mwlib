(* C14 — fs_escape (utils/unorganized.py:25-42) on the property's alphabet.  Its three stages (escape every character;
   strip, then ' ' -> '_'; delete what the regular expression does not keep) amount to one code word per character,
   `code`, and the code words are uniquely decodable up to '_' = ' '. *)
From Coq Require Import List NArith ZArith Bool Lia DecimalN DecimalFacts.
From MW Require Import Common.Str C12.Model C12.ListLemmas C14.Model.
Import ListNotations. Open Scope N_scope.

(* the property's alphabet: every non-ASCII code point ("letters"), ASCII letters and digits, '-' '.' '_' '~', and space *)
Definition alpha (c : N) : bool := negb (is_ascii c) || keep_char c || N.eqb c 32.
Definition us2sp (c : N) : N := if N.eqb c 95 then 32 else c.          (* '_' and ' ' identified *)
Definition ends_nonspace (s : str) : Prop := ends_ok (fun c => N.eqb c 32) s.   (* canonical titles have no edge spaces *)

(* the code word fs_escape produces for a character of the alphabet *)
Definition code (c : N) : str := if N.eqb c 32 then [95] else esc_char c.
Definition sp2us (c : N) : N := if N.eqb c 32 then 95 else c.
Definition isdigit (c : N) : Prop := 48 <= c /\ c <= 57.

Lemma keep_char_spec c : keep_char c = true ->
  48 <= c <= 57 \/ 65 <= c <= 90 \/ 97 <= c <= 122 \/ c = 95 \/ c = 45 \/ c = 46 \/ c = 126.
Proof.
  unfold keep_char, c_tilde. rewrite !orb_true_iff, !andb_true_iff, !N.leb_le, !N.eqb_eq. lia.
Qed.

Lemma is_ascii_ws_spec c : is_ascii_ws c = true -> 9 <= c <= 13 \/ 28 <= c <= 32.
Proof.
  unfold is_ascii_ws. rewrite orb_true_iff, !andb_true_iff, !N.leb_le. lia.
Qed.

Lemma uint_digits_inj : forall u v, uint_digits u = uint_digits v -> u = v.
Proof.
  induction u; destruct v; cbn [uint_digits]; intros H; try discriminate H; try reflexivity;
    injection H as H; f_equal; auto.
Qed.

Lemma uint_digits_isdigit : forall u, Forall isdigit (uint_digits u).
Proof.
  induction u; cbn [uint_digits]; constructor; try assumption; unfold isdigit; lia.
Qed.

Lemma decimal_inj a b : decimal a = decimal b -> a = b.
Proof.
  unfold decimal. intros H. apply uint_digits_inj in H.
  rewrite <- (DecimalN.Unsigned.of_to a), <- (DecimalN.Unsigned.of_to b), H. reflexivity.
Qed.

Lemma decimal_isdigit a : Forall isdigit (decimal a).
Proof. apply uint_digits_isdigit. Qed.

Lemma decimal_nonempty a : a <> 0 -> decimal a <> [].
Proof.
  intros Ha H. apply Ha. unfold decimal in H. change (@nil N) with (uint_digits Decimal.Nil) in H.
  apply uint_digits_inj in H. rewrite <- (DecimalN.Unsigned.of_to a), H. reflexivity.
Qed.

Lemma digits_split : forall d1 d2 x y, Forall isdigit d1 -> Forall isdigit d2 ->
  d1 ++ 126 :: x = d2 ++ 126 :: y -> d1 = d2 /\ x = y.
Proof.
  induction d1 as [|a d1 IH]; destruct d2 as [|b d2]; cbn [app]; intros x y H1 H2 E.
  - injection E as E. auto.
  - injection E as E1 E2. inversion H2 as [|? ? Hb _]; subst. unfold isdigit in Hb. lia.
  - injection E as E1 E2. inversion H1 as [|? ? Hb _]; subst. unfold isdigit in Hb. lia.
  - injection E as E1 E2. inversion H1; inversion H2; subst.
    destruct (IH d2 x y) as [-> ->]; auto.
Qed.

Lemma keep_not_ws x : keep_char x = true -> is_ascii_ws x = false.
Proof.
  intros H. apply keep_char_spec in H. destruct (is_ascii_ws x) eqn:E; [|reflexivity].
  apply is_ascii_ws_spec in E. lia.
Qed.

Lemma keep_not_32 x : keep_char x = true -> x <> 32.
Proof. intros H ->. vm_compute in H. discriminate H. Qed.

Lemma digit_keep x : isdigit x -> keep_char x = true.
Proof.
  intros [H1 H2]. unfold keep_char. apply N.leb_le in H1, H2. rewrite H1, H2. reflexivity.
Qed.

Lemma esc_shape c : alpha c = true -> c <> 32 ->
  (esc_char c = [c] /\ keep_char c = true /\ c <> 126)
  \/ (c = 126 /\ esc_char c = [126; 126])
  \/ (128 <= c /\ esc_char c = 126 :: decimal c ++ [126]).
Proof.
  unfold alpha, esc_char, is_ascii, c_tilde. intros H Hn.
  destruct (N.ltb_spec0 c 128) as [L|L]; cbn [negb orb andb] in *.
  - apply orb_true_iff in H. destruct H as [H|H]; [|apply N.eqb_eq in H; contradiction].
    destruct (N.eqb_spec c 126) as [->|N1]; cbn [negb andb].
    + right. left. split; reflexivity.
    + left. destruct (N.eqb_spec c 47) as [->|N2]; [vm_compute in H; discriminate H|].
      destruct (N.eqb_spec c 92) as [->|N3]; [vm_compute in H; discriminate H|].
      cbn [negb andb]. auto.
  - right. right. destruct (N.eqb_spec c 126) as [->|N1]; [lia|]. split; [lia|reflexivity].
Qed.

Lemma code_shape c : alpha c = true ->
  (exists k, code c = [k] /\ k <> 126 /\ us2sp k = us2sp c /\ keep_char k = true)
  \/ (c = 126 /\ code c = [126; 126])
  \/ (128 <= c /\ code c = 126 :: decimal c ++ [126]).
Proof.
  intros H. unfold code. destruct (N.eqb_spec c 32) as [->|Hn].
  - left. exists 95. repeat split; lia.
  - destruct (esc_shape c H Hn) as [[E [K N1]]|[[-> E]|[L E]]].
    + left. exists c. rewrite E. auto.
    + right. left. split; [reflexivity|exact E].
    + right. right. split; assumption.
Qed.

Lemma filter_map_digits l : Forall isdigit l -> filter keep_char (map sp2us l) = l.
Proof.
  induction 1 as [|x l Hx _ IH]; [reflexivity|]. cbn [map filter]. rewrite IH.
  unfold sp2us. destruct (N.eqb_spec x 32) as [->|_]; [unfold isdigit in Hx; lia|].
  rewrite (digit_keep x Hx). reflexivity.
Qed.

(* the second and third stage, on what the first makes of a character *)
Lemma stage23_char c : alpha c = true -> filter keep_char (map sp2us (esc_char c)) = code c.
Proof.
  intros H. unfold code. destruct (N.eqb_spec c 32) as [->|Hn]; [vm_compute; reflexivity|].
  destruct (esc_shape c H Hn) as [[E [K N1]]|[[-> E]|[L E]]]; rewrite E.
  - cbn [map filter]. unfold sp2us. destruct (N.eqb_spec c 32); [contradiction|]. rewrite K. reflexivity.
  - vm_compute. reflexivity.
  - cbn [map]. rewrite map_app. cbn [map].
    change (sp2us 126) with 126. cbn [filter]. change (keep_char 126) with true. cbv iota.
    rewrite filter_app. rewrite filter_map_digits by apply decimal_isdigit. reflexivity.
Qed.

Lemma stage23 s : forallb alpha s = true ->
  filter keep_char (map sp2us (flat_map esc_char s)) = flat_map code s.
Proof.
  induction s as [|c s IH]; [reflexivity|]. cbn [forallb flat_map]. intros H.
  apply andb_true_iff in H as [H1 H2]. rewrite map_app, filter_app, IH by exact H2.
  rewrite stage23_char by exact H1. reflexivity.
Qed.

Lemma esc_first c : alpha c = true -> c <> 32 ->
  exists x r, esc_char c = x :: r /\ is_ascii_ws x = false.
Proof.
  intros H Hn. destruct (esc_shape c H Hn) as [[E [K N1]]|[[-> E]|[L E]]]; rewrite E.
  - exists c, []. split; [reflexivity|apply keep_not_ws; exact K].
  - exists 126, [126]. split; reflexivity.
  - exists 126, (decimal c ++ [126]). split; reflexivity.
Qed.

Lemma esc_last c : alpha c = true -> c <> 32 ->
  exists r x, esc_char c = r ++ [x] /\ is_ascii_ws x = false.
Proof.
  intros H Hn. destruct (esc_shape c H Hn) as [[E [K N1]]|[[-> E]|[L E]]]; rewrite E.
  - exists [], c. split; [reflexivity|apply keep_not_ws; exact K].
  - exists [126], 126. split; reflexivity.
  - exists (126 :: decimal c), 126. split; reflexivity.
Qed.

Lemma esc_ends_ok s : forallb alpha s = true -> ends_nonspace s -> ends_ok is_ascii_ws (flat_map esc_char s).
Proof.
  intros Ha [H1 H2]. split.
  - destruct s as [|h t]; [exact I|]. cbn [forallb] in Ha. apply andb_true_iff in Ha as [Hh _].
    apply N.eqb_neq in H1. destruct (esc_first h Hh H1) as [x [r [E W]]].
    cbn [flat_map]. rewrite E. cbn [app]. exact W.
  - destruct (snoc_cases s) as [->|[a [l ->]]]; [exact I|].
    rewrite List.rev_app_distr in H2. cbn in H2. apply N.eqb_neq in H2.
    rewrite forallb_app in Ha. apply andb_true_iff in Ha as [_ Hl]. cbn [forallb] in Hl. apply andb_true_iff in Hl as [Hl _].
    destruct (esc_last l Hl H2) as [r [x [E W]]].
    rewrite flat_map_app. cbn [flat_map]. rewrite List.app_nil_r, E, List.app_assoc, List.rev_app_distr. cbn. exact W.
Qed.

Theorem fs_escape_on_alpha : forall s, forallb alpha s = true -> ends_nonspace s ->
  fs_escape s = flat_map code s.
Proof.
  intros s Ha He. unfold fs_escape. cbv zeta.
  rewrite strip_id by (apply esc_ends_ok; assumption).
  exact (stage23 s Ha).
Qed.

(* after its tilde a numeric escape goes on with a digit, "~~" with a second tilde *)
Lemma tilde_not_number d x y : d <> 0 -> 126 :: 126 :: x <> 126 :: decimal d ++ 126 :: y.
Proof.
  intros Hd E. injection E as E. pose proof (decimal_isdigit d) as D.
  destruct (decimal d) as [|h r] eqn:Ed; [exact (decimal_nonempty d Hd Ed)|].
  injection E as E _. inversion D as [|? ? [_ Hh] _]. lia.
Qed.

(* the code is prefix-free: the first character of a code word tells its shape, and `digits_split` finds the end of a
   numeric escape *)
Lemma code_cancel c d x y : alpha c = true -> alpha d = true ->
  code c ++ x = code d ++ y -> us2sp c = us2sp d /\ x = y.
Proof.
  intros Hc Hd.
  destruct (code_shape c Hc) as [[k [-> [Nk [Uk _]]]]|[[-> ->]|[Lc ->]]].
  - (* code c = [k] *)
    destruct (code_shape d Hd) as [[k' [-> [_ [Uk' _]]]]|[[-> ->]|[_ ->]]]; cbn [app]; intros E; injection E as E1 E2.
    + subst k'. split; [congruence | exact E2].
    + contradiction.
    + contradiction.
  - (* code c = "~~" *)
    destruct (code_shape d Hd) as [[k' [-> [Nk' _]]]|[[-> ->]|[Ld ->]]]; cbn [app]; intros E.
    + injection E as E1 _. symmetry in E1. contradiction.
    + injection E as E. split; [reflexivity | exact E].
    + rewrite <- app_assoc in E. destruct (tilde_not_number d x y ltac:(lia) E).
  - (* code c = "~" decimal c "~" *)
    cbn [app]. rewrite <- app_assoc.
    destruct (code_shape d Hd) as [[k' [-> [Nk' _]]]|[[-> ->]|[Ld ->]]]; cbn [app]; intros E.
    + injection E as E1 _. symmetry in E1. contradiction.
    + symmetry in E. destruct (tilde_not_number c y x ltac:(lia) E).
    + rewrite <- app_assoc in E. injection E as E.
      apply digits_split in E as [E1 E2]; try apply decimal_isdigit.
      apply decimal_inj in E1. subst d. split; [reflexivity | exact E2].
Qed.

Lemma code_nonempty c : alpha c = true -> code c <> [].
Proof. intros H. destruct (code_shape c H) as [[k [-> _]]|[[_ ->]|[_ ->]]]; discriminate. Qed.

Lemma code_inj : forall a b, forallb alpha a = true -> forallb alpha b = true ->
  flat_map code a = flat_map code b -> map us2sp a = map us2sp b.
Proof.
  induction a as [|c a IH]; destruct b as [|d b]; cbn [forallb flat_map map]; intros Ha Hb E.
  - reflexivity.
  - apply andb_true_iff in Hb as [Hd _]. symmetry in E. apply app_eq_nil in E as [E _]. destruct (code_nonempty d Hd E).
  - apply andb_true_iff in Ha as [Hc _]. apply app_eq_nil in E as [E _]. destruct (code_nonempty c Hc E).
  - apply andb_true_iff in Ha as [Hc Ha]. apply andb_true_iff in Hb as [Hd Hb].
    destruct (code_cancel c d _ _ Hc Hd E) as [E1 E2]. rewrite E1, (IH b Ha Hb E2). reflexivity.
Qed.

Theorem fs_escape_injective : forall a b,
  forallb alpha a = true -> forallb alpha b = true -> ends_nonspace a -> ends_nonspace b ->
  fs_escape a = fs_escape b -> map us2sp a = map us2sp b.
Proof.
  intros a b Ha Hb Ea Eb E.
  rewrite (fs_escape_on_alpha a Ha Ea), (fs_escape_on_alpha b Hb Eb) in E.
  exact (code_inj a b Ha Hb E).
Qed.
