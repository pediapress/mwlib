(* C14 — history independence of the lookups on one opened archive.
   The model of the opened archive (Inst.v: q_get / q_norm, C12.Inst.py_get_fqname) carries NO handler state: an answer is a
   function of (site tables, index, redirects, query).  The real NsHandler/NuWiki objects live across lookups
   (nuwiki.py:120 one NsHandler per opened archive; nshandling.py:110-124 _find_namespace is called by every lookup), so this
   is a property the code must have for the model to be faithful: the tie issues the lookups of one archive in random order on
   the one object and compares every answer with the model's.  Stated here over sessions = lists of queries. *)
From Coq Require Import List NArith ZArith Bool.
From MW Require Import Common.Str C12.Model C12.Inst C14.Model C14.Inst.
Import ListNotations.

Inductive query :=
| QNorm (name : str) (dns : Z)            (* NuWiki.normalize_and_get_page(name, dns): articles, templates (dns 10), ... *)
| QGet (name : str) (rev : option Z)      (* NuWiki.get_page(name, revision) *)
| QFq (name : str) (dns : Z).             (* nshandler.get_fqname(name, dns) *)

Inductive answer :=
| APage (r : result (option page))
| AFq (r : result str).

Section Session.
  Variable st : site.
  Variable rtab : list (str * str).
  Variable ix : index.
  Variable redirects : list (str * str).

  Definition answer_of (q : query) : answer :=
    match q with
    | QNorm name dns => APage (q_norm st rtab ix redirects name dns)
    | QGet name rev => APage (Ok (q_get rtab ix redirects name rev))
    | QFq name dns => AFq (py_get_fqname st name dns)
    end.

  (* the answers given to a list of queries asked one after the other on the one opened archive *)
  Definition session (qs : list query) : list answer :=
    fold_left (fun acc q => acc ++ [answer_of q]) qs [].

  Lemma session_from : forall qs acc,
    fold_left (fun acc q => acc ++ [answer_of q]) qs acc = acc ++ map answer_of qs.
  Proof.
    induction qs as [|q qs IH]; intros acc; cbn [fold_left map].
    - now rewrite app_nil_r.
    - rewrite IH, <- app_assoc. reflexivity.
  Qed.

  Lemma session_map : forall qs, session qs = map answer_of qs.
  Proof. intros qs. unfold session. now rewrite session_from. Qed.

  (* whatever was asked before (and after), the answer to q is the answer q gets as the only query on the fresh archive *)
  Lemma session_history_independent : forall before q after,
    nth_error (session (before ++ q :: after)) (length before) = nth_error (session [q]) 0
    /\ nth_error (session [q]) 0 = Some (answer_of q).
  Proof.
    intros before q after. rewrite !session_map. split; [|reflexivity].
    rewrite map_app. cbn [map nth_error].
    rewrite nth_error_app2 by (rewrite map_length; apply le_n).
    rewrite map_length, PeanoNat.Nat.sub_diag. reflexivity.
  Qed.

  (* the order of two earlier lookups does not matter either *)
  Lemma session_permutation_last : forall before before' q,
    length before = length before' ->
    nth_error (session (before ++ [q])) (length before) = nth_error (session (before' ++ [q])) (length before').
  Proof.
    intros before before' q _.
    destruct (session_history_independent before q []) as [H1 _].
    destruct (session_history_independent before' q []) as [H2 _].
    now rewrite H1, H2.
  Qed.
End Session.
