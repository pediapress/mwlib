(* C14 — normalize_and_get_image_path (nuwiki.py:219-241).  A name that splitname reads as the File-namespace title T is
   served from the file written for T.  The English fallback (nuwiki.py:231-236): when no file exists under the site's
   local File-namespace name, the name is rebuilt with the ENGLISH handler (en_nshandler.get_fqname(partial, NS_FILE)) and
   tried again.  An image stored under "File:<remainder>" in the archive of a non-English wiki is therefore found under
   every spelling a page of that wiki may use ("Datei:...", "Bild:...", "image:...", bare name, ...). *)
From Coq Require Import List NArith ZArith Bool.
From MW Require Import Common.Str C12.Model C12.ListLemmas C12.Proofs C12.Inst C12.ProofsInst C14.Model C14.Inst.
Import ListNotations.
Open Scope N_scope.

Lemma existsb_str_in n files : In n files -> existsb (str_eqb n) files = true.
Proof. intros H. apply existsb_exists. exists n. split; [exact H | apply str_eqb_refl]. Qed.

Lemma image_found splitname_site fqname_en files name P T :
  splitname_site name 6%Z = Ok (6%Z, P, T) -> ~ In 47 T -> In (fs_escape T) files ->
  image_lookup splitname_site fqname_en files name = Ok (Some (fs_escape T)).
Proof.
  intros Hs Hslash Hin. unfold image_lookup. rewrite Hs. cbn [Z.eqb Pos.eqb negb].
  rewrite (existsb_notin N.eqb 47 T) by (try exact Hslash; intros y; apply N.eqb_eq). unfold exists_file. rewrite (existsb_str_in _ _ Hin). reflexivity.
Qed.

Lemma q_image_found st en stored name P T : py_splitname st name 6%Z = Ok (6%Z, P, T) -> ~ In 47 T -> In T stored ->
  q_image st en stored name = Ok (Some (stored_name T)).
Proof. intros Hs Hslash Hst. apply (image_found _ _ _ _ P T); [exact Hs | exact Hslash | apply in_map; exact Hst]. Qed.

Lemma expands_refl s : no_us s -> expands s s.
Proof.
  induction s as [|c s IH]; intros H; [constructor|]. inversion H as [|? ? Hc Hs]; subst.
  destruct (N.eq_dec c c_space) as [->|Hn].
  - apply (ex_space s s [c_space]); [discriminate | constructor; [left; reflexivity | constructor] | exact (IH Hs)].
  - apply ex_char; [exact Hn | exact Hc | exact (IH Hs)].
Qed.

(* the English handler reads a canonical remainder P (tidy, no colon, already capitalised) in namespace 6 as Len ++ ":" ++ P *)
Lemma english_name nm_en en Len P : In (nm_en, en) all_sites -> star_of en 6%Z = Some Len ->
  tidy py_is_ws P -> ~ In c_colon P -> maybe_capitalize py_upper_char (s_capitalize en) P = P ->
  py_get_fqname en P 6%Z = Ok (prefix_of Len ++ P).
Proof.
  intros Hin HL Ht Hnc Hcap. unfold py_get_fqname, get_fqname. fold (py_splitname en P 6%Z).
  pose proof (py_spelling_plain nm_en en P P [] None [] 6%Z 6%Z Len Hin (Forall_nil _) (Forall_nil _) (Forall_nil _) Ht Hnc
                (expands_refl P (proj1 Ht)) eq_refl HL) as E.
  cbn [lead app] in E. rewrite app_nil_r in E. rewrite E, Hcap. reflexivity.
Qed.

Lemma image_found_fallback splitname_site fqname_en files name P T Ten :
  splitname_site name 6%Z = Ok (6%Z, P, T) -> ~ In 47 T -> ~ In (fs_escape T) files ->
  fqname_en P 6%Z = Ok Ten -> In (fs_escape Ten) files ->
  image_lookup splitname_site fqname_en files name = Ok (Some (fs_escape Ten)).
Proof.
  intros Hs Hslash Hno Hen Hin. unfold image_lookup. rewrite Hs. cbn [Z.eqb Pos.eqb negb].
  rewrite (existsb_notin N.eqb 47 T) by (try exact Hslash; intros y; apply N.eqb_eq). unfold exists_file. rewrite (existsb_notin str_eqb _ _ (fun y => proj1 (str_eqb_spec _ y)) Hno), Hen, (existsb_str_in _ _ Hin). reflexivity.
Qed.

Lemma canonical_remainder cap p : tidy py_is_ws p -> ~ In c_colon p ->
  let P := maybe_capitalize py_upper_char cap p in
  tidy py_is_ws P /\ ~ In c_colon P /\ maybe_capitalize py_upper_char cap P = P.
Proof.
  intros Ht Hnc P.
  destruct (cap_tidy py_is_ws py_upper_char py_ws_space py_upper_plain py_upper_head_fixed cap p Ht) as [A [B _]].
  split; [exact A|]. split; [exact (no_colon_cap py_is_ws py_upper_char py_upper_plain cap p Ht Hnc) | exact B].
Qed.

Lemma q_image_found_english nm_en st en stored name T Len p :
  In (nm_en, en) all_sites -> star_of en 6%Z = Some Len -> s_capitalize en = s_capitalize st ->
  tidy py_is_ws p -> ~ In c_colon p ->
  let P := maybe_capitalize py_upper_char (s_capitalize st) p in
  let Ten := prefix_of Len ++ P in
  py_splitname st name 6%Z = Ok (6%Z, P, T) ->
  ~ In 47 T -> ~ In (stored_name T) (map stored_name stored) -> In Ten stored ->
  q_image st en stored name = Ok (Some (stored_name Ten)).
Proof.
  intros Hen HLen Hcap Hp Hnc P Ten Hs Hslash Hno Hst.
  destruct (canonical_remainder (s_capitalize st) p Hp Hnc) as [A [B Cf]].
  apply (image_found_fallback _ _ _ _ P T Ten); [exact Hs | exact Hslash | exact Hno | | apply in_map; exact Hst].
  apply (english_name nm_en en Len P Hen HLen A B). rewrite Hcap. exact Cf.
Qed.

(* non-vacuity on the German site: "File:X.png" is stored, "Datei:X.png" is not; "bild:x.png" finds it *)
Example fallback_example :
  exists st en, In ([100; 101], st) all_sites /\ In ([101; 110], en) all_sites /\
  q_image st en [[70; 105; 108; 101; 58; 88; 46; 112; 110; 103]] [98; 105; 108; 100; 58; 120; 46; 112; 110; 103]
  = Ok (Some [70; 105; 108; 101; 88; 46; 112; 110; 103]).
Proof.
  eexists. eexists. split; [apply site_by_name_in; reflexivity|]. split; [apply site_by_name_in; reflexivity|].
  vm_compute. reflexivity.
Qed.
