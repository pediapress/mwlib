(* C14 — the revisions file: what the reader's chunking returns on what the writer wrote. *)
From Coq Require Import List NArith ZArith Bool Lia.
From MW Require Import Common.Str C12.Model C12.ListLemmas C14.Model C14.ProofsIndex.
Import ListNotations.
Open Scope N_scope.

(* sp occurs in s *)
Fixpoint contains (sp s : str) : bool :=
  match s with
  | [] => prefixb sp []
  | _ :: r => prefixb sp s || contains sp r
  end.

Definition body (r : rec) : str := r_json r ++ [c_lf] ++ r_text r.
Definition tail_sep : str := tl sep.

(* no occurrence of sep starts inside x when x is followed by rest *)
Fixpoint noocc (x rest : str) : bool :=
  match x with
  | [] => true
  | _ :: x' => negb (prefixb sep (x ++ rest)) && noocc x' rest
  end.

Lemma scan_noocc x : forall cur rest, noocc x rest = true -> split_go sep O cur (x ++ rest) = split_go sep O (rev x ++ cur) rest.
Proof.
  induction x as [|c x IH]; intros cur rest H; [reflexivity|].
  cbn [noocc] in H. apply andb_true_iff in H as [H1 H2]. apply negb_true_iff in H1.
  change ((c :: x) ++ rest) with (c :: x ++ rest) in *. cbn [split_go]. rewrite H1. rewrite (IH (c :: cur) rest H2).
  cbn [rev]. rewrite <- app_assoc. reflexivity.
Qed.

Lemma scan_sep cur rest : split_go sep O cur (sep ++ rest) = rev cur :: split_go sep O [] rest.
Proof. reflexivity. Qed.

Lemma prefixb_app_long sp : forall y z, (length sp <= length y)%nat -> prefixb sp (y ++ z) = prefixb sp y.
Proof.
  induction sp as [|a sp IH]; intros y z H; [reflexivity|]. destruct y as [|b y]; [cbn in H; lia|].
  cbn [app prefixb]. rewrite IH by (cbn in H; lia). reflexivity.
Qed.

Lemma lf_once : ~ In c_lf tail_sep.
Proof.
  unfold tail_sep, sep, c_lf. cbn [tl In]. intros H. repeat (destruct H as [H|H]; [discriminate H|]). exact H.
Qed.

(* a separator h :: t in which h does not come again has no border: t cannot begin inside y and run on into h *)
Lemma no_overlap h : forall t y rest, ~ In h t -> (length y < length t)%nat -> prefixb t (y ++ h :: rest) = false.
Proof.
  induction t as [|a t IH]; intros y rest Hh Hl; [cbn in Hl; lia|].
  destruct y as [|b y]; cbn [app prefixb].
  - destruct (N.eqb_spec a h) as [->|_]; [exfalso; apply Hh; left; reflexivity | reflexivity].
  - rewrite IH; [apply andb_false_r | intros X; apply Hh; right; exact X | cbn in Hl; lia].
Qed.

Lemma straddle y X : y <> [] -> (length y < 12)%nat -> prefixb sep (y ++ sep ++ X) = false.
Proof.
  intros Hne Hl. destruct y as [|y0 y]; [congruence|].
  change (prefixb sep ((y0 :: y) ++ sep ++ X)) with (N.eqb c_lf y0 && prefixb tail_sep (y ++ c_lf :: tail_sep ++ X)).
  rewrite no_overlap; [apply andb_false_r | exact lf_once | cbn in Hl |- *; lia].
Qed.

Lemma straddle_tail t X : prefixb tail_sep t = false -> prefixb tail_sep (t ++ sep ++ X) = false.
Proof.
  intros H. destruct (Nat.le_gt_cases (length tail_sep) (length t)) as [Hl|Hl].
  - rewrite prefixb_app_long by exact Hl. exact H.
  - exact (no_overlap c_lf tail_sep t (tail_sep ++ X) lf_once Hl).
Qed.

Definition rest_ok (rest : str) : Prop := rest = [] \/ exists X, rest = sep ++ X.

Lemma noocc_contains x : forall rest, contains sep x = false -> rest_ok rest -> noocc x rest = true.
Proof.
  induction x as [|c x IH]; intros rest H Hr; [reflexivity|]. cbn [contains] in H. apply orb_false_iff in H as [H1 H2].
  cbn [noocc]. rewrite (IH rest H2 Hr), andb_true_r. apply negb_true_iff.
  destruct Hr as [->|[X ->]]; [rewrite app_nil_r; exact H1|].
  destruct (Nat.le_gt_cases (length sep) (length (c :: x))) as [Hl|Hl].
  - rewrite prefixb_app_long by exact Hl. exact H1.
  - apply straddle; [discriminate | exact Hl].
Qed.

Lemma noocc_no_lf j : forall rest, ~ In c_lf j -> noocc j rest = true.
Proof.
  induction j as [|c j IH]; intros rest H; [reflexivity|]. cbn [noocc]. rewrite IH by (intros X; apply H; right; exact X).
  rewrite andb_true_r. apply negb_true_iff. change (prefixb sep ((c :: j) ++ rest)) with (N.eqb c_lf c && prefixb tail_sep (j ++ rest)).
  destruct (N.eqb_spec c_lf c) as [E|_]; [exfalso; apply H; left; symmetry; exact E | reflexivity].
Qed.

Lemma noocc_app a : forall b rest, noocc (a ++ b) rest = noocc a (b ++ rest) && noocc b rest.
Proof.
  induction a as [|c a IH]; intros b rest; [reflexivity|]. cbn [app noocc]. rewrite IH.
  change (c :: a ++ b) with ((c :: a) ++ b). rewrite <- !app_assoc. rewrite andb_assoc. reflexivity.
Qed.

(* the raw chunks one record contributes *)
Definition chunks_of (r : rec) : list str :=
  if prefixb tail_sep (r_text r) then [r_json r; skipn (length tail_sep) (r_text r)] else [body r].

Lemma prefixb_skipn p : forall s, prefixb p s = true -> s = p ++ skipn (length p) s.
Proof.
  induction p as [|a p IH]; intros s H; [reflexivity|]. destruct s as [|b s]; [discriminate|]. cbn in H.
  apply andb_true_iff in H as [H1 H2]. apply N.eqb_eq in H1. subst b. cbn. f_equal. exact (IH s H2).
Qed.

Lemma contains_suffix sp a : forall b, contains sp (a ++ b) = false -> contains sp b = false.
Proof. induction a as [|c a IH]; intros b H; [exact H|]. cbn in H. apply orb_false_iff in H as [_ H]. exact (IH b H). Qed.

Definition rec_ok (r : rec) : Prop := ~ In c_lf (r_json r) /\ contains sep (r_text r) = false.

Lemma scan_body r rest : rec_ok r -> rest_ok rest ->
  split_go sep O [] (body r ++ rest) = chunks_of r ++ tl (split_go sep O [] rest).
Proof.
  intros [Hj Ht] Hr. unfold chunks_of, body.
  assert (Hend : forall x, split_go sep O (rev x) rest = x :: tl (split_go sep O [] rest)).
  { intros x. destruct Hr as [->|[X ->]]; [cbn; rewrite rev_involutive; reflexivity|]. rewrite !scan_sep. cbn [tl]. rewrite rev_involutive. reflexivity. }
  destruct (prefixb tail_sep (r_text r)) eqn:E.
  - pose proof (prefixb_skipn _ _ E) as Es. set (t' := skipn (length tail_sep) (r_text r)) in *.
    rewrite Es.
    replace ((r_json r ++ [c_lf] ++ tail_sep ++ t') ++ rest) with (r_json r ++ sep ++ (t' ++ rest)) by (rewrite <- !app_assoc; reflexivity).
    rewrite scan_noocc by (apply noocc_no_lf; exact Hj). rewrite app_nil_r, scan_sep, rev_involutive.
    rewrite scan_noocc by (apply noocc_contains; [rewrite Es in Ht; exact (contains_suffix sep tail_sep t' Ht) | exact Hr]).
    rewrite app_nil_r, Hend. reflexivity.
  - rewrite scan_noocc.
    + rewrite app_nil_r. apply Hend.
    + rewrite noocc_app. rewrite noocc_no_lf by exact Hj. rewrite noocc_app. rewrite (noocc_contains _ rest Ht Hr), andb_true_r.
      cbn [noocc andb]. rewrite andb_true_r. apply negb_true_iff. cbn [app].
      change (prefixb sep (c_lf :: r_text r ++ rest)) with (N.eqb c_lf c_lf && prefixb tail_sep (r_text r ++ rest)). rewrite N.eqb_refl. cbn [andb].
      destruct Hr as [->|[X ->]]; [rewrite app_nil_r; exact E | apply straddle_tail; exact E].
Qed.

Lemma file_of_rest_ok rs : rest_ok (file_of rs).
Proof. destruct rs as [|r rs]; [left; reflexivity|]. right. exists (body r ++ file_of rs). unfold file_of. cbn [flat_map]. unfold record_bytes, body. rewrite <- !app_assoc. reflexivity. Qed.

Lemma split_file rs : Forall rec_ok rs -> tl (split_sep sep (file_of rs)) = flat_map chunks_of rs.
Proof.
  induction 1 as [|r rs Hr _ IH]; [reflexivity|]. unfold split_sep in *.
  assert (E : file_of (r :: rs) = sep ++ (body r ++ file_of rs)).
  { unfold file_of. cbn [flat_map]. unfold record_bytes, body. rewrite <- !app_assoc. reflexivity. }
  rewrite E, scan_sep. cbn [tl flat_map]. rewrite (scan_body r _ Hr (file_of_rest_ok rs)). rewrite IH. reflexivity.
Qed.

Lemma has_lf_body r : has_lf (body r) = true.
Proof. unfold has_lf, body. apply existsb_exists. exists c_lf. split; [apply in_or_app; right; left; reflexivity | apply N.eqb_refl]. Qed.

Lemma has_lf_false j : ~ In c_lf j -> has_lf j = false.
Proof.
  intros H. apply existsb_notin; [intros y; apply N.eqb_eq | exact H].
Qed.

Lemma rejoin_push acc ch more : Forall (fun b => has_lf b = true) acc -> rejoin acc (ch :: more) = rejoin (ch :: acc) more.
Proof. intros H. cbn [rejoin]. destruct acc as [|l a]; [reflexivity|]. inversion H; subst. rewrite H2. reflexivity. Qed.

Lemma rejoin_chunks rs : Forall rec_ok rs -> forall acc, Forall (fun b => has_lf b = true) acc ->
  rejoin acc (flat_map chunks_of rs) = rev acc ++ map body rs.
Proof.
  induction 1 as [|r rs Hr _ IH]; intros acc Hacc; [cbn; rewrite app_nil_r; reflexivity|].
  cbn [flat_map map]. destruct Hr as [Hj Ht]. unfold chunks_of at 1.
  assert (Hb : Forall (fun b => has_lf b = true) (body r :: acc)) by (constructor; [apply has_lf_body | exact Hacc]).
  destruct (prefixb tail_sep (r_text r)) eqn:E.
  - cbn [app]. rewrite rejoin_push by exact Hacc. cbn [rejoin]. rewrite (has_lf_false _ Hj).
    pose proof (prefixb_skipn _ _ E) as Es.
    assert (Eb : r_json r ++ sep ++ skipn (length tail_sep) (r_text r) = body r).
    { unfold body. rewrite Es at 2. reflexivity. }
    rewrite Eb. transitivity (rev (body r :: acc) ++ map body rs); [exact (IH (body r :: acc) Hb)|]. cbn [rev]. rewrite <- app_assoc. reflexivity.
  - cbn [app]. rewrite rejoin_push by exact Hacc. transitivity (rev (body r :: acc) ++ map body rs); [exact (IH (body r :: acc) Hb)|]. cbn [rev]. rewrite <- app_assoc. reflexivity.
Qed.

Lemma split_headers_bodies rs : Forall rec_ok rs -> split_headers (map body rs) = Some (hs_of rs).
Proof.
  induction 1 as [|r rs [Hj _] _ IH]; [reflexivity|]. cbn [map split_headers hs_of]. unfold body at 1. cbn [app].
  rewrite split1_app by exact Hj. fold (hs_of rs). rewrite IH. reflexivity.
Qed.

Theorem read_chunks_file rs : Forall rec_ok rs -> read_chunks (file_of rs) = Some (hs_of rs).
Proof.
  intros H. unfold read_chunks. rewrite (split_file rs H). rewrite (rejoin_chunks rs H [] (Forall_nil _)). cbn [rev app].
  apply split_headers_bodies. exact H.
Qed.

Lemma read_revisions_file loads rs : Forall rec_ok rs -> (forall r, In r rs -> loads (r_json r) = Some (r_meta r)) ->
  read_revisions loads (file_of rs) = Some (index_of rs).
Proof.
  intros H Hl. unfold read_revisions. rewrite (read_chunks_file rs H). exact (read_index loads rs Hl).
Qed.

(* the writer never lets write_pages store one revision id twice *)
Lemma write_ops_nodup ops : forall seen, (forall o, In o ops -> exists r, o = WPage r) ->
  NoDup (revids (write_ops seen ops)) /\ (forall v, In v (revids (write_ops seen ops)) -> ~ In v seen).
Proof.
  induction ops as [|o ops IH]; intros seen H; [split; [constructor | intros v []]|].
  destruct (H o (or_introl eq_refl)) as [r ->]. cbn [write_ops].
  assert (H' : forall o, In o ops -> exists r, o = WPage r) by (intros o Ho; apply H; right; exact Ho).
  destruct (m_revid (r_meta r)) as [v|] eqn:E.
  - destruct (existsb (Z.eqb v) seen) eqn:Es; [apply IH; exact H'|].
    destruct (IH (v :: seen) H') as [A B]. change (revids (r :: write_ops (v :: seen) ops)) with
      ((match rev_of r with Some w => [w] | None => [] end) ++ revids (write_ops (v :: seen) ops)).
    unfold rev_of. rewrite E. cbn [app]. split.
    + constructor; [|exact A]. intros X. apply (B v X). left. reflexivity.
    + intros w [<-|Hw].
      * intros X. assert (Y : existsb (Z.eqb v) seen = true) by (apply existsb_exists; exists v; split; [exact X | apply Z.eqb_refl]). congruence.
      * intros X. apply (B w Hw). right. exact X.
  - destruct (IH seen H') as [A B]. change (revids (r :: write_ops seen ops)) with
      ((match rev_of r with Some w => [w] | None => [] end) ++ revids (write_ops seen ops)).
    unfold rev_of. rewrite E. cbn [app]. split; assumption.
Qed.

Lemma written_pages_read loads ops :
  let rs := write_ops [] ops in
  (forall o, In o ops -> exists r, o = WPage r) ->
  (forall r, In r rs -> loads (r_json r) = Some (r_meta r)) ->
  Forall rec_ok rs ->
  read_revisions loads (file_of rs) = Some (index_of rs) /\ NoDup (revids rs).
Proof.
  intros rs Hops Hl Hok. split; [apply read_revisions_file; assumption | exact (proj1 (write_ops_nodup ops [] Hops))].
Qed.
