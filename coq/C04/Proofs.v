(* C04 — the implementation model (C03/Model.v flatten on `compile p`) computes the reference semantics `eval`: `main` for one
   node, `eval_correct_body` for a body.
   In order: grammar text (okstr); `flat_to n e s`, "node n flattens to s in frame e" (Section Flat); programs of the grammar (wf);
   one lemma per kind of node (Section Nodes; `env_rel` and `binds` relate an ArgumentList to a reference environment); the shape
   of the tuples of `compile`; one case lemma per construct for any parse `items` of the bodies (Section Cases, used again by
   ProofsEq.v); the #switch tables of `compile` and the induction on the fuel (Section Induction); three concrete programs. *)
From Coq Require Import List NArith ZArith Bool Lia Arith.
From MW Require Import Common.Str C03.Model C03.Proofs C04.Model C04.ProofsSwitch.
Import ListNotations.

Definition badc (c : N) : bool := existsb (N.eqb c) [42;35;58;59;124;60333]%N.
(* a grammar character: not one of * # : ; | U+EBAD, and whitespace for Python iff whitespace for PHP trim *)
Definition okc (c : N) : bool := negb (badc c) && Bool.eqb (is_ws c) (php_ws c).
Definition okstr (s : str) : bool := forallb okc s.
Definition okp (p : piece) : Prop := okstr (piece_str p) = true.

Lemma okstr_app a b : okstr (a ++ b) = okstr a && okstr b.
Proof. unfold okstr. apply forallb_app. Qed.

Lemma okstr_rev a : okstr (rev a) = okstr a.
Proof. apply forallb_rev. Qed.

Lemma lstrip_by_ok p s : okstr s = true -> okstr (lstrip_by p s) = true.
Proof.
  induction s as [|x s IH]; intros H; cbn [lstrip_by]; [reflexivity|].
  destruct (p x); [|exact H]. apply IH. cbn [okstr forallb] in H. apply andb_true_iff in H. apply H.
Qed.

Lemma strip_by_ok p s : okstr s = true -> okstr (strip_by p s) = true.
Proof.
  intros H. unfold strip_by. rewrite okstr_rev. apply lstrip_by_ok. rewrite okstr_rev. apply lstrip_by_ok. exact H.
Qed.

Lemma okstr_ws_agree s : okstr s = true -> forall c, In c s -> is_ws c = php_ws c.
Proof.
  unfold okstr. rewrite forallb_forall. intros H c Hc. specialize (H c Hc). unfold okc in H.
  apply andb_true_iff in H as [_ H]. apply eqb_prop in H. exact H.
Qed.

(* on grammar strings Python's strip() and PHP's trim() coincide *)
Lemma strip_trim s : okstr s = true -> strip s = trim s.
Proof. intros H. apply strip_by_ext. apply okstr_ws_agree. exact H. Qed.

Lemma okstr_not_ebad s : okstr s = true -> forall c, In c s -> N.eqb 60333 c = false.
Proof.
  unfold okstr. rewrite forallb_forall. intros H c Hc. specialize (H c Hc). unfold okc in H.
  apply andb_true_iff in H as [H _]. apply negb_true_iff in H. unfold badc in H. cbn [existsb] in H.
  repeat (apply orb_false_iff in H as [? H]).
  destruct (N.eqb_spec 60333 c) as [<-|]; [|reflexivity]. discriminate.
Qed.

Lemma strip_ebad_id s : okstr s = true -> strip_ebad s = s.
Proof.
  intros H. unfold strip_ebad, strip_by.
  rewrite (lstrip_none _ s) by (apply okstr_not_ebad; exact H).
  rewrite lstrip_none; [apply rev_involutive|].
  intros c Hc. apply in_rev in Hc. revert c Hc. apply okstr_not_ebad. exact H.
Qed.

(* Parser._strip_ws on a tuple (parser.py:105-117): a white-space-only string is dropped at the front, then at the back *)
Definition drop_front (l : list node) : list node :=
  match l with NStr s :: r => if is_blank s then r else l | _ => l end.
Definition drop_back (l : list node) : list node :=
  match rev l with NStr s :: r => if is_blank s then rev r else l | _ => l end.

Lemma strip_ws_node_seq l : strip_ws_node (NSeq l) = NSeq (drop_back (drop_front l)).
Proof. reflexivity. Qed.

Lemma is_blank_ws s : is_blank s = true -> forallb is_ws s = true.
Proof. unfold is_blank. intros H. apply strip_nil_all. unfold strip in H. destruct (strip_by is_ws s); [reflexivity|discriminate]. Qed.

(* pieces: implicit newlines never fire on grammar text *)

Lemma okc_not c : okc c = true ->
  N.eqb c 42 = false /\ N.eqb c 35 = false /\ N.eqb c 58 = false /\ N.eqb c 59 = false /\ N.eqb c 124 = false.
Proof.
  unfold okc, badc. cbn [existsb]. intros H. apply andb_true_iff in H as [H _]. apply negb_true_iff in H.
  repeat (apply orb_false_iff in H as [? H]). repeat split; assumption.
Qed.

Lemma implicit_nl_ok t : okstr t = true -> implicit_nl t = false.
Proof.
  destruct t as [|c r]; [reflexivity|]. cbn [okstr forallb implicit_nl]. intros H.
  apply andb_true_iff in H as [Hc Hr]. destruct (okc_not c Hc) as (-> & -> & -> & -> & _). cbn [orb].
  destruct r as [|d r]; [apply andb_false_r|]. cbn [forallb] in Hr. apply andb_true_iff in Hr as [Hd _].
  destruct (okc_not d Hd) as (_ & _ & _ & _ & ->). apply andb_false_r.
Qed.

Lemma okstr_app_ok a b : okstr a = true -> okstr b = true -> okstr (a ++ b) = true.
Proof. intros Ha Hb. rewrite okstr_app, Ha, Hb. reflexivity. Qed.

Lemma join_nl_ok ps : Forall okp ps -> join_nl ps = pjoin ps.
Proof. exact (join_nl_quiet (fun s => okstr s = true) eq_refl okstr_app_ok implicit_nl_ok ps). Qed.

Lemma okp_join ps : Forall okp ps -> okstr (pjoin ps) = true.
Proof.
  induction 1 as [|x l Hx Hl IH]; [reflexivity|]. change (pjoin (x :: l)) with (piece_str x ++ pjoin l).
  apply okstr_app_ok; assumption.
Qed.

(* the result of a flatten: grammar pieces whose join is s *)
Definition yields (r : res (list piece)) (s : str) : Prop := exists ps, r = Ok ps /\ pjoin ps = s /\ Forall okp ps.

Lemma yields_str s : okstr s = true -> yields (Ok [PS s]) s.
Proof. intros H. exists [PS s]. split; [reflexivity|]. split; [apply pjoin_single|]. constructor; [exact H|constructor]. Qed.

Lemma yields_okstr r s : yields r s -> okstr s = true.
Proof. intros (ps & _ & <- & Hp). apply okp_join, Hp. Qed.

(* P b c holds of the flatten with nesting budget b at recursion count c for every large enough b, at every c *)
Definition eventually (P : nat -> nat -> Prop) : Prop := exists b0, forall b c, (b0 <= b)%nat -> P b c.

Lemma ev_always (P : nat -> nat -> Prop) : (forall b c, P b c) -> eventually P.
Proof. intros H. exists 0%nat. intros b c _. apply H. Qed.

Lemma ev_and {P Q : nat -> nat -> Prop} : eventually P -> eventually Q -> eventually (fun b c => P b c /\ Q b c).
Proof. intros [bp HP] [bq HQ]. exists (Nat.max bp bq). intros b c Hb. split; [apply HP|apply HQ]; lia. Qed.

Lemma ev_imp (P Q : nat -> nat -> Prop) : eventually P -> (forall b c, P b c -> Q b c) -> eventually Q.
Proof. intros [b0 HP] H. exists b0. intros b c Hb. apply H, HP, Hb. Qed.

Section Flat.
  Variable u : universe.
  Variable dn : list str.
  Notation FL := (impl_flatten u dn).
  Notation NB := (node_body (tpl_of u) (fun _ => false) (fun _ _ => MDone []) dn).

  Lemma FL_str b c n e s : node_as_str n = Some s -> FL b c n e = Ok [PS s].
  Proof. apply flatten_str. Qed.

  (* `n` flattens (for every large enough budget, at every recursion count) to grammar pieces whose join is s:
     eventually (fun b c => yields (FL b c n e) s) *)
  Definition flat_to (n : node) (e : env) (s : str) : Prop :=
    exists b0, forall b c, (b0 <= b)%nat -> exists ps, FL b c n e = Ok ps /\ pjoin ps = s /\ Forall okp ps.

  Lemma flat_to_okstr n e s : flat_to n e s -> okstr s = true.
  Proof. intros [b0 H]. exact (yields_okstr _ _ (H b0 0%nat (le_n _))). Qed.

  Lemma flat_to_str s e : okstr s = true -> flat_to (NStr s) e s.
  Proof.
    intros H. apply ev_always. intros b c. rewrite (FL_str b c (NStr s) e s eq_refl). apply yields_str, H.
  Qed.

  Lemma flat_to_str_inv n s0 e s : node_as_str n = Some s0 -> flat_to n e s -> s = s0.
  Proof.
    intros Hn [b0 H]. destruct (H b0 0%nat (le_n _)) as (ps & H1 & <- & _).
    rewrite (FL_str _ _ _ _ _ Hn) in H1. inversion H1. apply pjoin_single.
  Qed.

  Lemma flat_to_step n e s :
    node_as_str n = None ->
    eventually (fun b c => yields (NB (FL b c) (FL b c) n e) s) ->
    flat_to n e s.
  Proof.
    intros Hn [b0 H]. exists (S b0). intros [|b] c Hb; [lia|].
    destruct (H b (S c) ltac:(lia)) as (ps & H1 & H2). exists ps. split; [|exact H2].
    apply flatten_step_ok; assumption.
  Qed.

  Lemma flat_to_result n e s :
    node_as_str n = None -> okstr s = true ->
    eventually (fun b c => NB (FL b c) (FL b c) n e = Ok [PMaybeNL; PS s; PMark]) -> flat_to n e s.
  Proof.
    intros Hn Hs H. apply flat_to_step; [exact Hn|]. apply (ev_imp _ _ H). intros b c H1.
    exists [PMaybeNL; PS s; PMark]. split; [exact H1|]. split; [apply pjoin_single|]. repeat constructor. exact Hs.
  Qed.

  Definition flats (xs : list node) (e : env) (ss : list str) : Prop := Forall2 (fun x s => flat_to x e s) xs ss.

  Lemma flat_list_ok xs e ss :
    flats xs e ss ->
    eventually (fun b c => yields (flat_list (FL b c) e xs) (concat ss)).
  Proof.
    induction 1 as [|x s xs ss Hx _ IH].
    - apply ev_always. intros b c. exists []. repeat split. constructor.
    - apply (ev_imp _ _ (ev_and Hx IH)). intros b c [(ps & H1 & H2 & H3) (qs & G1 & G2 & G3)].
      exists (ps ++ qs). cbn [flat_list]. rewrite H1, G1. split; [reflexivity|]. split.
      + rewrite pjoin_app, H2, G2. reflexivity.
      + apply Forall_app. split; assumption.
  Qed.

  Lemma flat_to_seq xs e ss : flats xs e ss -> flat_to (NSeq xs) e (concat ss).
  Proof. intros H. apply flat_to_step; [reflexivity|]. exact (flat_list_ok _ _ _ H). Qed.

  Lemma flat_to_mkseq xs e ss : merge_strs xs = xs -> flats xs e ss -> flat_to (mkseq xs) e (concat ss).
  Proof.
    intros Hm H. unfold mkseq. rewrite Hm.
    destruct xs as [|x [|y xs]]; try (apply flat_to_seq; exact H).
    inversion H as [|? s ? ss' Hx Hn]; subst. inversion Hn; subst. cbn [concat]. rewrite app_nil_r. exact Hx.
  Qed.

  Lemma flats_map {A} (f : A -> node) (w : A -> bool) (ev : A -> option str) e l ss :
    (forall x s, w x = true -> ev x = Some s -> flat_to (f x) e s) ->
    forallb w l = true -> Forall2 (fun x s => ev x = Some s) l ss -> flats (map f l) e ss.
  Proof.
    intros Hf Hw H. induction H as [|x s l ss Hx _ IH]; [constructor|].
    cbn [forallb] in Hw. apply andb_true_iff in Hw as [Hwx Hwl]. constructor; [apply Hf; assumption|apply IH, Hwl].
  Qed.

  (* {{nm|args}}: the template's parse in the frame of the arguments; an empty template yields nothing *)
  Lemma flat_to_call nm args e p s :
    strip nm = nm -> too_long nm = false -> tpl_of u nm = Some p ->
    (if truthy p then flat_to p (EArgs args e) s else s = []) ->
    flat_to (NTpl (NStr nm) args) e s.
  Proof.
    intros H1 H2 H3 H.
    pose proof (fun b c => flatten_call (tpl_of u) (fun _ => false) (fun _ _ => MDone []) dn b c nm args e p H1 H2 eq_refl H3) as Hc.
    unfold flat_to, impl_flatten in *. destruct (truthy p).
    - destruct H as [b0 H]. exists (S b0). intros [|b] c Hle; [lia|].
      destruct (H b (S c) ltac:(lia)) as (qs & Q1 & Q2 & Q3). rewrite Hc, Q1.
      exists (PMark :: PMaybeNL :: qs ++ [PMark]). split; [reflexivity|]. split; [rewrite pjoin_call; exact Q2|].
      repeat constructor. apply Forall_app. split; [exact Q3|repeat constructor].
    - subst s. exists 1%nat. intros [|b] c Hle; [lia|]. rewrite Hc. exists []. repeat split. constructor.
  Qed.
End Flat.

Definition name_okb (s : str) : bool := okstr s && str_eqb (strip s) s && negb (too_long s).
Definition is_text (p : ast) : bool := match p with Text _ => true | _ => false end.
Definition is_nil {A} (l : list A) : bool := match l with [] => true | _ => false end.

Fixpoint no_adj (l : list ast) : bool :=
  match l with
  | x :: r => match r with
              | y :: _ => negb (is_text x && is_text y) && no_adj r
              | [] => true
              end
  | [] => true
  end.

Fixpoint eff_names (args : list (option str * list ast)) (i : N) : list str :=
  match args with
  | [] => []
  | (None, _) :: r => decimal i :: eff_names r (i + 1)%N
  | (Some k, _) :: r => k :: eff_names r i
  end.

Fixpoint nodupb (l : list str) : bool :=
  match l with [] => true | x :: r => negb (existsb (str_eqb x) r) && nodupb r end.

(* the fragment covered by the proof: the property's grammar.  #switch: every key, value and the scrutinee are
   well-formed bodies; a case `k1|..|kn=v` with BOTH kn and v empty ("|=|") is excluded: its expected parse is the bare
   eqmark, which evaluate.equal_split (a str) treats as a value without key. *)
Fixpoint wf (p : ast) : bool :=
  let wfl := fun l : list ast => no_adj l && forallb wf l in
  let wfo := fun o : option (list ast) => match o with Some l => wfl l | None => true end in
  match p with
  | Text s => okstr s && negb (is_nil s)
  | Param nm d => name_okb nm && wfo d
  | Call nm args =>
      name_okb nm && negb (is_nil nm) &&
      forallb (fun a : option str * list ast =>
                 match a with
                 | (None, v) => wfl v
                 | (Some k, v) => name_okb k && wfl v
                 end) args &&
      nodupb (eff_names args 1%N)
  | If c t e => wfl c && wfl t && wfo e
  | IfEq a b t e => wfl a && wfl b && wfl t && wfo e
  | Switch sc cases d =>
      wfl sc &&
      forallb (fun c : list (list ast) * list ast * list ast =>
                 match c with
                 | (keys, k, v) => forallb wfl keys && wfl k && wfl v && negb (is_nil k && is_nil v)
                 end) cases &&
      match d with Some (_, v) => wfl v | None => true end
  end.
Definition wfl (l : list ast) : bool := no_adj l && forallb wf l.
Definition wfu (u : universe) : Prop := forall name b, ulookup u name = Some b -> wfl b = true.

Definition sw_case := (list (list ast) * list ast * list ast)%type.
Definition wf_case (c : sw_case) : bool :=
  match c with (keys, k, v) => forallb wfl keys && wfl k && wfl v && negb (is_nil k && is_nil v) end.
Definition wfd (d : option (bool * list ast)) : bool := match d with Some (_, v) => wfl v | None => true end.

Lemma wf_switch sc cases d : wf (Switch sc cases d) = wfl sc && forallb wf_case cases && wfd d.
Proof. reflexivity. Qed.

(* the site's aliases of the magic word "default" (aliasmap.get_aliases("default") or ["#default"]): "#default" is one
   of them and every alias contains '#' (as all of MediaWiki's localised names of #default do) *)
Definition dn_ok (dn : list str) : Prop := In default_key dn /\ forall a, In a dn -> In 35%N a.

Lemma hash_not_ok a : In 35%N a -> okstr a = false.
Proof.
  induction a as [|c a IH]; intros H; [destruct H|]. cbn [okstr forallb]. destruct H as [->|H]; [reflexivity|].
  fold (okstr a). rewrite IH by exact H. apply andb_false_r.
Qed.

Lemma name_okb_spec s : name_okb s = true -> okstr s = true /\ strip s = s /\ too_long s = false.
Proof.
  unfold name_okb. intros H. apply andb_true_iff in H as [H H3]. apply andb_true_iff in H as [H1 H2].
  apply str_eqb_spec in H2. apply negb_true_iff in H3. auto.
Qed.

Lemma num_aware_eq_impl a b : num_aware_eq a b = maybe_numeric_compare a b.
Proof.
  unfold num_aware_eq, maybe_numeric_compare.
  destruct (parse_num a) as [x|] eqn:Ea; destruct (parse_num b) as [y|] eqn:Eb; try (rewrite orb_false_r; reflexivity).
  destruct (str_eqb a b) eqn:E; [|reflexivity]. apply str_eqb_spec in E. subst b. rewrite Ea in Eb. inversion Eb; subst y.
  cbn [orb]. apply num_eqb_refl.
Qed.

Lemma rlookup_none E name : existsb (str_eqb name) (map fst E) = false -> rlookup E name = None.
Proof.
  induction E as [|[n v] E IH]; [reflexivity|]. cbn [map fst existsb rlookup]. intros H.
  apply orb_false_iff in H as [H1 H2]. rewrite IH by exact H2.
  destruct (str_eqb n name) eqn:E1; [|reflexivity]. apply str_eqb_spec in E1. subst n. rewrite str_eqb_refl in H1. discriminate.
Qed.

Section Nodes.
  Variable u : universe.
  Variable dn : list str.
  Hypothesis Hu : wfu u.
  Notation FL := (impl_flatten u dn).
  Notation NB := (node_body (tpl_of u) (fun _ => false) (fun _ _ => MDone []) dn).
  Notation flat_to := (flat_to u dn).
  Notation flats := (flats u dn).

  (* the ArgumentList `e` binds exactly what the reference environment E binds *)
  Definition env_rel (E : renv) (e : env) : Prop :=
    forall name, exists b0, forall b c, (b0 <= b)%nat -> get (FL b c) e name = Ok (rlookup E name).
  Definition env_ok (E : renv) : Prop := forall name v, rlookup E name = Some v -> okstr v = true.

  Lemma value_of_flat val e s (ds : bool) :
    flat_to val e s -> too_long (if ds then trim s else s) = false ->
    eventually (fun b c => value_of (FL b c) ds val e = Ok (if ds then trim s else s)).
  Proof.
    intros H Hcap. pose proof (flat_to_okstr _ _ _ _ _ H) as Hok.
    apply (ev_imp _ _ H). intros b c (ps & H1 & H2 & H3). unfold value_of.
    destruct (node_as_str val) as [s0|] eqn:Hn.
    - rewrite (FL_str _ _ _ _ _ _ _ Hn) in H1. inversion H1; subst ps. rewrite pjoin_single in H2. subst s0.
      rewrite strip_trim by exact Hok. reflexivity.
    - rewrite H1, join_nl_ok, H2, strip_trim, Hcap by assumption. reflexivity.
  Qed.

  Lemma flat_to_var E e nm rest s :
    env_rel E e -> env_ok E -> name_okb nm = true ->
    match rlookup E nm with
    | Some v => s = v
    | None => match rest with d :: _ => flat_to d e s | [] => s = open3 ++ nm ++ close3 end
    end ->
    flat_to (NVar (NStr nm :: rest)) e s.
  Proof.
    intros HE HEok Hnm H. destruct (name_okb_spec nm Hnm) as (Hn1 & Hn2 & Hn3).
    assert (Hnb : forall b c, NB (FL b c) (FL b c) (NVar (NStr nm :: rest)) e =
                    match get (FL b c) e nm with
                    | Err x => Err x
                    | Ok (Some v) => Ok [PS v]
                    | Ok None => match rest with d :: _ => FL b c d e | [] => Ok [PS (open3 ++ nm ++ close3)] end
                    end).
    { intros b c. cbn [node_body]. rewrite (FL_str u dn b c (NStr nm) e nm eq_refl), pjoin_single, Hn2, Hn3. reflexivity. }
    apply flat_to_step; [reflexivity|].
    destruct (rlookup E nm) as [v|] eqn:Hl.
    - subst s. apply (ev_imp _ _ (HE nm)). intros b c Hg. rewrite Hnb, Hg, Hl. apply yields_str, (HEok nm v Hl).
    - destruct rest as [|d rest'].
      + subst s. apply (ev_imp _ _ (HE nm)). intros b c Hg. rewrite Hnb, Hg, Hl. apply yields_str.
        rewrite !okstr_app, Hn1. reflexivity.
      + apply (ev_imp _ _ (ev_and (HE nm) H)). intros b c [Hg Hd]. rewrite Hnb, Hg, Hl. exact Hd.
  Qed.

  Definition branch_to (x : option node) (e : env) (s : str) : Prop :=
    match x with Some n => exists st, flat_to n e st /\ s = trim st | None => s = [] end.

  Lemma branch_ok x e s :
    branch_to x e s -> okstr s = true /\ eventually (fun b c => branch (FL b c) e x = Ok [PMaybeNL; PS s; PMark]).
  Proof.
    destruct x as [n|]; cbn [branch_to branch].
    - intros (st & H & ->). pose proof (flat_to_okstr _ _ _ _ _ H) as Hok. split.
      + rewrite <- strip_trim by exact Hok. apply strip_by_ok, Hok.
      + apply (ev_imp _ _ H). intros b c (qs & H1 & H2 & H3).
        rewrite H1, join_nl_ok, H2, strip_trim by assumption. reflexivity.
    - intros ->. split; [reflexivity|apply ev_always; reflexivity].
  Qed.

  Lemma flat_to_if C rest e cv s :
    flat_to C e cv -> branch_to (nth_error rest (if is_nil (trim cv) then 1 else 0)) e s -> flat_to (NIf (C :: rest)) e s.
  Proof.
    intros HC HB. destruct (branch_ok _ _ _ HB) as [Hok HBr]. pose proof (flat_to_okstr _ _ _ _ _ HC) as Hcv.
    apply flat_to_result; [reflexivity|exact Hok|].
    apply (ev_imp _ _ (ev_and HC HBr)). intros b c [(ps & P1 & P2 & _) Br]. cbn [node_body].
    rewrite P1, P2, strip_trim, strip_ebad_id by (try apply strip_by_ok; exact Hcv).
    destruct (trim cv); exact Br.
  Qed.

  Lemma flat_to_ifeq A B rest e sa sb s :
    flat_to A e sa -> flat_to B e sb ->
    branch_to (nth_error (B :: rest) (if num_aware_eq (trim sa) (trim sb) then 1 else 2)) e s ->
    flat_to (NIfEq (A :: B :: rest)) e s.
  Proof.
    intros HA HB HBr. destruct (branch_ok _ _ _ HBr) as [Hok HBr'].
    pose proof (flat_to_okstr _ _ _ _ _ HA) as Hsa. pose proof (flat_to_okstr _ _ _ _ _ HB) as Hsb.
    apply flat_to_result; [reflexivity|exact Hok|].
    apply (ev_imp _ _ (ev_and (ev_and HA HB) HBr')). intros b c [[(ps & P1 & P2 & _) (qs & Q1 & Q2 & _)] Br].
    cbn [node_body]. rewrite P1, Q1, P2, Q2, <- num_aware_eq_impl, !strip_trim by assumption.
    destruct (num_aware_eq (trim sa) (trim sb)); exact Br.
  Qed.

  Lemma blank_str_flat s e sx : is_blank s = true -> flat_to (NStr s) e sx -> forallb is_ws sx = true.
  Proof. intros Hb Hx. rewrite (flat_to_str_inv u dn (NStr s) s e sx eq_refl Hx). apply is_blank_ws, Hb. Qed.

  Lemma drop_front_flats l e ss :
    flats l e ss -> exists ss', flats (drop_front l) e ss' /\ strip (concat ss') = strip (concat ss).
  Proof.
    intros H. assert (Hsame : exists ss', flats l e ss' /\ strip (concat ss') = strip (concat ss)) by (exists ss; auto).
    destruct H as [|x sx r ss' Hx Hr]; [exact Hsame|]. destruct x; try exact Hsame.
    cbn [drop_front]. destruct (is_blank s) eqn:Eb; [|exact Hsame].
    exists ss'. split; [exact Hr|]. symmetry. apply strip_blank_prefix, (blank_str_flat s e), Hx. exact Eb.
  Qed.

  Lemma drop_back_flats l e ss :
    flats l e ss -> exists ss', flats (drop_back l) e ss' /\ strip (concat ss') = strip (concat ss).
  Proof.
    intros H. assert (Hsame : exists ss', flats l e ss' /\ strip (concat ss') = strip (concat ss)) by (exists ss; auto).
    unfold drop_back. destruct (rev l) as [|x r] eqn:Er; [exact Hsame|]. destruct x; try exact Hsame.
    destruct (is_blank s) eqn:Eb; [|exact Hsame].
    assert (Hl : l = rev r ++ [NStr s]) by (rewrite <- (rev_involutive l), Er; reflexivity).
    rewrite Hl in H. apply Forall2_app_inv_l in H as (sa & sb & Ha & Hb & ->).
    inversion Hb as [|? sx ? sb' Hx Hn]; subst. inversion Hn; subst.
    exists sa. split; [exact Ha|]. rewrite concat_app. cbn [concat]. rewrite app_nil_r.
    symmetry. apply strip_blank_suffix, (blank_str_flat s e), Hx. exact Eb.
  Qed.

  Lemma strip_ws_seq_flat l e ss :
    flats l e ss -> exists s', flat_to (strip_ws_node (NSeq l)) e s' /\ strip s' = strip (concat ss).
  Proof.
    intros H. rewrite strip_ws_node_seq.
    destruct (drop_front_flats _ _ _ H) as (ss1 & H1 & E1). destruct (drop_back_flats _ _ _ H1) as (ss2 & H2 & E2).
    exists (concat ss2). split; [apply (flat_to_seq u dn), H2|congruence].
  Qed.

  Lemma cond_flat xs e ss :
    merge_strs xs = xs -> Forall notseq xs -> flats xs e ss ->
    exists s', flat_to (strip_ws_node (mkseq xs)) e s' /\ strip s' = strip (concat ss).
  Proof.
    intros Hm Hns H. unfold mkseq. rewrite Hm.
    destruct xs as [|x [|y r]]; try (apply strip_ws_seq_flat; exact H).
    inversion H as [|? s ? ss' Hx Hn]; subst. inversion Hn; subst. cbn [concat]. rewrite app_nil_r.
    destruct x; try (exists s; split; [exact Hx|reflexivity]).
    - pose proof (flat_to_okstr _ _ _ _ _ Hx) as Hok. rewrite (flat_to_str_inv u dn (NStr s0) s0 e s eq_refl Hx) in *.
      exists (strip s0). split; [apply flat_to_str; apply strip_by_ok; exact Hok|]. apply strip_by_idem.
    - inversion Hns as [|? ? F _]; contradiction.
  Qed.

  Lemma first_r_flats ps e ss : flats ps e ss -> exists ss', flats (first_r ps) e ss' /\ concat ss' = concat ss.
  Proof.
    intros H. unfold first_r.
    assert (Hgen : exists ss', flats (NStr [] :: ps) e ss' /\ concat ss' = concat ss).
    { exists ([] :: ss). split; [|reflexivity]. constructor; [apply flat_to_str; reflexivity|exact H]. }
    destruct ps as [|x q]; [exact Hgen|]. destruct x; try exact Hgen. exists ss. split; [exact H|reflexivity].
  Qed.

  (* ArgumentList.get: the argument nodes `args`, read from position i on, bind what E binds.  A named argument is the
     tuple  k eqmark value..., split at its first eqmark (evaluate.equal_split); a positional one has no top-level eqmark *)
  Inductive binds (e : env) : list node -> N -> renv -> Prop :=
  | binds_nil i : binds e [] i []
  | binds_pos a r i s E :
      equal_split a = (None, a) -> flat_to a e s -> too_long s = false -> binds e r (i + 1)%N E ->
      binds e (a :: r) i ((decimal i, s) :: E)
  | binds_named k val r i s E :
      okstr k = true -> flat_to (NSeq val) e s -> too_long (trim s) = false -> binds e r i E ->
      binds e (NSeq (NStr k :: NEq :: val) :: r) i ((trim k, trim s) :: E).

  Lemma binds_env_ok e args i E : binds e args i E -> env_ok E.
  Proof.
    assert (Hcons : forall k v E', okstr v = true -> env_ok E' -> env_ok ((k, v) :: E')).
    { intros k v E' Hv HE' name x. cbn [rlookup]. destruct (rlookup E' name) eqn:El.
      - intros Hx. inversion Hx; subst. exact (HE' _ _ El).
      - destruct (str_eqb k name); [|discriminate]. intros Hx. inversion Hx; subst. exact Hv. }
    induction 1 as [i|a r i s E _ Hs _ _ IH|k val r i s E _ Hs _ _ IH].
    - intros name x. discriminate.
    - apply Hcons; [exact (flat_to_okstr _ _ _ _ _ Hs)|exact IH].
    - pose proof (flat_to_okstr _ _ _ _ _ Hs) as Hok.
      apply Hcons; [rewrite <- strip_trim by exact Hok; apply strip_by_ok, Hok|exact IH].
  Qed.

  Lemma scan_binds e args i E :
    binds e args i E -> nodupb (map fst E) = true ->
    forall name, eventually (fun b c => scan (FL b c) args e i name = Ok (rlookup E name)).
  Proof.
    induction 1 as [i|a r i s E Hsp Hs Hcap _ IH|k val r i s E Hk Hs Hcap _ IH]; intros Hnd name.
    - apply ev_always. reflexivity.
    - cbn [map fst nodupb] in Hnd. apply andb_true_iff in Hnd as [Hnk Hndr]. apply negb_true_iff in Hnk.
      cbn [rlookup]. destruct (str_eqb (decimal i) name) eqn:Ekn.
      + apply str_eqb_spec in Ekn. subst name. rewrite (rlookup_none E (decimal i) Hnk).
        apply (ev_imp _ _ (value_of_flat _ _ _ false Hs Hcap)). intros b c Hv.
        cbn [scan]. rewrite Hsp, str_eqb_refl, Hv. reflexivity.
      + apply (ev_imp _ _ (IH Hndr name)). intros b c Hsc.
        cbn [scan]. rewrite Hsp, Ekn, Hsc. destruct (rlookup E name); reflexivity.
    - cbn [map fst nodupb] in Hnd. apply andb_true_iff in Hnd as [Hnk Hndr]. apply negb_true_iff in Hnk.
      assert (Hname : flat_to (NSeq [NStr k]) e (concat [k])).
      { apply flat_to_seq. constructor; [apply flat_to_str; exact Hk|constructor]. }
      cbn [concat] in Hname. rewrite app_nil_r in Hname.
      cbn [rlookup]. destruct (str_eqb (trim k) name) eqn:Ekn.
      + apply str_eqb_spec in Ekn. subst name. rewrite (rlookup_none E (trim k) Hnk).
        apply (ev_imp _ _ (ev_and Hname (value_of_flat _ _ _ true Hs Hcap))). intros b c [(ps & P1 & P2 & P3) Hv].
        cbn [scan equal_split split_eq is_eq]. rewrite P1, join_nl_ok, P2, strip_trim, str_eqb_refl, Hv by assumption. reflexivity.
      + apply (ev_imp _ _ (ev_and Hname (IH Hndr name))). intros b c [(ps & P1 & P2 & P3) Hsc].
        cbn [scan equal_split split_eq is_eq]. rewrite P1, join_nl_ok, P2, strip_trim, Ekn, Hsc by assumption.
        destruct (rlookup E name); reflexivity.
  Qed.
End Nodes.

Lemma compile_text s : compile (Text s) = NStr s. Proof. reflexivity. Qed.

Lemma compile_nonstr x : is_text x = false -> node_as_str (compile x) = None.
Proof. destruct x as [s|nm [d|]|nm args|c t e|a b t e|sc cs d]; cbn; intros H; try discriminate; reflexivity. Qed.

Lemma compile_noeq x : is_eq (compile x) = false.
Proof. destruct x as [s|nm [d|]|nm args|c t e|a b t e|sc cs d]; reflexivity. Qed.

Lemma compile_not_seq x : notseq (compile x).
Proof. destruct x as [s|nm [d|]|nm args|c t e|a b t e|sc cs d]; exact I. Qed.

Lemma map_compile_not_seq l : Forall notseq (map compile l).
Proof. induction l; cbn [map]; constructor; [apply compile_not_seq|assumption]. Qed.

Lemma no_adj_tl x r : no_adj (x :: r) = true -> no_adj r = true.
Proof. cbn [no_adj]. destruct r; [reflexivity|]. intros H. apply andb_true_iff in H. apply H. Qed.

Lemma nadj_map (f : ast -> node) l :
  (forall x, is_text x = false -> is_nstr (f x) = false) -> no_adj l = true -> nadjb (map f l) = true.
Proof.
  intros Hf. induction l as [|x r IH]; intros H; [reflexivity|].
  cbn [map nadjb]. rewrite (IH (no_adj_tl x r H)), andb_true_r.
  destruct (is_text x) eqn:Ex; [|rewrite (Hf x Ex); reflexivity].
  destruct r as [|y r']; [cbn [map hd_nstr]; rewrite andb_false_r; reflexivity|].
  cbn [no_adj] in H. apply andb_true_iff in H as [H _]. apply negb_true_iff in H. rewrite Ex in H. cbn [andb] in H.
  cbn [map hd_nstr]. rewrite (Hf y H), andb_false_r. reflexivity.
Qed.

Lemma merge_compile l : no_adj l = true -> merge_strs (map compile l) = map compile l.
Proof.
  intros H. apply merge_nadj, nadj_map; [|exact H].
  intros x Hx. pose proof (compile_nonstr x Hx) as Hn. destruct (compile x); try reflexivity. discriminate.
Qed.

Definition first_of (l : list ast) : list node :=
  match l with
  | Text s :: r => NStr s :: map compile r
  | _ => NStr [] :: map compile l
  end.

Lemma first_r_first_of l : first_r (map compile l) = first_of l.
Proof. destruct l as [|[s|nm [d|]|nm args|c t e|a b t e|sc cs d] r]; reflexivity. Qed.

Lemma ocat_forall2 {A} (f : A -> option str) (l : list A) s :
  ocat (map f l) = Some s -> exists ss, Forall2 (fun x sx => f x = Some sx) l ss /\ concat ss = s.
Proof.
  revert s. induction l as [|x l IH]; intros s H; cbn [map ocat] in H.
  - inversion H. exists []. split; [constructor|reflexivity].
  - destruct (f x) as [sx|] eqn:Ex; [|discriminate]. destruct (ocat (map f l)) as [t|] eqn:El; [|discriminate].
    inversion H; subst. destruct (IH t eq_refl) as (ss & H1 & H2). exists (sx :: ss). split; [constructor; assumption|].
    cbn [concat]. rewrite H2. reflexivity.
Qed.

Lemma eval_S n u E p :
  eval (S n) u E p =
  match p with
  | Text s => Some s
  | Param nm d =>
      match rlookup E nm with
      | Some v => Some v
      | None => match d with Some dl => evals n u E dl | None => Some (open3 ++ nm ++ close3) end
      end
  | Call nm args =>
      match ulookup u nm with
      | None => None
      | Some b => match bind_args (evals n u E) args 1%N with
                  | None => None
                  | Some E' => evals n u E' b
                  end
      end
  | If c t e =>
      match evals n u E c with
      | None => None
      | Some cs => match trim cs with
                   | _ :: _ => otrim (evals n u E t)
                   | [] => match e with Some el => otrim (evals n u E el) | None => Some [] end
                   end
      end
  | IfEq a b t e =>
      match evals n u E a, evals n u E b with
      | Some sa, Some sb =>
          if num_aware_eq (trim sa) (trim sb) then otrim (evals n u E t)
          else match e with Some el => otrim (evals n u E el) | None => Some [] end
      | _, _ => None
      end
  | Switch sc cases d =>
      match evals n u E sc with
      | None => None
      | Some s0 =>
          match first_case (evals n u E) (trim s0) cases with
          | None => None
          | Some (Some v) => otrim (evals n u E v)
          | Some None => match d with Some (_, v) => otrim (evals n u E v) | None => Some [] end
          end
      end
  end.
Proof. destruct p; reflexivity. Qed.

(* an argument of a call, its body parsed to the nodes `items v` *)
Definition carg_of (items : list ast -> list node) (a : option str * list ast) : node :=
  match a with
  | (None, v) => mkseq (items v)
  | (Some k, v) => mkseq (NStr k :: NEq :: items v)
  end.

Lemma compile_call nm args : compile (Call nm args) = NTpl (NStr nm) (map (carg_of (map compile)) args).
Proof. reflexivity. Qed.

Lemma compile_param nm d :
  compile (Param nm d) = NVar (NStr nm :: match d with Some dl => [mkseq (map compile dl)] | None => [] end).
Proof. destruct d; reflexivity. Qed.

Lemma compile_if c t e :
  compile (If c t e) = NIf (strip_ws_node (mkseq (first_r (map compile c))) :: mkseq (map compile t) ::
                            match e with Some el => [mkseq (map compile el)] | None => [] end).
Proof. destruct c as [|[s|nm [d|]|nm args|c1 t1 e1|a b t1 e1|sc cs d] r]; reflexivity. Qed.

Lemma compile_ifeq a b t e :
  compile (IfEq a b t e) = NIfEq (mkseq (first_r (map compile a)) :: mkseq (map compile b) :: mkseq (map compile t) ::
                                  match e with Some el => [mkseq (map compile el)] | None => [] end).
Proof. destruct a as [|[s|nm [d|]|nm args|c1 t1 e1|a1 b1 t1 e1|sc cs d] r]; reflexivity. Qed.

Lemma mkseq_noeq l : Forall (fun n => is_eq n = false) l -> is_eq (mkseq l) = false.
Proof.
  intros H. unfold mkseq. destruct l as [|x [|y r]].
  - reflexivity.
  - inversion H; assumption.
  - apply merge_noeq in H. destruct (merge_strs (x :: y :: r)) as [|a [|b r']]; try reflexivity. inversion H; assumption.
Qed.

Lemma map_compile_noeq l : Forall (fun n => is_eq n = false) (map compile l).
Proof. induction l; cbn [map]; constructor; [apply compile_noeq|assumption]. Qed.

Lemma first_of_noeq l : Forall (fun n => is_eq n = false) (first_of l).
Proof.
  destruct l as [|x r]; [repeat constructor|].
  destruct x; cbn [first_of]; constructor; try reflexivity; try apply map_compile_noeq.
  all: change (Forall (fun n => is_eq n = false) (map compile (_ :: r))); apply map_compile_noeq.
Qed.

Lemma strip_ws_noeq n : is_eq n = false -> is_eq (strip_ws_node n) = false.
Proof. destruct n; cbn; intros H; try reflexivity; try exact H. Qed.

Lemma equal_split_body v : no_adj v = true -> equal_split (compile_body v) = (None, compile_body v).
Proof. intros H. apply equal_split_mkseq; [apply merge_compile, H|apply map_compile_not_seq|apply map_compile_noeq]. Qed.

Lemma name_okb_trim k : name_okb k = true -> trim k = k.
Proof. intros H. destruct (name_okb_spec k H) as (H1 & H2 & _). rewrite <- strip_trim by exact H1. exact H2. Qed.

Lemma bind_args_names ev args : forall i E',
  (forall k v, In (Some k, v) args -> trim k = k) -> bind_args ev args i = Some E' -> map fst E' = eff_names args i.
Proof.
  induction args as [|[[k|] v] r IH]; intros i E' Hk Hb; cbn [bind_args] in Hb.
  - inversion Hb. reflexivity.
  - destruct (ev v) as [s|]; [|discriminate].
    destruct (bind_args ev r i) as [Er|] eqn:Ebr; [|discriminate]. destruct (too_long (trim s)); [discriminate|].
    inversion Hb. cbn [map fst eff_names]. rewrite (Hk k v (or_introl eq_refl)).
    rewrite (IH i Er (fun k' v' H => Hk k' v' (or_intror H)) Ebr). reflexivity.
  - destruct (ev v) as [s|]; [|discriminate].
    destruct (bind_args ev r (i + 1)%N) as [Er|] eqn:Ebr; [|discriminate]. destruct (too_long s); [discriminate|].
    inversion Hb. cbn [map fst eff_names].
    rewrite (IH (i + 1)%N Er (fun k' v' H => Hk k' v' (or_intror H)) Ebr). reflexivity.
Qed.

Lemma wfl_no_adj l : wfl l = true -> no_adj l = true.
Proof. unfold wfl. intros H. apply andb_true_iff in H. apply H. Qed.

Lemma reopt_body l : no_adj l = true -> reopt (compile_body l) = compile_body l.
Proof.
  intros H. unfold compile_body, mkseq. rewrite merge_compile by exact H.
  destruct l as [|x [|y r]].
  - reflexivity.
  - cbn [map]. destruct x as [s|nm [d0|]|nm args|c t e|a b t e|sc cs d0]; reflexivity.
  - cbn [map reopt]. change (compile x :: compile y :: map compile r) with (map compile (x :: y :: r)).
    unfold mkseq. rewrite merge_compile by exact H. reflexivity.
Qed.

Lemma body_as_str l s : no_adj l = true -> node_as_str (compile_body l) = Some s -> l = [Text s].
Proof.
  intros H. unfold compile_body, mkseq. rewrite merge_compile by exact H.
  destruct l as [|x [|y r]]; cbn [map node_as_str]; try discriminate.
  destruct (is_text x) eqn:Ex.
  - destruct x; try discriminate. cbn [compile node_as_str]. intros E. inversion E. reflexivity.
  - rewrite (compile_nonstr x Ex). discriminate.
Qed.

Lemma truthy_false b : wfl b = true -> truthy (compile_body b) = false -> b = [].
Proof.
  intros Hw Ht. unfold wfl in Hw. apply andb_true_iff in Hw as [Hn Hf].
  unfold compile_body, mkseq in Ht. rewrite merge_compile in Ht by exact Hn.
  destruct b as [|x [|y r]]; [reflexivity| |cbn in Ht; discriminate].
  cbn [map] in Ht. cbn [forallb] in Hf. apply andb_true_iff in Hf as [Hx _].
  destruct x as [s|nm [d|]|nm args|c t e|a bb t e|sc cs d]; cbn in Ht; try discriminate.
  destruct s; [cbn in Hx; discriminate|discriminate].
Qed.

Lemma notseq_first_r ps : Forall notseq ps -> Forall notseq (first_r ps).
Proof. intros H. unfold first_r. destruct ps as [|[] q]; try exact H; constructor; try exact I; exact H. Qed.

Lemma merge_first_r ps : merge_strs ps = ps -> merge_strs (first_r ps) = first_r ps.
Proof.
  intros H. unfold first_r. destruct ps as [|x q]; [reflexivity|].
  destruct x; try exact H; cbn [merge_strs] in *; rewrite H; reflexivity.
Qed.

(* the branch a conditional takes, on the reference side: its trimmed value, "" when it is absent *)
Definition ref_branch (ev : list ast -> option str) (o : option (list ast)) : option str :=
  match o with Some l => otrim (ev l) | None => Some [] end.

Section Cases.
  Variable u : universe.
  Variable dn : list str.
  Hypothesis Hu : wfu u.
  Notation flat_to := (flat_to u dn).
  Notation flats := (flats u dn).
  Variables (n : nat) (E : renv) (e : env).
  Hypothesis HE : env_rel u dn E e.
  Hypothesis HEok : env_ok E.

  (* the bodies l with W l, in one kind of position, are parsed to the nodes `items l` *)
  Variable items : list ast -> list node.
  Variable W : list ast -> bool.
  Hypothesis Hitems : forall l s, W l = true -> evals n u E l = Some s -> exists ss, flats (items l) e ss /\ concat ss = s.
  Hypothesis Hmerge : forall l, W l = true -> merge_strs (items l) = items l.
  Definition Wo (o : option (list ast)) : Prop := match o with Some l => W l = true | None => True end.

  Lemma body_to l s : W l = true -> evals n u E l = Some s -> flat_to (mkseq (items l)) e s.
  Proof. intros Hw Hev. destruct (Hitems l s Hw Hev) as (ss & Hs & <-). apply flat_to_mkseq; [apply Hmerge, Hw|exact Hs]. Qed.

  Lemma body_seq_to l s : W l = true -> evals n u E l = Some s -> flat_to (NSeq (items l)) e s.
  Proof. intros Hw Hev. destruct (Hitems l s Hw Hev) as (ss & Hs & <-). apply flat_to_seq, Hs. Qed.

  Lemma branch_body o s :
    Wo o -> ref_branch (evals n u E) o = Some s -> branch_to u dn (option_map (fun l => mkseq (items l)) o) e s.
  Proof.
    destruct o as [l|]; cbn [Wo ref_branch option_map branch_to]; intros Hw Hev; [|inversion Hev; reflexivity].
    destruct (evals n u E l) as [st|] eqn:El; [|discriminate]. inversion Hev. exists st. split; [|reflexivity].
    apply body_to; assumption.
  Qed.

  Lemma param_case nm d s :
    name_okb nm = true -> Wo d -> eval (S n) u E (Param nm d) = Some s ->
    flat_to (NVar (NStr nm :: match d with Some dl => [mkseq (items dl)] | None => [] end)) e s.
  Proof.
    intros Hnm Hd Hev. rewrite eval_S in Hev. apply (flat_to_var u dn E); [exact HE|exact HEok|exact Hnm|].
    destruct (rlookup E nm); [inversion Hev; reflexivity|].
    destruct d as [dl|]; [apply body_to; assumption|inversion Hev; reflexivity].
  Qed.

  Lemma cond_to c cs :
    W c = true -> Forall notseq (items c) -> evals n u E c = Some cs ->
    exists cv, flat_to (strip_ws_node (mkseq (first_r (items c)))) e cv /\ trim cv = trim cs.
  Proof.
    intros Hw Hns Hev. destruct (Hitems c cs Hw Hev) as (ss & Hs & Hc).
    destruct (first_r_flats u dn _ e ss Hs) as (ss' & Hf' & Hc').
    destruct (cond_flat u dn _ e ss' (merge_first_r _ (Hmerge c Hw)) (notseq_first_r _ Hns) Hf') as (cv & Hcv & Hs').
    exists cv. split; [exact Hcv|]. rewrite Hc', Hc in Hs'.
    rewrite <- !strip_trim; [exact Hs'| |apply (flat_to_okstr _ _ _ _ _ Hcv)].
    rewrite <- Hc. destruct (flat_list_ok u dn _ e ss Hs) as [b0 H]. destruct (H b0 0%nat (le_n _)) as (ps & _ & <- & Hp).
    apply okp_join, Hp.
  Qed.

  Lemma if_case c t el s :
    W c = true -> Forall notseq (items c) -> W t = true -> Wo el -> eval (S n) u E (If c t el) = Some s ->
    flat_to (NIf (strip_ws_node (mkseq (first_r (items c))) :: mkseq (items t) ::
                  match el with Some l => [mkseq (items l)] | None => [] end)) e s.
  Proof.
    intros Hwc Hns Hwt Hwe Hev. rewrite eval_S in Hev.
    destruct (evals n u E c) as [cs|] eqn:Ec; [|discriminate].
    destruct (cond_to c cs Hwc Hns Ec) as (cv & HC & Hcv).
    apply (flat_to_if u dn _ _ _ cv); [exact HC|]. rewrite Hcv.
    destruct (trim cs); cbn [is_nil nth_error].
    - destruct el as [l|]; [apply (branch_body (Some l))|apply (branch_body None)]; assumption.
    - apply (branch_body (Some t)); assumption.
  Qed.

  Lemma ifeq_case a b t el s :
    W a = true -> W b = true -> W t = true -> Wo el -> eval (S n) u E (IfEq a b t el) = Some s ->
    flat_to (NIfEq (mkseq (first_r (items a)) :: mkseq (items b) :: mkseq (items t) ::
                    match el with Some l => [mkseq (items l)] | None => [] end)) e s.
  Proof.
    intros Hwa Hwb Hwt Hwe Hev. rewrite eval_S in Hev.
    destruct (evals n u E a) as [sa|] eqn:Ea; [|discriminate].
    destruct (evals n u E b) as [sb|] eqn:Eb; [|discriminate].
    destruct (Hitems a sa Hwa Ea) as (ss & Hs & Hc). destruct (first_r_flats u dn _ e ss Hs) as (ss' & Hf' & Hc').
    pose proof (flat_to_mkseq u dn _ e ss' (merge_first_r _ (Hmerge a Hwa)) Hf') as HA. rewrite Hc', Hc in HA.
    apply (flat_to_ifeq u dn _ _ _ _ sa sb); [exact HA|apply body_to; assumption|].
    destruct (num_aware_eq (trim sa) (trim sb)); cbn [nth_error].
    - apply (branch_body (Some t)); assumption.
    - destruct el as [l|]; [apply (branch_body (Some l))|apply (branch_body None)]; assumption.
  Qed.

  (* an argument: its body is in W; a positional one has no top-level '=', the name of a named one is grammar text *)
  Definition arg_ok (a : option str * list ast) : Prop :=
    W (snd a) = true /\
    match fst a with
    | None => equal_split (mkseq (items (snd a))) = (None, mkseq (items (snd a)))
    | Some k => okstr k = true
    end.

  Lemma binds_args args : forall i E',
    Forall arg_ok args -> bind_args (evals n u E) args i = Some E' -> binds u dn e (map (carg_of items) args) i E'.
  Proof.
    induction args as [|[[k|] v] r IH]; intros i E' Hok Hb; cbn [bind_args] in Hb.
    - inversion Hb. constructor.
    - inversion Hok as [|? ? [Hv Hk] Hr]; subst. cbn [fst snd] in Hv, Hk.
      destruct (evals n u E v) as [s|] eqn:Ev; [|discriminate].
      destruct (bind_args (evals n u E) r i) as [Er|] eqn:Ebr; [|discriminate].
      destruct (too_long (trim s)) eqn:Hcap; [discriminate|]. inversion Hb; subst E'.
      cbn [map carg_of]. rewrite mkseq_seq; [|cbn [length]; lia|apply merge_named_arg, Hmerge, Hv].
      constructor; [exact Hk|apply body_seq_to; assumption|exact Hcap|apply IH; assumption].
    - inversion Hok as [|? ? [Hv Hsp] Hr]; subst. cbn [fst snd] in Hv, Hsp.
      destruct (evals n u E v) as [s|] eqn:Ev; [|discriminate].
      destruct (bind_args (evals n u E) r (i + 1)%N) as [Er|] eqn:Ebr; [|discriminate].
      destruct (too_long s) eqn:Hcap; [discriminate|]. inversion Hb; subst E'.
      cbn [map carg_of]. constructor; [exact Hsp|apply body_to; assumption|exact Hcap|apply IH; assumption].
  Qed.

  Lemma call_case nm args s :
    (forall E' e' b s', env_rel u dn E' e' -> env_ok E' -> wfl b = true -> evals n u E' b = Some s' ->
                        flat_to (compile_body b) e' s') ->
    name_okb nm = true -> is_nil nm = false -> Forall arg_ok args ->
    (forall E', bind_args (evals n u E) args 1%N = Some E' -> nodupb (map fst E') = true) ->
    eval (S n) u E (Call nm args) = Some s ->
    flat_to (NTpl (NStr nm) (map (carg_of items) args)) e s.
  Proof.
    intros Hbody Hnm Hne Hargs Hnd Hev. rewrite eval_S in Hev.
    destruct (name_okb_spec nm Hnm) as (_ & Hn2 & Hn3).
    destruct (ulookup u nm) as [body|] eqn:Hul; [|discriminate].
    destruct (bind_args (evals n u E) args 1%N) as [E'|] eqn:Hb; [|discriminate].
    pose proof (binds_args args 1%N E' Hargs Hb) as HB.
    apply (flat_to_call u dn nm _ e (compile_body body)); [exact Hn2|exact Hn3| |].
    - unfold tpl_of. destruct nm; [discriminate|]. rewrite Hul. reflexivity.
    - destruct (truthy (compile_body body)) eqn:Htr.
      + apply (Hbody E'); [intros name; apply (scan_binds u dn _ _ _ _ HB (Hnd E' eq_refl))|exact (binds_env_ok u dn _ _ _ _ HB)| |exact Hev].
        exact (Hu nm body Hul).
      + rewrite (truthy_false body (Hu nm body Hul) Htr) in Hev. inversion Hev. reflexivity.
  Qed.
End Cases.

Definition case_args (items : list ast -> list node) (c : sw_case) : list node :=
  match c with
  | (keys, lastk, v) => map (fun k => mkseq (items k)) keys ++ [mkseq (items lastk ++ NEq :: items v)]
  end.
Definition dflt_args (items : list ast -> list node) (d : option (bool * list ast)) : list node :=
  match d with
  | Some (true, v) => [mkseq (NStr hash_default :: NEq :: items v)]
  | Some (false, v) => [mkseq (items v)]
  | None => []
  end.

Lemma compile_switch sc cases d :
  compile (Switch sc cases d) =
  NSwitch (strip_ws_node (mkseq (first_r (map compile sc)))) (flat_map (case_args (map compile)) cases ++ dflt_args (map compile) d).
Proof. destruct sc as [|[s|nm [d0|]|nm args|c1 t1 e1|a1 b1 t1 e1|sc1 cs1 d1] r]; reflexivity. Qed.

(* the cases as one list of (key, value) in source order; fall-through keys get the value of their group *)
Definition case_kvs (c : sw_case) : list (list ast * list ast) :=
  match c with (keys, k, v) => map (fun k' => (k', v)) (keys ++ [k]) end.
Definition kvs_ast (cases : list sw_case) : list (list ast * list ast) := flat_map case_kvs cases.
Definition KVn (kvs : list (list ast * list ast)) : list (node * node) :=
  map (fun kv => (compile_body (fst kv), compile_body (snd kv))) kvs.
Definition dflt_kv (d : option (bool * list ast)) : list (node * node) :=
  match d with Some (_, v) => [(NStr default_key, compile_body v)] | None => [] end.

Fixpoint first_kv (ev : list ast -> option str) (s : str) (kvs : list (list ast * list ast)) : option (option (list ast)) :=
  match kvs with
  | [] => Some None
  | (k, v) :: r => match ev k with
                   | None => None
                   | Some ks => if num_aware_eq (trim ks) s then Some (Some v) else first_kv ev s r
                   end
  end.

Lemma first_kv_group ev s v keys R :
  first_kv ev s (map (fun k' => (k', v)) keys ++ R) =
  match any_key ev s keys with
  | None => None
  | Some true => Some (Some v)
  | Some false => first_kv ev s R
  end.
Proof.
  induction keys as [|k keys IH]; [reflexivity|]. cbn [map app first_kv any_key].
  destruct (ev k) as [ks|]; [|reflexivity]. destruct (num_aware_eq (trim ks) s); [reflexivity|exact IH].
Qed.

Lemma first_case_flat ev s cases : first_case ev s cases = first_kv ev s (kvs_ast cases).
Proof.
  induction cases as [|[[keys k] v] r IH]; [reflexivity|].
  unfold kvs_ast. cbn [flat_map case_kvs first_case]. rewrite first_kv_group. fold (kvs_ast r). rewrite <- IH. reflexivity.
Qed.

Lemma first_kv_in ev s kvs v : first_kv ev s kvs = Some (Some v) -> exists k, In (k, v) kvs.
Proof.
  induction kvs as [|[k1 v1] r IH]; cbn [first_kv]; [discriminate|].
  destruct (ev k1) as [ks|]; [|discriminate]. destruct (num_aware_eq (trim ks) s).
  - intros H. inversion H; subst. exists k1. left. reflexivity.
  - intros H. destruct (IH H) as [k Hk]. exists k. right. exact Hk.
Qed.

Lemma kvs_ast_wf cases : forallb wf_case cases = true ->
  forall k v, In (k, v) (kvs_ast cases) -> wfl k = true /\ wfl v = true.
Proof.
  induction cases as [|[[keys k0] v0] r IH]; intros H k v Hin; [destruct Hin|].
  cbn [forallb wf_case] in H. apply andb_true_iff in H as [Hc Hr].
  apply andb_true_iff in Hc as [Hc _]. apply andb_true_iff in Hc as [Hc Hv]. apply andb_true_iff in Hc as [Hks Hk0].
  unfold kvs_ast in Hin. cbn [flat_map case_kvs] in Hin. apply in_app_or in Hin as [Hin|Hin]; [|apply IH; assumption].
  apply in_map_iff in Hin as (k' & Heq & Hin'). inversion Heq; subst. split; [|exact Hv].
  apply in_app_or in Hin' as [Hin'|[<-|[]]]; [|exact Hk0].
  rewrite forallb_forall in Hks. apply Hks. exact Hin'.
Qed.

Lemma case_arg_split lastk v :
  no_adj lastk = true -> no_adj v = true -> is_nil lastk && is_nil v = false ->
  equal_split (mkseq (map compile lastk ++ NEq :: map compile v)) = (Some (NSeq (map compile lastk)), NSeq (map compile v)).
Proof.
  intros Hk Hv Hne.
  assert (Hm : merge_strs (map compile lastk ++ NEq :: map compile v) = map compile lastk ++ NEq :: map compile v)
    by (rewrite merge_app_eq, !merge_compile by assumption; reflexivity).
  assert (Hlen : (2 <= length (map compile lastk ++ NEq :: map compile v))%nat).
  { rewrite app_length. cbn [length]. rewrite !map_length.
    destruct lastk, v; cbn [length is_nil andb] in *; [discriminate|lia|lia|lia]. }
  rewrite (mkseq_seq _ Hlen Hm). unfold equal_split. rewrite split_eq_app by apply map_compile_noeq. reflexivity.
Qed.

Lemma sw_loop_keys keys : forall nks rest st,
  forallb wfl keys = true ->
  sw_loop (map compile_body keys ++ rest) nks st = sw_loop rest (nks ++ map compile_body keys) st.
Proof.
  induction keys as [|k keys IH]; intros nks rest st H.
  - cbn [map app]. rewrite app_nil_r. reflexivity.
  - cbn [forallb] in H. apply andb_true_iff in H as [Hk Hr]. apply wfl_no_adj in Hk.
    cbn [map app sw_loop]. rewrite equal_split_body, reopt_body by exact Hk.
    rewrite IH by exact Hr. rewrite <- app_assoc. reflexivity.
Qed.

Lemma fold_store_keys V ks : forall st,
  fold_left (fun s k => store_key k V s) ks st = store_all (map (fun k => (k, V)) ks) st.
Proof. induction ks as [|k ks IH]; intros st; [reflexivity|]. cbn [map]. unfold store_all. cbn [fold_left fst snd]. apply IH. Qed.

Lemma sw_loop_case c rest st :
  wf_case c = true -> sw_loop (case_args (map compile) c ++ rest) [] st = sw_loop rest [] (store_all (KVn (case_kvs c)) st).
Proof.
  destruct c as [[keys k] v]. cbn [wf_case]. intros H.
  apply andb_true_iff in H as [H Hne]. apply andb_true_iff in H as [H Hv]. apply andb_true_iff in H as [Hks Hk].
  apply negb_true_iff in Hne. apply wfl_no_adj in Hk. apply wfl_no_adj in Hv.
  change (case_args (map compile) (keys, k, v)) with (map compile_body keys ++ [mkseq (map compile k ++ NEq :: map compile v)]).
  rewrite <- app_assoc, sw_loop_keys by exact Hks.
  cbn [app sw_loop]. rewrite case_arg_split by assumption. cbn [reopt].
  rewrite fold_store_keys. f_equal.
  unfold KVn, case_kvs. rewrite !map_map, map_app, store_all_app. reflexivity.
Qed.

Lemma sw_loop_cases cases : forall rest st,
  forallb wf_case cases = true ->
  sw_loop (flat_map (case_args (map compile)) cases ++ rest) [] st = sw_loop rest [] (store_all (KVn (kvs_ast cases)) st).
Proof.
  induction cases as [|c r IH]; intros rest st H; [reflexivity|].
  cbn [forallb] in H. apply andb_true_iff in H as [Hc Hr].
  cbn [flat_map]. rewrite <- app_assoc, sw_loop_case by exact Hc. rewrite IH by exact Hr.
  unfold kvs_ast. cbn [flat_map]. unfold KVn. rewrite map_app, store_all_app. reflexivity.
Qed.

Lemma sw_loop_dflt d st : wfd d = true -> sw_loop (dflt_args (map compile) d) [] st = store_all (dflt_kv d) st.
Proof.
  destruct d as [[[|] v]|]; cbn [wfd dflt_args dflt_kv]; intros H.
  - (* #default = v *)
    apply wfl_no_adj in H.
    rewrite mkseq_seq; [reflexivity|cbn [length]; lia|apply merge_named_arg, merge_compile, H].
  - (* a bare last value *)
    apply wfl_no_adj in H.
    fold (compile_body v). cbn [sw_loop]. rewrite equal_split_body, reopt_body by exact H. reflexivity.
  - reflexivity.
Qed.

Lemma switch_init_compile cases d :
  forallb wf_case cases = true -> wfd d = true ->
  switch_init (flat_map (case_args (map compile)) cases ++ dflt_args (map compile) d) = store_all (KVn (kvs_ast cases) ++ dflt_kv d) ([], []).
Proof.
  intros Hc Hd. unfold switch_init. rewrite sw_loop_cases by exact Hc. rewrite sw_loop_dflt by exact Hd.
  rewrite store_all_app. reflexivity.
Qed.

Lemma default_key_no_grammar_text val : okstr val = true -> num_aware_eq (strip default_key) val = false.
Proof.
  intros H. change (strip default_key) with default_key. unfold num_aware_eq.
  change (parse_num default_key) with (@None num).
  destruct (str_eqb default_key val) eqn:E; [|reflexivity].
  apply str_eqb_spec in E. subst val. rewrite hash_not_ok in H by (left; reflexivity). discriminate.
Qed.

Lemma unres_dflt d : unres_of (dflt_kv d) = [].
Proof. destruct d as [[b v]|]; reflexivity. Qed.

Lemma default_lookup_some dn fast p x :
  (forall a, In a dn -> fast_get (KS a) fast = if str_eqb a default_key then Some (p, x) else None) ->
  In default_key dn -> default_lookup dn fast = Some x.
Proof.
  induction dn as [|a r IH]; intros H Hin; [destruct Hin|]. cbn [default_lookup].
  rewrite (H a (or_introl eq_refl)). destruct (str_eqb a default_key) eqn:E; [reflexivity|].
  apply IH; [intros a' Ha'; apply H; right; exact Ha'|].
  destruct Hin as [->|Hin]; [rewrite str_eqb_refl in E; discriminate|exact Hin].
Qed.

Lemma default_lookup_none dn fast :
  (forall a, In a dn -> fast_get (KS a) fast = None) -> default_lookup dn fast = None.
Proof.
  induction dn as [|a r IH]; intros H; [reflexivity|]. cbn [default_lookup].
  rewrite (H a (or_introl eq_refl)). apply IH. intros a' Ha'. apply H. right. exact Ha'.
Qed.

Lemma NB_switch tpl ism mp dn (fl flb : flat) V args e fast unres ps :
  switch_init args = (fast, unres) -> fl V e = Ok ps ->
  node_body tpl ism mp dn fl flb (NSwitch V args) e =
  let val := strip (pjoin ps) in
  let '(pos, ret0) := pick (match parse_num val with Some q => fast_get (KN q) fast | None => None end)
                           (fast_get (KS val) fast) (S (length unres)) in
  match sw_unres fl e val (parse_num val) (firstn pos unres) with
  | Err x => Err x
  | Ok found =>
      branch fl e (Some (match (match found with Some x => Some x | None => ret0 end) with
                         | Some x => x
                         | None => match default_lookup dn fast with Some x => x | None => NStr [] end
                         end))
  end.
Proof. intros H1 H2. cbn [node_body]. rewrite H1, H2. reflexivity. Qed.

(* no literal key of a well-formed #switch is an alias of "default": keys are grammar text, aliases contain '#' *)
Lemma alias_not_literal cs a : forallb wf_case cs = true -> In 35%N a -> find_ks a (KVn (kvs_ast cs)) 0 = None.
Proof.
  intros Hw Ha. apply find_ks_none. intros k v s1 Hin Hk Heq.
  unfold KVn in Hin. apply in_map_iff in Hin as ([k0 v0] & Hkv & Hin0). cbn [fst snd] in Hkv. inversion Hkv; subst k v.
  destruct (kvs_ast_wf cs Hw k0 v0 Hin0) as [Hwk _].
  pose proof (body_as_str k0 s1 (wfl_no_adj k0 Hwk) Hk) as ->.
  unfold wfl in Hwk. apply andb_true_iff in Hwk as [_ Hwk]. cbn [forallb wf] in Hwk.
  apply andb_true_iff in Hwk as [Hwk _]. apply andb_true_iff in Hwk as [Hwk _].
  pose proof (strip_by_ok is_ws s1 Hwk) as Hst. fold (strip s1) in Hst. rewrite Heq in Hst.
  rewrite (hash_not_ok a Ha) in Hst. discriminate.
Qed.

(* so the default entry of the tables is the one written as #default (or as a bare last value), if any *)
Lemma default_entry dn cs d fast :
  dn_ok dn -> forallb wf_case cs = true ->
  (forall t, fast_get (KS t) fast = find_ks t (KVn (kvs_ast cs) ++ dflt_kv d) 0) ->
  default_lookup dn fast = match d with Some (_, dv) => Some (compile_body dv) | None => None end.
Proof.
  intros [Hdk Hhash] Hw HS.
  assert (Hlit : forall a, In a dn -> find_ks a (KVn (kvs_ast cs)) 0 = None)
    by (intros a Ha; apply alias_not_literal; [exact Hw|apply Hhash, Ha]).
  destruct d as [[bb dv]|].
  - apply default_lookup_some with (p := (0 + length (unres_of (KVn (kvs_ast cs))))%nat); [|exact Hdk].
    intros a Ha. rewrite HS, find_ks_app, (Hlit a Ha). reflexivity.
  - apply default_lookup_none. intros a Ha. rewrite HS. cbn [dflt_kv]. rewrite app_nil_r. apply Hlit, Ha.
Qed.

Lemma merge_wfl l : wfl l = true -> merge_strs (map compile l) = map compile l.
Proof. intros H. apply merge_compile, wfl_no_adj, H. Qed.

Section Induction.
  Variable u : universe.
  Variable dn : list str.
  Hypothesis Hu : wfu u.
  Hypothesis Hdn : dn_ok dn.
  Notation FL := (impl_flatten u dn).
  Notation flat_to := (flat_to u dn).
  Notation flats := (flats u dn).
  Notation NB := (node_body (tpl_of u) (fun _ => false) (fun _ _ => MDone []) dn).

  Definition body_IH (n : nat) : Prop :=
    forall E e l s, env_rel u dn E e -> env_ok E -> wfl l = true -> evals n u E l = Some s ->
    exists ss, flats (map compile l) e ss /\ concat ss = s.

  Lemma flats_of_evals n (IHn : forall E e p s, env_rel u dn E e -> env_ok E -> wf p = true -> eval n u E p = Some s -> flat_to (compile p) e s) :
    body_IH n.
  Proof.
    intros E e l s H1 H2 H3 H4. unfold evals in H4. apply ocat_forall2 in H4 as (ss & H5 & H6).
    exists ss. split; [|exact H6]. unfold wfl in H3. apply andb_true_iff in H3 as [_ H3].
    exact (flats_map u dn compile wf (eval n u E) e l ss (fun x sx => IHn E e x sx H1 H2) H3 H5).
  Qed.

  Lemma body_flat n (IHb : body_IH n) E e l s :
    env_rel u dn E e -> env_ok E -> wfl l = true -> evals n u E l = Some s -> flat_to (compile_body l) e s.
  Proof. intros HE HEok. apply (body_to u dn n E e (map compile) wfl (fun l s => IHb E e l s HE HEok) merge_wfl). Qed.

  (* the computed keys before the earliest literal match are evaluated in order; the first match wins *)
  Lemma sw_unres_ok n (IHb : body_IH n) E e (HE : env_rel u dn E e) (HEok : env_ok E) val :
    forall kvs r,
      (forall k v, In (k, v) kvs -> wfl k = true) ->
      first_kv (evals n u E) val kvs = Some r ->
      eventually (fun b c => exists found,
        sw_unres (FL b c) e val (parse_num val) (firstn (fst (first_literal val (KVn kvs))) (unres_of (KVn kvs))) = Ok found /\
        match found with Some x => Some x | None => snd (first_literal val (KVn kvs)) end = option_map compile_body r).
  Proof.
    induction kvs as [|[k v] rest IHk]; intros r Hw Hf.
    - cbn [first_kv] in Hf. inversion Hf; subst r. apply ev_always. intros b c. exists None. split; reflexivity.
    - cbn [first_kv] in Hf. destruct (evals n u E k) as [ks|] eqn:Ek; [|discriminate].
      assert (Hwk : wfl k = true) by (apply (Hw k v); left; reflexivity).
      assert (Hwr : forall k' v', In (k', v') rest -> wfl k' = true) by (intros k' v' Hin; apply (Hw k' v'); right; exact Hin).
      pose proof (body_flat n IHb E e k ks HE HEok Hwk Ek) as Hmk. pose proof (flat_to_okstr _ _ _ _ _ Hmk) as Hok.
      cbn [KVn map fst snd first_literal unres_of]. fold (KVn rest).
      destruct (node_as_str (compile_body k)) as [s0|] eqn:Hn.
      + (* literal key: in the fast table *)
        rewrite <- (flat_to_str_inv u dn _ _ _ _ Hn Hmk), strip_trim by exact Hok.
        destruct (num_aware_eq (trim ks) val) eqn:Em.
        * inversion Hf; subst r. apply ev_always. intros b c. exists None. split; reflexivity.
        * apply IHk; assumption.
      + (* computed key *)
        destruct (num_aware_eq (trim ks) val) eqn:Em.
        * inversion Hf; subst r. apply (ev_imp _ _ Hmk). intros b c (ps & P1 & P2 & _).
          destruct (first_literal val (KVn rest)) as [p x]. cbn [fst snd firstn].
          rewrite sw_unres_cons, P1, P2, strip_trim, Em by exact Hok. exists (Some (compile_body v)). split; reflexivity.
        * apply (ev_imp _ _ (ev_and Hmk (IHk r Hwr Hf))). intros b c [(ps & P1 & P2 & _) (found & F1 & F2)].
          destruct (first_literal val (KVn rest)) as [p x]. cbn [fst snd firstn] in *.
          rewrite sw_unres_cons, P1, P2, strip_trim, Em by exact Hok. exists found. split; assumption.
  Qed.

  (* #switch: nodes.pyx:75-167 against the first matching key of the reference semantics *)
  Lemma switch_ok n (IHb : body_IH n) E e sc cs d s :
    env_rel u dn E e -> env_ok E -> wfl sc = true -> forallb wf_case cs = true -> wfd d = true ->
    eval (S n) u E (Switch sc cs d) = Some s ->
    flat_to (compile (Switch sc cs d)) e s.
  Proof.
    intros HE HEok Hwsc Hwcs Hwd Hev. rewrite eval_S in Hev.
    destruct (evals n u E sc) as [s0|] eqn:Esc; [|discriminate].
    (* the scrutinee *)
    destruct (cond_to u dn n E e (map compile) wfl (fun l s => IHb E e l s HE HEok) merge_wfl sc s0 Hwsc (map_compile_not_seq sc) Esc)
      as (cv & Hcond & Hcv).
    pose proof (flat_to_okstr _ _ _ _ _ Hcond) as Hcvok.
    set (val := trim s0) in *.
    assert (Hvalok : okstr val = true) by (rewrite <- Hcv, <- strip_trim by exact Hcvok; apply strip_by_ok, Hcvok).
    rewrite first_case_flat in Hev.
    destruct (first_kv (evals n u E) val (kvs_ast cs)) as [r|] eqn:Efk; [|discriminate].
    pose proof (kvs_ast_wf cs Hwcs) as Hkvwf.
    (* the tables *)
    set (KV0 := KVn (kvs_ast cs)). set (KV := KV0 ++ dflt_kv d).
    destruct (switch_tables KV) as (fast & Einit & HS & Hpick).
    assert (Hun : unres_of KV = unres_of KV0) by (unfold KV; rewrite unres_of_app, unres_dflt, app_nil_r; reflexivity).
    assert (Hinit : switch_init (flat_map (case_args (map compile)) cs ++ dflt_args (map compile) d) = (fast, unres_of KV0)).
    { rewrite switch_init_compile by assumption. fold KV0. fold KV. rewrite Einit, Hun. reflexivity. }
    assert (Hlook : first_literal val KV = first_literal val KV0).
    { unfold KV. destruct d as [[bb dv]|]; cbn [dflt_kv]; [|rewrite app_nil_r; reflexivity].
      apply first_literal_app_nomatch with (s0 := default_key); [reflexivity|]. apply default_key_no_grammar_text. exact Hvalok. }
    specialize (Hpick val). rewrite Hlook, Hun in Hpick.
    (* the default entry *)
    assert (Hdef : default_lookup dn fast = match d with Some (_, dv) => Some (compile_body dv) | None => None end)
      by (apply (default_entry dn cs d fast Hdn Hwcs); intros t; rewrite HS; reflexivity).
    (* the computed keys *)
    pose proof (sw_unres_ok n IHb E e HE HEok val (kvs_ast cs) r (fun k v Hin => proj1 (Hkvwf k v Hin)) Efk) as Hunres.
    fold KV0 in Hunres.
    (* the selected value *)
    set (x := match r with
              | Some v => compile_body v
              | None => match d with Some (_, dv) => compile_body dv | None => NStr [] end
              end).
    assert (Hx : branch_to u dn (Some x) e s).
    { assert (Hsel : forall v, wfl v = true -> otrim (evals n u E v) = Some s -> branch_to u dn (Some (compile_body v)) e s).
      { intros v Hwv Ev. destruct (evals n u E v) as [sv|] eqn:Esv; [|discriminate]. inversion Ev.
        exists sv. split; [apply (body_flat n IHb E); assumption|reflexivity]. }
      subst x. destruct r as [v|]; [|destruct d as [[bb dv]|]].
      - destruct (first_kv_in _ _ _ _ Efk) as [k Hin]. apply Hsel; [apply (Hkvwf k v Hin)|exact Hev].
      - apply Hsel; [exact Hwd|exact Hev].
      - inversion Hev. exists []. split; [apply flat_to_str|]; reflexivity. }
    destruct (branch_ok u dn _ _ _ Hx) as [Hsok Hbr].
    rewrite compile_switch. apply flat_to_result; [reflexivity|exact Hsok|].
    apply (ev_imp _ _ (ev_and (ev_and Hcond Hunres) Hbr)). intros b c0 [[(ps & P1 & P2 & _) (found & F1 & F2)] Br].
    rewrite (NB_switch _ _ _ _ _ _ _ _ _ _ _ _ Hinit P1). cbv zeta. rewrite P2, strip_trim, Hcv, Hpick by exact Hcvok.
    destruct (first_literal val KV0) as [pos ret0]. cbn [fst snd] in *.
    rewrite F1, F2, Hdef. subst x. destruct r as [v|]; [|destruct d as [[bb dv]|]]; exact Br.
  Qed.

  Lemma main n : forall E e p s,
    env_rel u dn E e -> env_ok E -> wf p = true -> eval n u E p = Some s -> flat_to (compile p) e s.
  Proof.
    induction n as [|n IHn]; intros E e p s HE HEok Hwf Hev; [discriminate|].
    pose proof (flats_of_evals n IHn) as IHb.
    pose proof (fun l s => IHb E e l s HE HEok) as Hitems.
    destruct p as [t|nm d|nm args|c t el|a b2 t el|sc cs d].
    - (* Text *)
      inversion Hev; subst. cbn [wf] in Hwf. apply andb_true_iff in Hwf as [Hok _]. apply flat_to_str. exact Hok.
    - (* Param *)
      cbn [wf] in Hwf. apply andb_true_iff in Hwf as [Hnm Hd]. rewrite compile_param.
      apply (param_case u dn n E e HE HEok (map compile) wfl Hitems merge_wfl); [exact Hnm| |exact Hev].
      destruct d; [exact Hd|exact I].
    - (* Call *)
      cbn [wf] in Hwf. apply andb_true_iff in Hwf as [Hwf Hnd]. apply andb_true_iff in Hwf as [Hwf Hargs].
      apply andb_true_iff in Hwf as [Hnm Hne]. apply negb_true_iff in Hne. rewrite forallb_forall in Hargs.
      rewrite compile_call.
      apply (call_case u dn Hu n E e (map compile) wfl Hitems merge_wfl); [apply (body_flat n IHb)|exact Hnm|exact Hne| | |exact Hev].
      + apply Forall_forall. intros [[k|] v] Hin; specialize (Hargs _ Hin); cbn beta iota in Hargs.
        * apply andb_true_iff in Hargs as [Hk Hv]. split; [exact Hv|]. apply (name_okb_spec k Hk).
        * split; [exact Hargs|]. apply equal_split_body, wfl_no_adj, Hargs.
      + intros E' Hb. rewrite (bind_args_names _ _ _ _ (fun k v Hin => name_okb_trim k (proj1 (andb_prop _ _ (Hargs (Some k, v) Hin)))) Hb). exact Hnd.
    - (* If *)
      cbn [wf] in Hwf. apply andb_true_iff in Hwf as [Hwf Hwe]. apply andb_true_iff in Hwf as [Hwc Hwt].
      rewrite compile_if.
      apply (if_case u dn n E e (map compile) wfl Hitems merge_wfl); try assumption; [apply map_compile_not_seq|destruct el; [exact Hwe|exact I]].
    - (* IfEq *)
      cbn [wf] in Hwf. apply andb_true_iff in Hwf as [Hwf Hwe]. apply andb_true_iff in Hwf as [Hwf Hwt].
      apply andb_true_iff in Hwf as [Hwa Hwb]. rewrite compile_ifeq.
      apply (ifeq_case u dn n E e (map compile) wfl Hitems merge_wfl); try assumption. destruct el; [exact Hwe|exact I].
    - (* Switch *)
      rewrite wf_switch in Hwf. apply andb_true_iff in Hwf as [Hwf Hwd]. apply andb_true_iff in Hwf as [Hwsc Hwcs].
      apply (switch_ok n IHb E e sc cs d s HE HEok Hwsc Hwcs Hwd Hev).
  Qed.

  Lemma eval_correct_body n E e l s :
    env_rel u dn E e -> env_ok E -> wfl l = true -> evals n u E l = Some s -> flat_to (compile_body l) e s.
  Proof. exact (body_flat n (flats_of_evals n (main n)) E e l s). Qed.
End Induction.

Lemma env_rel_top u dn : env_rel u dn [] ETop.
Proof. intros name. exists 0%nat. intros b c _. reflexivity. Qed.

Lemma env_ok_nil : env_ok [].
Proof. intros name v H. discriminate. Qed.

(* a page whose parse flattens to s expands to s *)
Lemma expand_flat_to dn tpl page s :
  eventually (fun b c => yields (flatten tpl (fun _ => false) (fun _ _ => MDone []) dn b c page ETop) s) ->
  exists L0, forall limit, (L0 <= limit)%nat -> expand tpl (fun _ => false) (fun _ _ => MDone []) dn limit page = Ok s.
Proof.
  intros [b0 H]. exists b0. intros limit Hl. destruct (H (S limit) 0%nat ltac:(lia)) as (ps & H1 & <- & H3).
  exact (expand_quiet (fun s => okstr s = true) eq_refl okstr_app_ok implicit_nl_ok _ _ _ _ _ _ _ H1 H3).
Qed.

(* non-vacuity: t1 = "{{{1}}}-{{{x}}}{{{y}}}", page = "{{t1| a |x= b }}{{#if: |y| n }}{{#ifeq:1.0|1| e }}" *)
Definition ex_u : universe :=
  [([116;49]%N, [Param [49%N] None; Text [45%N]; Param [120%N] None; Param [121%N] None])].
Definition ex_page : list ast :=
  [Call [116;49]%N [(None, [Text [32;97;32]%N]); (Some [120%N], [Text [32;98;32]%N])];
   If [Text [32%N]] [Text [121%N]] (Some [Text [32;110;32]%N]);
   IfEq [Text [49;46;48]%N] [Text [49%N]] [Text [32;101;32]%N] None].
Definition ex_out : str := [32;97;32;45;98;123;123;123;121;125;125;125;110;101]%N.   (* " a -b{{{y}}}ne" *)

Lemma example_program :
  wfl ex_page = true /\ wfl (snd (hd ([], []) ex_u)) = true /\
  evals 10 ex_u [] ex_page = Some ex_out /\
  impl_expand ex_u [default_key] 100 ex_page = Ok ex_out.
Proof. vm_compute. repeat split. Qed.

(* non-vacuity with #switch: t2 = "{{#switch:{{{1}}}|a|b=AB|1=one|{{{k}}}=c|#default=D}}" (fall-through group, numeric
   key, computed key, #default), page = "{{t2|a}}{{t2|1.0}}{{t2|zz}}{{t2|q|k=q}}{{#switch:x|y=n| d }}" (bare last value
   as default): fall-through "AB", numeric 1.0 = 1 "one", #default "D", computed key "c", bare default "d" *)
Definition ex2_u : universe :=
  [([116;50]%N,
    [Switch [Param [49%N] None]
            [([[Text [97%N]]], [Text [98%N]], [Text [65;66]%N]);
             ([], [Text [49%N]], [Text [111;110;101]%N]);
             ([], [Param [107%N] None], [Text [99%N]])]
            (Some (true, [Text [68%N]]))])].
Definition ex2_page : list ast :=
  [Call [116;50]%N [(None, [Text [97%N]])];
   Call [116;50]%N [(None, [Text [49;46;48]%N])];
   Call [116;50]%N [(None, [Text [122;122]%N])];
   Call [116;50]%N [(None, [Text [113%N]]); (Some [107%N], [Text [113%N]])];
   Switch [Text [120%N]] [([], [Text [121%N]], [Text [110%N]])] (Some (false, [Text [32;100;32]%N]))].
Definition ex2_out : str := [65;66;111;110;101;68;99;100]%N.   (* "ABoneDcd" *)

Lemma dn_ok_default : dn_ok [default_key].
Proof. split; [left; reflexivity|]. intros a [<-|[]]. left. reflexivity. Qed.

Lemma example_switch_program :
  wfl ex2_page = true /\ wfl (snd (hd ([], []) ex2_u)) = true /\ dn_ok [default_key] /\
  evals 10 ex2_u [] ex2_page = Some ex2_out /\
  impl_expand ex2_u [default_key] 100 ex2_page = Ok ex2_out.
Proof. split; [|split; [|split; [exact dn_ok_default|]]]; vm_compute; repeat split. Qed.

(* the one #switch shape rejected by `wf`: a case "|=|" with empty last key AND empty value.  Its parse is the bare
   eqmark (a str), which evaluate.equal_split returns as a VALUE without key, so SwitchNode._init files it as a
   fall-through key "=" of the next case instead of the case ""="" .  "{{#switch:=|=|x=Y}}": MediaWiki "" (no key
   equals "="), mwlib "Y" (observed on the real code as well).  The statement of eval_correct is false there. *)
Definition ex3_page : list ast :=
  [Switch [Text [61%N]] [([], [], []); ([], [Text [120%N]], [Text [89%N]])] None].
