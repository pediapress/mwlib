(* C04 — equals signs inside TEXT.  `compile_r` (Model.v) is the parse templ.parser really produces when a text leaf
   contains '=': Parser._parse_args turns every top-level '=' of an argument of a template call / #if / #ifeq / #switch into
   marks.eqmark, i.e. the text "a = b" of a branch arrives as the three children "a ", eqmark, " b".
   This file proves
     (1) compile_r_noeq : on programs whose text leaves contain no '=' compile_r is compile, so C04_eval_correct speaks about
         the real parse of the whole grammar `wf`;
     (2) main_r : the flatten model on compile_r computes the reference semantics for the grammar
           Text (any '=')  |  Param with default (texts with '=')  |  #if  |  #ifeq  (conditions, operands, branches with '=')
           |  Call with positional arguments (no top-level '=': that would be a named one) and named arguments `` k = v ``
              (blanks around the name, further '=' in the value are text), the argument bodies again of this grammar
           |  any '='-free program of the grammar `wf` (#switch, ...) in any of these positions,
         to any nesting depth, templates of the universe '='-free.  *)
From Coq Require Import List NArith ZArith Bool Lia Arith.
From MW Require Import Common.Str C03.Model C03.Proofs C04.Model C04.ProofsSwitch C04.Proofs.
Import ListNotations.

Section AstInd.
  Variable P : ast -> Prop.
  Definition Po (o : option (list ast)) : Prop := match o with Some l => Forall P l | None => True end.
  Definition Pcase (c : list (list ast) * list ast * list ast) : Prop :=
    Forall (Forall P) (fst (fst c)) /\ Forall P (snd (fst c)) /\ Forall P (snd c).
  Hypothesis HText : forall s, P (Text s).
  Hypothesis HParam : forall nm d, Po d -> P (Param nm d).
  Hypothesis HCall : forall nm args, Forall (fun a : option str * list ast => Forall P (snd a)) args -> P (Call nm args).
  Hypothesis HIf : forall c t e, Forall P c -> Forall P t -> Po e -> P (If c t e).
  Hypothesis HIfEq : forall a b t e, Forall P a -> Forall P b -> Forall P t -> Po e -> P (IfEq a b t e).
  Definition Pd (d : option (bool * list ast)) : Prop := match d with Some bv => Forall P (snd bv) | None => True end.
  Hypothesis HSwitch : forall sc cases d, Forall P sc -> Forall Pcase cases -> Pd d -> P (Switch sc cases d).

  Fixpoint ast_ind2 (p : ast) : P p :=
    let fl := fix fl (l : list ast) : Forall P l :=
                match l with [] => Forall_nil _ | x :: r => Forall_cons x (ast_ind2 x) (fl r) end in
    let fo := fun (o : option (list ast)) => match o as o0 return Po o0 with Some l => fl l | None => I end in
    match p with
    | Text s => HText s
    | Param nm d => HParam nm d (fo d)
    | Call nm args =>
        HCall nm args
          ((fix fa (a : list (option str * list ast)) : Forall (fun a : option str * list ast => Forall P (snd a)) a :=
              match a with
              | [] => Forall_nil _
              | x :: r => Forall_cons x (match x as x0 return Forall P (snd x0) with (k, v) => fl v end) (fa r)
              end) args)
    | If c t e => HIf c t e (fl c) (fl t) (fo e)
    | IfEq a b t e => HIfEq a b t e (fl a) (fl b) (fl t) (fo e)
    | Switch sc cases d =>
        HSwitch sc cases d (fl sc)
          ((fix fc (cs : list (list (list ast) * list ast * list ast)) : Forall Pcase cs :=
              match cs with
              | [] => Forall_nil _
              | c :: r =>
                  Forall_cons c
                    (match c as c0 return Pcase c0 with
                     | (keys, k, v) =>
                         conj ((fix fk (ks : list (list ast)) : Forall (Forall P) ks :=
                                  match ks with [] => Forall_nil _ | k0 :: r0 => Forall_cons k0 (fl k0) (fk r0) end) keys)
                              (conj (fl k) (fl v))
                     end) (fc r)
              end) cases)
          (match d as d0 return Pd d0 with
           | Some bv => match bv as b0 return Forall P (snd b0) with (b, v) => fl v end
           | None => I
           end)
    end.
End AstInd.

Definition arg_item (x : ast) : list node := match x with Text s => text_pieces s | _ => [compile_r x] end.
Definition ab (l : list ast) : list node := flat_map arg_item l.

Lemma ab_cons x l : ab (x :: l) = arg_item x ++ ab l.
Proof. reflexivity. Qed.

Lemma compile_r_if c t e :
  compile_r (If c t e) = NIf (strip_ws_node (mkseq (first_r (ab c))) :: mkseq (ab t) ::
                              match e with Some el => [mkseq (ab el)] | None => [] end).
Proof. reflexivity. Qed.

Lemma compile_r_ifeq a b t e :
  compile_r (IfEq a b t e) = NIfEq (mkseq (first_r (ab a)) :: mkseq (ab b) :: mkseq (ab t) ::
                                    match e with Some el => [mkseq (ab el)] | None => [] end).
Proof. reflexivity. Qed.

Lemma compile_r_call nm args : compile_r (Call nm args) = NTpl (NStr nm) (map (carg_of ab) args).
Proof. reflexivity. Qed.

Lemma compile_r_param nm d :
  compile_r (Param nm d) = NVar (NStr nm :: match d with Some dl => [mkseq (map compile_r dl)] | None => [] end).
Proof. destruct d; reflexivity. Qed.

Lemma compile_r_switch sc cases d :
  compile_r (Switch sc cases d) =
  NSwitch (strip_ws_node (mkseq (first_r (ab sc)))) (flat_map (case_args ab) cases ++ dflt_args ab d).
Proof. reflexivity. Qed.

Definition cons_char (c : N) (l : list node) : list node :=
  match l with NStr t :: q => NStr (c :: t) :: q | q => NStr [c] :: q end.

Lemma text_pieces_cons c r :
  text_pieces (c :: r) = if N.eqb c 61 then NEq :: text_pieces r else cons_char c (text_pieces r).
Proof.
  cbn [text_pieces]. unfold cons_char. destruct (N.eqb c 61); [reflexivity|].
  destruct (text_pieces r) as [|[] q]; reflexivity.
Qed.

Definition noeq_str (s : str) : bool := negb (existsb (N.eqb 61) s).

Lemma text_pieces_noeq s : noeq_str s = true -> s <> [] -> text_pieces s = [NStr s].
Proof.
  induction s as [|c r IH]; intros H Hne; [congruence|].
  unfold noeq_str in H. cbn [existsb] in H. apply negb_true_iff in H. apply orb_false_iff in H as [Hc Hr].
  rewrite text_pieces_cons. rewrite N.eqb_sym in Hc. rewrite Hc.
  destruct r as [|c' r']; [reflexivity|].
  rewrite IH; [reflexivity| |discriminate]. unfold noeq_str. rewrite Hr. reflexivity.
Qed.

Lemma nadj_app a b : nadjb a = true -> nadjb b = true -> hd_nstr b = false -> nadjb (a ++ b) = true.
Proof.
  intros Ha Hb Hh. induction a as [|x r IH]; [exact Hb|].
  cbn [nadjb app] in *. apply andb_true_iff in Ha as [H1 H2]. rewrite (IH H2), andb_true_r.
  destruct r as [|y r']; cbn [app].
  - rewrite Hh, andb_false_r. reflexivity.
  - exact H1.
Qed.

Lemma nadj_cons_char c l : nadjb l = true -> nadjb (cons_char c l) = true.
Proof.
  intros H. destruct l as [|x q]; [reflexivity|]. destruct x; cbn [cons_char nadjb is_nstr hd_nstr andb negb] in *; try exact H.
Qed.

Lemma nadj_text_pieces s : nadjb (text_pieces s) = true.
Proof.
  induction s as [|c r IH]; [reflexivity|]. rewrite text_pieces_cons. destruct (N.eqb c 61).
  - cbn [nadjb is_nstr andb negb]. exact IH.
  - apply nadj_cons_char. exact IH.
Qed.

Lemma compile_r_not_str x : is_text x = false -> is_nstr (compile_r x) = false.
Proof. destruct x as [s|nm [d|]|nm args|c t e|a b t e|sc cs d]; intros H; try discriminate; reflexivity. Qed.

Lemma hd_ab l : match l with Text _ :: _ => False | _ => True end -> hd_nstr (ab l) = false.
Proof.
  destruct l as [|x r]; [reflexivity|]. intros H. rewrite ab_cons.
  destruct x as [s|nm [d|]|nm args|c t e|a b t e|sc cs d]; try contradiction; reflexivity.
Qed.

Lemma nadj_ab l : no_adj l = true -> nadjb (ab l) = true.
Proof.
  induction l as [|x r IH]; intros H; [reflexivity|].
  pose proof (no_adj_tl x r H) as Hr. rewrite ab_cons. destruct (is_text x) eqn:Ex.
  - destruct x; try discriminate. cbn [arg_item]. apply nadj_app; [apply nadj_text_pieces|apply IH; exact Hr|].
    apply hd_ab. destruct r as [|y r']; [exact I|]. cbn [no_adj is_text andb] in H.
    destruct y; try exact I. discriminate.
  - assert (Hi : arg_item x = [compile_r x]) by (destruct x; try discriminate; reflexivity).
    rewrite Hi. cbn [app nadjb]. rewrite (IH Hr), (compile_r_not_str x Ex). reflexivity.
Qed.

Lemma notseq_text_pieces s : Forall notseq (text_pieces s).
Proof.
  induction s as [|c r IH]; [constructor|]. rewrite text_pieces_cons. destruct (N.eqb c 61).
  - constructor; [exact I|exact IH].
  - unfold cons_char. destruct (text_pieces r) as [|x q]; [repeat constructor|].
    inversion IH; subst. destruct x; constructor; try exact I; try assumption; try (constructor; assumption).
Qed.

Lemma compile_r_not_seq x : notseq (compile_r x).
Proof. destruct x as [s|nm [d|]|nm args|c t e|a b t e|sc cs d]; exact I. Qed.

Lemma notseq_ab l : Forall notseq (ab l).
Proof.
  induction l as [|x r IH]; [constructor|]. rewrite ab_cons. apply Forall_app. split; [|exact IH].
  destruct x; cbn [arg_item]; try (constructor; [apply compile_r_not_seq|constructor]). apply notseq_text_pieces.
Qed.

Fixpoint noeqb (p : ast) : bool :=
  let nl := fun l : list ast => forallb noeqb l in
  let no := fun o : option (list ast) => match o with Some l => nl l | None => true end in
  match p with
  | Text s => noeq_str s && negb (is_nil s)
  | Param _ d => no d
  | Call _ args => forallb (fun a : option str * list ast => nl (snd a)) args
  | If c t e => nl c && nl t && no e
  | IfEq a b t e => nl a && nl b && nl t && no e
  | Switch sc cases d =>
      nl sc &&
      forallb (fun c : list (list ast) * list ast * list ast =>
                 forallb nl (fst (fst c)) && nl (snd (fst c)) && nl (snd c)) cases &&
      match d with Some (_, v) => nl v | None => true end
  end.
Definition noeql (l : list ast) : bool := forallb noeqb l.

Definition parse_alike (p : ast) : Prop := noeqb p = true -> compile_r p = compile p.

Lemma map_parse_alike l : Forall parse_alike l -> noeql l = true -> map compile_r l = map compile l.
Proof.
  induction 1 as [|x r Hx Hr IH]; intros H; [reflexivity|].
  cbn [noeql forallb] in H. apply andb_true_iff in H as [H1 H2]. cbn [map]. rewrite (Hx H1), (IH H2). reflexivity.
Qed.

Lemma ab_parse_alike l : Forall parse_alike l -> noeql l = true -> ab l = map compile l.
Proof.
  induction 1 as [|x r Hx Hr IH]; intros H; [reflexivity|].
  cbn [noeql forallb] in H. apply andb_true_iff in H as [H1 H2]. rewrite ab_cons. cbn [map]. rewrite (IH H2).
  destruct x as [s|nm d|nm args|c t e|a b t e|sc cs d]; cbn [arg_item app]; try (rewrite (Hx H1); reflexivity).
  cbn [noeqb] in H1. apply andb_true_iff in H1 as [Ha Hb].
  rewrite text_pieces_noeq; [reflexivity|exact Ha|]. destruct s; [discriminate|discriminate].
Qed.

Lemma compile_r_noeq p : noeqb p = true -> compile_r p = compile p.
Proof.
  change (parse_alike p).
  induction p as [s|nm d Hd|nm args Hargs|c t e Hc Ht He|a b t e Ha Hb Ht He|sc cases d Hsc Hcs Hd] using ast_ind2;
    unfold parse_alike; intros H.
  - reflexivity.
  - destruct d as [l|]; [|reflexivity]. cbn [noeqb] in H. cbn [compile_r compile]. cbn [Po] in Hd.
    rewrite (map_parse_alike l Hd H). reflexivity.
  - cbn [noeqb] in H. rewrite compile_r_call, compile_call. f_equal.
    induction Hargs as [|[k v] r Hx Hr IH]; [reflexivity|].
    cbn [forallb snd] in H. apply andb_true_iff in H as [H1 H2]. cbn [map]. rewrite (IH H2). f_equal.
    cbn [snd] in Hx. unfold carg_of. rewrite (ab_parse_alike v Hx H1). reflexivity.
  - cbn [noeqb] in H. apply andb_true_iff in H as [H He']. apply andb_true_iff in H as [H1 H2].
    rewrite compile_r_if, compile_if. rewrite (ab_parse_alike c Hc H1), (ab_parse_alike t Ht H2).
    destruct e as [el|]; [|reflexivity]. cbn [Po] in He. rewrite (ab_parse_alike el He He'). reflexivity.
  - cbn [noeqb] in H. apply andb_true_iff in H as [H He']. apply andb_true_iff in H as [H H3]. apply andb_true_iff in H as [H1 H2].
    rewrite compile_r_ifeq, compile_ifeq. rewrite (ab_parse_alike a Ha H1), (ab_parse_alike b Hb H2), (ab_parse_alike t Ht H3).
    destruct e as [el|]; [|reflexivity]. cbn [Po] in He. rewrite (ab_parse_alike el He He'). reflexivity.
  - cbn [noeqb] in H. apply andb_true_iff in H as [H Hd']. apply andb_true_iff in H as [H1 H2].
    rewrite compile_r_switch, compile_switch, (ab_parse_alike sc Hsc H1). f_equal. f_equal.
    + induction Hcs as [|[[keys k] v] r Hx Hr IH]; [reflexivity|].
      cbn [forallb fst snd] in H2. apply andb_true_iff in H2 as [Hx2 Hr2]. apply andb_true_iff in Hx2 as [Hx2 Hv2].
      apply andb_true_iff in Hx2 as [Hks2 Hk2].
      cbn [flat_map]. rewrite (IH Hr2). f_equal. destruct Hx as (Hks & Hk & Hv). cbn [fst snd] in *.
      unfold case_args. rewrite (ab_parse_alike k Hk Hk2), (ab_parse_alike v Hv Hv2). f_equal.
      clear - Hks Hks2. induction Hks as [|k0 r0 Hk0 Hr0 IH0]; [reflexivity|].
      cbn [forallb] in Hks2. apply andb_true_iff in Hks2 as [G1 G2]. cbn [map].
      rewrite (ab_parse_alike k0 Hk0 G1), (IH0 G2). reflexivity.
    + destruct d as [[[|] v]|]; cbn [Pd snd] in Hd; cbn [dflt_args].
      * rewrite (ab_parse_alike v Hd Hd'). reflexivity.
      * rewrite (ab_parse_alike v Hd Hd'). reflexivity.
      * reflexivity.
Qed.

Lemma compile_body_r_noeq l : noeql l = true -> compile_body_r l = compile_body l.
Proof.
  intros H. unfold compile_body_r, compile_body. rewrite map_parse_alike; [reflexivity| |exact H].
  apply Forall_forall. intros x _. exact (compile_r_noeq x).
Qed.

Definition noequ (u : universe) : Prop := forall name b, ulookup u name = Some b -> noeql b = true.

Definition noeq_top (l : list ast) : bool :=
  forallb (fun x : ast => match x with Text s => noeq_str s | _ => true end) l.

(* the names the arguments of a call bind: positions, and the TRIMMED names of the named ones *)
Fixpoint eff_names_r (args : list (option str * list ast)) (i : N) : list str :=
  match args with
  | [] => []
  | (None, _) :: r => decimal i :: eff_names_r r (i + 1)%N
  | (Some k, _) :: r => trim k :: eff_names_r r i
  end.

(* the grammar of (2) *)
Fixpoint wfq (p : ast) : bool :=
  let wl := fun l : list ast => no_adj l && forallb wfq l in
  let wo := fun o : option (list ast) => match o with Some l => wl l | None => true end in
  match p with
  | Text s => okstr s && negb (is_nil s)
  | Param nm d => name_okb nm && wo d
  | If c t e => wl c && wl t && wo e
  | IfEq a b t e => wl a && wl b && wl t && wo e
  | Call nm args =>
      (wf p && noeqb p) ||
      (name_okb nm && negb (is_nil nm) &&
       forallb (fun a : option str * list ast =>
                  match a with
                  | (None, v) => wl v && noeq_top v         (* a top-level '=' would make it a named argument *)
                  | (Some k, v) => okstr k && name_okb (trim k) && wl v
                      (* {{t| k = a = b }}: blanks around the name allowed; after the first '=' further ones are text of the value *)
                  end) args &&
       nodupb (eff_names_r args 1%N))
  | Switch _ _ _ => wf p && noeqb p
  end.
Definition wql (l : list ast) : bool := no_adj l && forallb wfq l.

Lemma compile_r_not_eqmark x : is_eq (compile_r x) = false.
Proof. destruct x as [s|nm [d|]|nm args|c t e|a b t e|sc cs d]; reflexivity. Qed.

Lemma ab_noeq_top v : noeq_top v = true -> Forall (fun n => is_eq n = false) (ab v).
Proof.
  induction v as [|x r IH]; intros H; [constructor|].
  cbn [noeq_top forallb] in H. apply andb_true_iff in H as [Hx Hr]. rewrite ab_cons. apply Forall_app. split; [|apply IH; exact Hr].
  destruct x as [s|nm d|nm args|c t e|a b t e|sc cs d]; cbn [arg_item];
    try (constructor; [apply compile_r_not_eqmark|constructor]).
  destruct s as [|c0 s']; [constructor|]. rewrite text_pieces_noeq; [repeat constructor|exact Hx|discriminate].
Qed.

Lemma equal_split_ab v : no_adj v = true -> noeq_top v = true -> equal_split (mkseq (ab v)) = (None, mkseq (ab v)).
Proof.
  intros Hn Hq. apply equal_split_mkseq; [apply merge_nadj, nadj_ab, Hn|apply notseq_ab|apply ab_noeq_top, Hq].
Qed.

Lemma wql_no_adj l : wql l = true -> no_adj l = true.
Proof. unfold wql. intros H. apply andb_true_iff in H. apply H. Qed.

Lemma merge_ab l : wql l = true -> merge_strs (ab l) = ab l.
Proof. intros H. apply merge_nadj, nadj_ab, wql_no_adj, H. Qed.

Lemma merge_map_compile_r l : wql l = true -> merge_strs (map compile_r l) = map compile_r l.
Proof. intros H. apply merge_nadj, (nadj_map compile_r l compile_r_not_str), wql_no_adj, H. Qed.

(* the names a call binds are the positions and the trimmed names *)
Lemma bind_args_names_r ev args : forall i E', bind_args ev args i = Some E' -> map fst E' = eff_names_r args i.
Proof.
  induction args as [|[[k|] v] r IH]; intros i E' Hb; cbn [bind_args] in Hb.
  - inversion Hb. reflexivity.
  - destruct (ev v) as [s|]; [|discriminate].
    destruct (bind_args ev r i) as [Er|] eqn:Ebr; [|discriminate]. destruct (too_long (trim s)); [discriminate|].
    inversion Hb. cbn [map fst eff_names_r]. rewrite (IH i Er Ebr). reflexivity.
  - destruct (ev v) as [s|]; [|discriminate].
    destruct (bind_args ev r (i + 1)%N) as [Er|] eqn:Ebr; [|discriminate]. destruct (too_long s); [discriminate|].
    inversion Hb. cbn [map fst eff_names_r]. rewrite (IH (i + 1)%N Er Ebr). reflexivity.
Qed.

Section MainR.
  Variable u : universe.
  Variable dn : list str.
  Hypothesis Hu : wfu u.
  Hypothesis Hdn : dn_ok dn.
  Notation FL := (impl_flatten u dn).
  Notation flat_to := (flat_to u dn).
  Notation flats := (flats u dn).

  Lemma flat_to_eq e : flat_to NEq e [61%N].
  Proof.
    apply ev_always. intros b c. rewrite (FL_str u dn b c NEq e [61%N] eq_refl). apply yields_str. reflexivity.
  Qed.

  Lemma cons_char_flats c l e ss :
    okc c = true -> flats l e ss -> exists ss', flats (cons_char c l) e ss' /\ concat ss' = c :: concat ss.
  Proof.
    intros Hc H. unfold cons_char.
    assert (Hgen : exists ss', flats (NStr [c] :: l) e ss' /\ concat ss' = c :: concat ss).
    { exists ([c] :: ss). split; [|reflexivity]. constructor; [|exact H]. apply flat_to_str. cbn. rewrite Hc. reflexivity. }
    destruct l as [|x q]; [exact Hgen|]. destruct x; try exact Hgen.
    inversion H as [|? sx ? ss' Hx Hr]; subst. pose proof (flat_to_okstr _ _ _ _ _ Hx) as Hok.
    rewrite (flat_to_str_inv u dn (NStr s) s e sx eq_refl Hx) in Hok.
    exists ((c :: s) :: ss'). split; [|rewrite (flat_to_str_inv u dn (NStr s) s e sx eq_refl Hx); reflexivity]. constructor; [|exact Hr].
    apply flat_to_str. cbn [okstr forallb]. fold (okstr s). rewrite Hc, Hok. reflexivity.
  Qed.

  Lemma text_pieces_flats s e : okstr s = true -> exists ss, flats (text_pieces s) e ss /\ concat ss = s.
  Proof.
    induction s as [|c r IH]; intros H.
    - exists []. split; [constructor|reflexivity].
    - cbn [okstr forallb] in H. apply andb_true_iff in H as [Hc Hr]. destruct (IH Hr) as (ss & Hs & Hcat).
      rewrite text_pieces_cons. destruct (N.eqb c 61) eqn:Ec.
      + apply N.eqb_eq in Ec. subst c. exists ([61%N] :: ss). split; [constructor; [apply flat_to_eq|exact Hs]|].
        cbn [concat app]. rewrite Hcat. reflexivity.
      + destruct (cons_char_flats c _ e ss Hc Hs) as (ss' & H1 & H2). exists ss'. split; [exact H1|]. rewrite H2, Hcat. reflexivity.
  Qed.

  Definition body_IH_r (n : nat) : Prop :=
    forall E e l s, env_rel u dn E e -> env_ok E -> wql l = true -> evals n u E l = Some s ->
    (exists ss, flats (ab l) e ss /\ concat ss = s) /\ (exists ss, flats (map compile_r l) e ss /\ concat ss = s).

  Lemma flats_of_evals_r n
    (IHn : forall E e p s, env_rel u dn E e -> env_ok E -> wfq p = true -> eval n u E p = Some s -> flat_to (compile_r p) e s) :
    body_IH_r n.
  Proof.
    intros E e l s H1 H2 H3 H4. unfold evals in H4. apply ocat_forall2 in H4 as (ss & H5 & H6). subst s.
    unfold wql in H3. apply andb_true_iff in H3 as [_ H3].
    split.
    - revert H3. induction H5 as [|x sx l ss Hx Hl IH]; intros H3; [exists []; split; [constructor|reflexivity]|].
      cbn [forallb] in H3. apply andb_true_iff in H3 as [Hwx Hwl]. destruct (IH Hwl) as (ss' & Hs' & Hc').
      rewrite ab_cons. pose proof (IHn E e x sx H1 H2 Hwx Hx) as Hfx.
      destruct (is_text x) eqn:Ex.
      + destruct x as [t| | | | |]; try discriminate. cbn [arg_item].
        cbn [wfq] in Hwx. apply andb_true_iff in Hwx as [Hok _].
        rewrite (flat_to_str_inv u dn (NStr t) t e sx eq_refl Hfx).
        destruct (text_pieces_flats t e Hok) as (st & Hst & Hct).
        exists (st ++ ss'). split; [apply Forall2_app; assumption|]. rewrite concat_app, Hct, Hc'. reflexivity.
      + assert (Hi : arg_item x = [compile_r x]) by (destruct x; try discriminate; reflexivity).
        rewrite Hi. exists (sx :: ss'). split; [constructor; assumption|]. cbn [concat]. rewrite Hc'. reflexivity.
    - exists ss. split; [|reflexivity].
      exact (flats_map u dn compile_r wfq (eval n u E) e l ss (fun x sx => IHn E e x sx H1 H2) H3 H5).
  Qed.

  (* a body at the top level of a page or of a parameter default: its '=' stay inside the strings *)
  Lemma body_flat_r n (IHb : body_IH_r n) E e l s :
    env_rel u dn E e -> env_ok E -> wql l = true -> evals n u E l = Some s -> flat_to (compile_body_r l) e s.
  Proof.
    intros HE HEok. apply (body_to u dn n E e (map compile_r) wql (fun l s Hw Hev => proj2 (IHb E e l s HE HEok Hw Hev)) merge_map_compile_r).
  Qed.

  Lemma main_r n : forall E e p s,
    env_rel u dn E e -> env_ok E -> wfq p = true -> eval n u E p = Some s -> flat_to (compile_r p) e s.
  Proof.
    induction n as [|n IHn]; intros E e p s HE HEok Hwf Hev; [discriminate|].
    pose proof (flats_of_evals_r n IHn) as IHb.
    pose proof (fun l s Hw Hv => proj1 (IHb E e l s HE HEok Hw Hv)) as Hitems.
    destruct p as [t|nm d|nm args|c t el|a b2 t el|sc cs d].
    - (* Text *)
      inversion Hev; subst. cbn [wfq] in Hwf. apply andb_true_iff in Hwf as [Hok _]. apply (flat_to_str u dn). exact Hok.
    - (* Param: the default is not an argument of _parse_args, its '=' stay inside the strings *)
      cbn [wfq] in Hwf. apply andb_true_iff in Hwf as [Hnm Hd]. rewrite compile_r_param.
      apply (param_case u dn n E e HE HEok (map compile_r) wql
               (fun l s Hw Hv => proj2 (IHb E e l s HE HEok Hw Hv)) merge_map_compile_r); [exact Hnm| |exact Hev].
      destruct d; [exact Hd|exact I].
    - (* Call *)
      cbn [wfq] in Hwf. apply orb_true_iff in Hwf as [Hwf|Hwf].
      { (* without '=': the parse is `compile`, covered by `main` *)
        apply andb_true_iff in Hwf as [Hw Hne]. rewrite (compile_r_noeq _ Hne).
        apply (main u dn Hu Hdn (S n) E e _ s HE HEok Hw Hev). }
      (* arguments with '=' in their texts; the called template is '='-free and parsed by compile *)
      apply andb_true_iff in Hwf as [Hwf Hnd]. apply andb_true_iff in Hwf as [Hwf Hargs].
      apply andb_true_iff in Hwf as [Hnm Hne]. apply negb_true_iff in Hne. rewrite forallb_forall in Hargs.
      rewrite compile_r_call.
      apply (call_case u dn Hu n E e ab wql Hitems merge_ab);
        [apply (eval_correct_body u dn Hu Hdn n)|exact Hnm|exact Hne| | |exact Hev].
      + apply Forall_forall. intros [[k|] v] Hin; specialize (Hargs _ Hin); cbn beta iota in Hargs.
        * apply andb_true_iff in Hargs as [Hk Hv]. apply andb_true_iff in Hk as [Hk _]. split; [exact Hv|exact Hk].
        * apply andb_true_iff in Hargs as [Hv Hq]. split; [exact Hv|]. apply equal_split_ab; [apply wql_no_adj, Hv|exact Hq].
      + intros E' Hb. rewrite (bind_args_names_r _ _ _ _ Hb). exact Hnd.
    - (* If *)
      cbn [wfq] in Hwf. apply andb_true_iff in Hwf as [Hwf Hwe]. apply andb_true_iff in Hwf as [Hwc Hwt].
      rewrite compile_r_if.
      apply (if_case u dn n E e ab wql Hitems merge_ab); try assumption; [apply notseq_ab|destruct el; [exact Hwe|exact I]].
    - (* IfEq *)
      cbn [wfq] in Hwf. apply andb_true_iff in Hwf as [Hwf Hwe]. apply andb_true_iff in Hwf as [Hwf Hwt].
      apply andb_true_iff in Hwf as [Hwa Hwb]. rewrite compile_r_ifeq.
      apply (ifeq_case u dn n E e ab wql Hitems merge_ab); try assumption. destruct el; [exact Hwe|exact I].
    - (* Switch without '=': the parse is `compile`, covered by `main` *)
      cbn [wfq] in Hwf. apply andb_true_iff in Hwf as [Hw Hne]. rewrite (compile_r_noeq _ Hne).
      apply (main u dn Hu Hdn (S n) E e _ s HE HEok Hw Hev).
  Qed.

  Lemma eval_correct_body_r n E e l s :
    env_rel u dn E e -> env_ok E -> wql l = true -> evals n u E l = Some s -> flat_to (compile_body_r l) e s.
  Proof. exact (body_flat_r n (flats_of_evals_r n (main_r n)) E e l s). Qed.
End MainR.

(* the page is parsed for real (compile_r); the templates of the universe contain no '=' (for them tpl_of_r = tpl_of) *)
Definition impl_expand_rp (u : universe) (dn : list str) (limit : nat) (page : body) : res str :=
  expand (tpl_of u) (fun _ => false) (fun _ _ => MDone []) dn limit (compile_body_r page).

(* non-vacuity: "x{{#if: 1 | a = b | no }}{{#ifeq: p=q | p =q | same | l != r }}{{{zz| d = e }}}" *)
Definition A (s : list N) : str := s.
Definition exq_page : list ast :=
  [ Text [120]%N;
    If [Text [32;49;32]%N] [Text [32;97;32;61;32;98;32]%N] (Some [Text [32;110;111;32]%N]);
    IfEq [Text [32;112;61;113;32]%N] [Text [32;112;32;61;113;32]%N] [Text [32;115;97;109;101;32]%N]
         (Some [Text [32;108;32;33;61;32;114;32]%N]);
    Param [122;122]%N (Some [Text [32;100;32;61;32;101;32]%N]) ].
Definition exq_out : str := [120; 97;32;61;32;98; 108;32;33;61;32;114; 32;100;32;61;32;101;32]%N.   (* "xa = bl != r d = e " *)

Lemma example_eq_program :
  wql exq_page = true /\ noeql exq_page = false /\
  evals 10 [] [] exq_page = Some exq_out /\
  impl_expand_rp [] [default_key] 100 exq_page = Ok exq_out /\
  compile_body_r exq_page <> compile_body exq_page.
Proof. vm_compute. repeat split; try reflexivity. discriminate. Qed.

(* non-vacuity of the Call case: t1 = "[{{{1}}}/{{{k}}}]" and the page "{{t1|{{#if:1| a = b }}| k = c = d }}": the positional
   argument is one #if whose branch contains '=', the named argument has blanks around its name and a '=' inside its value;
   both sides compute "[a = b/c = d]" *)
Definition exq2_u : universe :=
  [([116;49]%N, [Text [91]%N; Param [49]%N None; Text [47]%N; Param [107]%N None; Text [93]%N])].
Definition exq2_page : list ast :=
  [Call [116;49]%N [(None, [If [Text [49]%N] [Text [32;97;32;61;32;98;32]%N] None]);
                    (Some [32;107;32]%N, [Text [32;99;32;61;32;100;32]%N])]].
Definition exq2_out : str := [91; 97;32;61;32;98; 47; 99;32;61;32;100; 93]%N.

Lemma example_eq_call_program :
  wql exq2_page = true /\ noeql exq2_page = false /\ wfl (snd (hd ([], []) exq2_u)) = true /\
  evals 10 exq2_u [] exq2_page = Some exq2_out /\
  impl_expand_rp exq2_u [default_key] 100 exq2_page = Ok exq2_out /\
  impl_expand_r exq2_u [default_key] 100 exq2_page = Ok exq2_out.
Proof. vm_compute. repeat split; reflexivity. Qed.
