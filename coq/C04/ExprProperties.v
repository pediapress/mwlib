(* C04 / M2 (#expr) — property theorems only.  Each is followed by
   Print Assumptions; the check re-compiles this file on every run.  The statements about the table
   that expr.py registers today are in ExprGenProperties.v. *)
From Coq Require Import List ZArith Bool.
From MW Require Import Common.Str C04.ExprModel C04.ExprProofs.
Import ListNotations.

(* The shunting-yard parser of expr.py (model: ExprModel.parse_expr = tokens -> value, with the unary
   detection through last_operator, the e-swap, the no-pop rule for prefix operators and `prec <= top`),
   run on the serialisation of ANY expression tree t (unbounded depth; leaves = numbers and the constants
   e, pi; all 15 prefix and 17 binary operators) computes the value of the tree — for every value type V
   and every meaning of literals and operators, for every operator table with
       numargs(prefix) = 1, numargs(binary) = 2, precedence["("] < precedence[binary] <= precedence[prefix],
   and for the three serialisers: minimal parentheses (left association: right child parenthesised at
   equal precedence), parentheses around every non-leaf, and doubled parentheses. *)
Theorem C04_shunting_yard_correct :
  forall (V : Type) (num : lit -> V) (cst : const -> V) (fun1 : opname -> V -> V) (fun2 : opname -> V -> V -> V)
         (tbl : table),
    table_ok tbl = true ->
    forall t : expr,
      parse_expr V num cst fun1 fun2 tbl (ser_min tbl t) = PVal (eval V num cst fun1 fun2 t) /\
      parse_expr V num cst fun1 fun2 tbl (ser_full t) = PVal (eval V num cst fun1 fun2 t) /\
      parse_expr V num cst fun1 fun2 tbl (ser_double tbl t) = PVal (eval V num cst fun1 fun2 t).
Proof. exact shunting_yard_correct. Qed.
Print Assumptions C04_shunting_yard_correct.

(* ... and for any amount of redundant parentheses: rho c extra pairs around each sub-tree c *)
Theorem C04_shunting_yard_correct_any_redundancy :
  forall (V : Type) (num : lit -> V) (cst : const -> V) (fun1 : opname -> V -> V) (fun2 : opname -> V -> V -> V)
         (tbl : table),
    table_ok tbl = true ->
    forall (rho : expr -> nat) (t : expr),
      parse_expr V num cst fun1 fun2 tbl (ser_top tbl rho t) = PVal (eval V num cst fun1 fun2 t).
Proof. exact parse_ser_top. Qed.
Print Assumptions C04_shunting_yard_correct_any_redundancy.

(* with the free term algebra as values: the parser returns exactly the tree that was serialised *)
Theorem C04_parse_returns_tree :
  forall tbl, table_ok tbl = true -> forall rho t, parse_tree tbl (ser_top tbl rho t) = PVal t.
Proof. exact parse_returns_tree. Qed.
Print Assumptions C04_parse_returns_tree.

Theorem C04_documented_table_ok : table_ok documented_table = true.
Proof. vm_compute. reflexivity. Qed.
Print Assumptions C04_documented_table_ok.

(* sanity: with "^" registered at 10 (expr.py before fixes/C04-expr-pow-precedence.diff) the hypothesis
   table_ok fails and `floor x ^ y`, `not x ^ y`, ... are parsed as floor (x ^ y), not (x ^ y) *)
Example C04_current_table_deviates :
  table_ok table_2024 = false /\
  forall u x y, In u [UNot; UAbs; UCeil; UFloor; UTrunc] ->
    ser_min documented_table (Bin BPow (Un u (Num x)) (Num y)) = [TOp (OU u); TNum x; TOp (OB BPow); TNum y] /\
    parse_tree table_2024 [TOp (OU u); TNum x; TOp (OB BPow); TNum y] = PVal (Un u (Bin BPow (Num x) (Num y))) /\
    parse_tree documented_table [TOp (OU u); TNum x; TOp (OB BPow); TNum y] = PVal (Bin BPow (Un u (Num x)) (Num y)).
Proof. exact pow_above_prefix_misparses. Qed.
Print Assumptions C04_current_table_deviates.

(* non-vacuity: ((1 - (2 - 3)) * -4 ^ 2 < abs (5 + 6)) or not 0, depth 4 *)
Example C04_expr_example :
  ser_min documented_table ex_tree
  = [TLParen; TNum [49%N]; TOp (OB BSub); TLParen; TNum [50%N]; TOp (OB BSub); TNum [51%N]; TRParen; TRParen;
     TOp (OB BMul); TOp (OB BSub); TNum [52%N]; TOp (OB BPow); TNum [50%N];
     TOp (OB BLt); TOp (OU UAbs); TLParen; TNum [53%N]; TOp (OB BAdd); TNum [54%N]; TRParen;
     TOp (OB BOr); TOp (OU UNot); TNum [48%N]]
  /\ parse_tree documented_table (ser_min documented_table ex_tree) = PVal ex_tree
  /\ parse_tree documented_table (ser_full ex_tree) = PVal ex_tree
  /\ parse_tree documented_table (ser_double documented_table ex_tree) = PVal ex_tree
  /\ length (ser_full ex_tree) = 38%nat.
Proof. exact example_parse. Qed.
Print Assumptions C04_expr_example.
