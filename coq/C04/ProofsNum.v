(* C04 — numbers by value: the exponent part of a number ([eE][+-]?digits, C03/Model.v parse_exp / scale) is folded into the
   decimal fraction (mantissa, fraction digits) such that the VALUE is mantissa * 10^exponent / 10^fraction-digits; num_eqb (the
   comparison used by the reference num_aware_eq and by the model of maybe_numeric_compare / SwitchNode) is equality of values.
   Everything in Z (cross-multiplied), no rationals needed. *)
From Coq Require Import List NArith ZArith Bool Lia Arith.
From MW Require Import Common.Str C03.Model C03.Proofs C04.Model.
Import ListNotations.
Open Scope Z_scope.

(* (m1, f1) and (m2, f2) denote m1 / 10^f1 and m2 / 10^f2: equal iff the cross products are *)
Lemma num_eqb_iff m1 f1 m2 f2 :
  num_eqb (m1, f1) (m2, f2) = true <-> m1 * 10 ^ Z.of_nat f2 = m2 * 10 ^ Z.of_nat f1.
Proof. unfold num_eqb. apply Z.eqb_eq. Qed.

(* scale m f e  =  (m / 10^f) * 10^e   for e >= 0 *)
Lemma scale_value_nonneg m f e : 0 <= e -> num_eqb (scale m f e) (m * 10 ^ e, f) = true.
Proof.
  intros He. unfold scale. destruct (Z.of_nat f <=? e) eqn:E.
  - apply Z.leb_le in E. apply num_eqb_iff. cbn [Z.of_nat]. rewrite Z.pow_0_r, Z.mul_1_r.
    replace (10 ^ e) with (10 ^ (e - Z.of_nat f) * 10 ^ Z.of_nat f).
    + ring.
    + rewrite <- Z.pow_add_r by lia. f_equal. lia.
  - apply Z.leb_gt in E. apply num_eqb_iff. rewrite Z2Nat.id by lia.
    replace (10 ^ Z.of_nat f) with (10 ^ e * 10 ^ (Z.of_nat f - e)).
    + ring.
    + rewrite <- Z.pow_add_r by lia. f_equal. lia.
Qed.

(* multiplying mantissa and denominator by the same power of ten does not change the value *)
Lemma num_eqb_shift m f k : num_eqb (m, f) (m * 10 ^ Z.of_nat k, (f + k)%nat) = true.
Proof.
  apply num_eqb_iff. rewrite Nat2Z.inj_add, Z.pow_add_r by lia. ring.
Qed.

(* longest digit prefix: for a string of digits followed by a non-digit (or nothing) *)
Definition all_digits (s : str) : bool := forallb is_digit s.
Definition starts_nondigit (s : str) : bool := match s with [] => true | c :: _ => negb (is_digit c) end.

Fixpoint dval (s : str) (acc : Z) : Z :=
  match s with c :: r => dval r (acc * 10 + Z.of_N (c - 48)) | [] => acc end.

Lemma digits_val_app ds rest acc :
  all_digits ds = true -> starts_nondigit rest = true -> digits_val (ds ++ rest) acc = Some (dval ds acc, rest).
Proof.
  revert acc. induction ds as [|c r IH]; intros acc Hd Hn.
  - cbn [app dval]. destruct rest as [|x t]; [reflexivity|]. cbn [digits_val]. cbn [starts_nondigit] in Hn.
    destruct (is_digit x); [discriminate|reflexivity].
  - cbn [all_digits forallb] in Hd. apply andb_true_iff in Hd. destruct Hd as [Hc Hr].
    cbn [app digits_val dval]. rewrite Hc. apply IH; assumption.
Qed.

Lemma count_digits_app ds rest :
  all_digits ds = true -> starts_nondigit rest = true -> count_digits (ds ++ rest) = length ds.
Proof.
  induction ds as [|c r IH]; intros Hd Hn.
  - cbn [app length]. destruct rest as [|x t]; [reflexivity|]. cbn [count_digits]. cbn [starts_nondigit] in Hn.
    destruct (is_digit x); [discriminate|reflexivity].
  - cbn [all_digits forallb] in Hd. apply andb_true_iff in Hd. destruct Hd as [Hc Hr].
    cbn [app count_digits length]. rewrite Hc. f_equal. apply IH; assumption.
Qed.

Lemma digits_val_all ds acc : all_digits ds = true -> digits_val ds acc = Some (dval ds acc, []).
Proof. intros Hd. rewrite <- (app_nil_r ds) at 1. apply digits_val_app; [exact Hd|reflexivity]. Qed.

Lemma count_digits_all ds : all_digits ds = true -> count_digits ds = length ds.
Proof. intros Hd. rewrite <- (app_nil_r ds) at 1. apply count_digits_app; [exact Hd|reflexivity]. Qed.

Definition digit_at_hd (s : str) : bool := match s with c :: _ => is_digit c | [] => false end.

Lemma digit_hd_app ds t : all_digits ds = true -> ds <> [] -> digit_at_hd (ds ++ t) = true.
Proof. destruct ds as [|c r]; [contradiction|]. cbn [all_digits forallb]. intros H _. apply andb_true_iff in H. apply H. Qed.

Lemma digit_last_app t es : all_digits es = true -> es <> [] -> digit_at_hd (rev (t ++ es)) = true.
Proof.
  intros He Hne. destruct (exists_last Hne) as [es' [d ->]]. rewrite app_assoc, rev_app_distr.
  unfold all_digits in He. rewrite forallb_app in He. apply andb_true_iff in He as [_ H]. cbn [forallb] in H.
  rewrite andb_true_r in H. exact H.
Qed.

(* a digit is neither '-' nor '+' *)
Lemma digit_no_sign {A} c (a b d : A) : is_digit c = true -> match c with 45%N => a | 43%N => b | _ => d end = d.
Proof.
  intros H. destruct c as [|p]; [reflexivity|].
  do 6 (destruct p as [p|p|]; try reflexivity); discriminate H.
Qed.

Lemma is_digit_not_ws c : is_digit c = true -> is_ws c = false.
Proof.
  unfold is_digit. intros H. apply andb_true_iff in H as [H1 H2]. apply N.leb_le in H1. apply N.leb_le in H2.
  apply graphic_not_ws. lia.
Qed.

Lemma lstrip_digit s : digit_at_hd s = true -> lstrip_by is_ws s = s.
Proof. destruct s as [|c r]; [reflexivity|]. intros H. cbn [lstrip_by]. rewrite (is_digit_not_ws c H). reflexivity. Qed.

Lemma parse_num_unsigned s : digit_at_hd s = true -> digit_at_hd (rev s) = true -> parse_num s = parse_unsigned s.
Proof.
  intros H1 H2. unfold parse_num, strip, strip_by. rewrite (lstrip_digit s H1), (lstrip_digit (rev s) H2), rev_involutive.
  destruct s as [|c t]; [discriminate|]. cbv iota. apply digit_no_sign. exact H1.
Qed.

Lemma dval_app a b acc : dval (a ++ b) acc = dval b (dval a acc).
Proof. revert acc. induction a as [|c r IH]; intros acc; [reflexivity|]. cbn [app dval]. apply IH. Qed.

Lemma dval_zeros n acc : dval (repeat 48%N n) acc = acc * 10 ^ Z.of_nat n.
Proof.
  revert acc. induction n as [|n IH]; intros acc.
  - cbn [repeat dval Z.of_nat]. rewrite Z.pow_0_r. ring.
  - cbn [repeat dval]. rewrite IH. rewrite Nat2Z.inj_succ, Z.pow_succ_r by lia.
    change (Z.of_N (48 - 48)) with 0. ring.
Qed.

Lemma all_digits_zeros n : all_digits (repeat 48%N n) = true.
Proof. induction n as [|n IH]; [reflexivity|]. cbn [repeat all_digits forallb]. exact IH. Qed.

Lemma all_digits_app a b : all_digits a = true -> all_digits b = true -> all_digits (a ++ b) = true.
Proof. intros Ha Hb. unfold all_digits. rewrite forallb_app. unfold all_digits in Ha, Hb. rewrite Ha, Hb. reflexivity. Qed.

Lemma dval_nonneg s acc : 0 <= acc -> 0 <= dval s acc.
Proof.
  revert acc. induction s as [|c r IH]; intros acc H; [exact H|]. cbn [dval]. apply IH.
  pose proof (N2Z.is_nonneg (c - 48)). lia.
Qed.

(* the whole unsigned grammar
   digits | digits . digits* | . digits+   each optionally followed by  [eE] [+-]? digits+ :  parse_unsigned returns the
   mantissa (all digits read as one integer), the number of fraction digits and the exponent folded in by `scale`. *)

Definition sign_str (sg : option bool) : str :=
  match sg with None => [] | Some true => [45%N] | Some false => [43%N] end.
Definition exp_str (c : N) (sg : option bool) (es : str) : str := c :: sign_str sg ++ es.
Definition exp_val (sg : option bool) (es : str) : Z :=
  match sg with Some true => - dval es 0 | _ => dval es 0 end.

Lemma parse_exp_str c sg es : (c = 101 \/ c = 69)%N -> all_digits es = true -> es <> [] ->
  parse_exp (exp_str c sg es) = Some (exp_val sg es).
Proof.
  intros Hc Hd Hne. unfold parse_exp, exp_str.
  replace (N.eqb c 101 || N.eqb c 69) with true by (destruct Hc as [-> | ->]; reflexivity).
  assert (Hsplit : match sign_str sg ++ es with
                   | 45%N :: t => (true, t) | 43%N :: t => (false, t) | _ => (false, sign_str sg ++ es)
                   end = (match sg with Some true => true | _ => false end, es)).
  { destruct sg as [[|]|]; [reflexivity|reflexivity|]. cbn [sign_str app].
    destruct es as [|x t]; [contradiction|]. cbv iota. apply digit_no_sign. exact (digit_hd_app (x :: t) [] Hd Hne). }
  rewrite Hsplit, (count_digits_all es Hd), (digits_val_all es 0 Hd).
  destruct es as [|x t]; [contradiction|]. destruct sg as [[|]|]; reflexivity.
Qed.

(* a digit string is the integer it spells *)
Lemma parse_unsigned_digits ds : all_digits ds = true -> ds <> [] -> parse_unsigned ds = Some (dval ds 0, O).
Proof.
  intros Hd Hne. unfold parse_unsigned. rewrite (count_digits_all ds Hd), (digits_val_all ds 0 Hd).
  destruct ds as [|x t]; [contradiction|]. reflexivity.
Qed.

Lemma exp_str_nondigit c sg es : (c = 101 \/ c = 69)%N -> starts_nondigit (exp_str c sg es) = true.
Proof. intros [-> | ->]; reflexivity. Qed.

Lemma exp_str_not_dot c sg es : (c = 101 \/ c = 69)%N -> exists t, exp_str c sg es = c :: t /\ c <> 46%N.
Proof. intros Hc. exists (sign_str sg ++ es). split; [reflexivity|]. destruct Hc as [-> | ->]; discriminate. Qed.

(* digits [eE][+-]?digits *)
Lemma parse_unsigned_exp ip c sg es :
  all_digits ip = true -> ip <> [] -> (c = 101 \/ c = 69)%N -> all_digits es = true -> es <> [] ->
  parse_unsigned (ip ++ exp_str c sg es) = Some (scale (dval ip 0) O (exp_val sg es)).
Proof.
  intros Hd Hne Hc He Hene. unfold parse_unsigned.
  rewrite (count_digits_app ip _ Hd (exp_str_nondigit c sg es Hc)), (digits_val_app ip _ 0 Hd (exp_str_nondigit c sg es Hc)).
  rewrite (parse_exp_str c sg es Hc He Hene).
  destruct ip as [|x t]; [contradiction|]. cbn [length Nat.eqb].
  unfold exp_str. destruct Hc as [-> | ->]; reflexivity.
Qed.

(* digits . digits, not both empty *)
Lemma parse_unsigned_fraction ip fr :
  all_digits ip = true -> all_digits fr = true -> ip ++ fr <> [] ->
  parse_unsigned (ip ++ 46%N :: fr) = Some (dval fr (dval ip 0), length fr).
Proof.
  intros Hi Hf Hne. unfold parse_unsigned.
  rewrite (count_digits_app ip (46%N :: fr) Hi eq_refl), (digits_val_app ip (46%N :: fr) 0 Hi eq_refl).
  rewrite (count_digits_all fr Hf), (digits_val_all fr (dval ip 0) Hf).
  destruct ip; [destruct fr; [contradiction Hne|]|]; reflexivity.
Qed.

(* digits . digits [eE][+-]?digits *)
Lemma parse_unsigned_fraction_exp ip fr c sg es :
  all_digits ip = true -> all_digits fr = true -> ip ++ fr <> [] ->
  (c = 101 \/ c = 69)%N -> all_digits es = true -> es <> [] ->
  parse_unsigned (ip ++ 46%N :: fr ++ exp_str c sg es) = Some (scale (dval fr (dval ip 0)) (length fr) (exp_val sg es)).
Proof.
  intros Hi Hf Hne Hc He Hene. unfold parse_unsigned.
  rewrite (count_digits_app ip (46%N :: fr ++ exp_str c sg es) Hi eq_refl),
          (digits_val_app ip (46%N :: fr ++ exp_str c sg es) 0 Hi eq_refl).
  rewrite (count_digits_app fr _ Hf (exp_str_nondigit c sg es Hc)), (digits_val_app fr _ (dval ip 0) Hf (exp_str_nondigit c sg es Hc)).
  rewrite (parse_exp_str c sg es Hc He Hene).
  destruct ip; [destruct fr; [contradiction Hne|]|]; reflexivity.
Qed.

Lemma exponent_number_by_value ds c es :
  all_digits ds = true -> ds <> [] -> (c = 101 \/ c = 69)%N -> all_digits es = true -> es <> [] ->
  num_aware_eq (ds ++ c :: es) (ds ++ repeat 48%N (Z.to_nat (dval es 0))) = true /\
  maybe_numeric_compare (ds ++ c :: es) (ds ++ repeat 48%N (Z.to_nat (dval es 0))) = true.
Proof.
  intros Hd Hne Hc He Hene. set (E := dval es 0). set (zs := repeat 48%N (Z.to_nat E)).
  assert (HE : 0 <= E) by (apply dval_nonneg; lia).
  assert (Hl : parse_num (ds ++ c :: es) = Some (scale (dval ds 0) O E)).
  { rewrite parse_num_unsigned; [exact (parse_unsigned_exp ds c None es Hd Hne Hc He Hene)|apply digit_hd_app; assumption|].
    change (c :: es) with ([c] ++ es). rewrite app_assoc. apply digit_last_app; assumption. }
  assert (Hrd : all_digits (ds ++ zs) = true) by (apply all_digits_app; [exact Hd|apply all_digits_zeros]).
  assert (Hrne : ds ++ zs <> []) by (destruct ds; [contradiction|discriminate]).
  assert (Hr : parse_num (ds ++ zs) = Some (dval ds 0 * 10 ^ E, O)).
  { rewrite parse_num_unsigned; [|apply digit_hd_app; assumption|apply (digit_last_app []); assumption].
    rewrite (parse_unsigned_digits _ Hrd Hrne). unfold zs. rewrite dval_app, dval_zeros, Z2Nat.id by lia. reflexivity. }
  pose proof (scale_value_nonneg (dval ds 0) O E HE) as Heq.
  split.
  - unfold num_aware_eq. rewrite Hl, Hr. exact Heq.
  - unfold maybe_numeric_compare. rewrite Hl, Hr, Heq. apply orb_true_r.
Qed.

(* concrete spellings (code points): the forms of the numeric grammar at work, incl. negative and signed exponents *)
Definition s_1e3 : str := [49; 101; 51]%N.            (* 1e3 *)
Definition s_1000 : str := [49; 48; 48; 48]%N.        (* 1000 *)
Definition s_5em1 : str := [53; 101; 45; 49]%N.       (* 5e-1 *)
Definition s_p5 : str := [46; 53]%N.                  (* .5 *)
Definition s_25E1 : str := [50; 46; 53; 69; 43; 49]%N. (* 2.5E+1 *)
Definition s_025 : str := [32; 48; 50; 53; 46; 32]%N.  (* " 025. " *)
Definition s_1e : str := [49; 101]%N.                 (* 1e  - not a number *)
Definition s_e3 : str := [101; 51]%N.                 (* e3  - not a number *)

Lemma exponent_examples :
  num_aware_eq s_1e3 s_1000 = true /\ num_aware_eq s_5em1 s_p5 = true /\ num_aware_eq s_25E1 s_025 = true /\
  num_aware_eq s_1e3 s_5em1 = false /\ parse_num s_1e = None /\ parse_num s_e3 = None /\
  num_aware_eq s_1e s_1e = true /\ num_aware_eq s_1e s_e3 = false /\
  maybe_numeric_compare s_5em1 s_p5 = true /\ maybe_numeric_compare s_1e3 s_5em1 = false.
Proof. vm_compute. repeat split; reflexivity. Qed.
