(* C04 — property theorems for the template language (M1).  The #expr theorems are in ExprProperties.v and
   ExprGenProperties.v.  Each theorem is followed by Print Assumptions. *)
From Coq Require Import List NArith Bool.
From Coq Require Import ZArith Lia.
From MW Require Import Common.Str C03.Model C03.Proofs C04.Model C04.Proofs C04.ProofsEq C04.ProofsNum C04.ProofsWs.
Import ListNotations.

(* C04_eval_correct (DESIGN.md): for every universe (cyclic or not) on which the reference semantics is defined
   (`evals n u [] page = Some s` for some fuel n) and every program of the grammar
   Text | Param | Call | #if | #ifeq | #switch, of any nesting depth: for every recursion limit above a bound L0 the
   model of Expander.expandTemplates on the expected parse `compile_body page` returns exactly the reference value:
   positional arguments untrimmed, named ones trimmed, conditional results trimmed, unbound parameters literal,
   defaults, numeric-aware #ifeq, lazily evaluated arguments bound by position/name, and #switch: the first case (in
   source order, keys of a fall-through group k1|k2|k3=v included) whose key equals the scrutinee (numeric-aware,
   1.0 = 1), literal keys (SwitchNode.fast, string and numeric entries, first duplicate wins) and computed keys
   (SwitchNode.unresolved, evaluated in order only up to the earliest literal match) alike, else #default in both
   forms (|#default=v and a bare last |v), else "".
   DOMAIN of the reference semantics (`eval` = None outside): template names of the universe only; an argument whose
   value as bound (trimmed if named) exceeds 256 KiB is outside (mwlib raises MemoryLimitError and drops the node,
   evaluate.pyx:152-155; MediaWiki has its own limits).
   `dn_ok dn`: the site's alias list of the magic word "default" contains "#default" and every alias contains '#'.
   `wfl`: grammar characters (no * # : ; | U+EBAD; blanks on which Python strip and PHP trim agree), non-empty
   text leaves with no two adjacent, stripped names of at most 256 KiB, pairwise distinct argument names per call;
   for #switch every key, value, the scrutinee and the default are such bodies (keys may be empty, literal,
   computed, duplicated, numeric), with ONE shape excluded: a case "|=|" whose last key AND value are both empty.
   There the statement is false of the code (C04_switch_empty_case_refuted below). *)
Theorem C04_eval_correct :
  forall (u : universe) (dn : list str),
  wfu u -> dn_ok dn ->
  forall (n : nat) (page : list ast) (s : str),
  wfl page = true ->
  evals n u [] page = Some s ->
  exists L0, forall limit, (L0 <= limit)%nat -> impl_expand u dn limit page = Ok s.
Proof.
  intros u dn Hu Hdn n page s Hw Hev. apply expand_flat_to.
  exact (eval_correct_body u dn Hu Hdn n [] ETop page s (env_rel_top u dn) env_ok_nil Hw Hev).
Qed.
Print Assumptions C04_eval_correct.

(* The same for any sub-program in any environment: `e` binds what `E` binds => compile p flattens to eval p
   (for every large enough budget, at every recursion count), with implicit newlines never firing. *)
Theorem C04_eval_correct_node :
  forall (u : universe) (dn : list str), wfu u -> dn_ok dn ->
  forall n E e p s, env_rel u dn E e -> env_ok E -> wf p = true -> eval n u E p = Some s ->
  flat_to u dn (compile p) e s.
Proof. exact main. Qed.
Print Assumptions C04_eval_correct_node.

(* what `wf` asks of a #switch node, spelled out *)
Theorem C04_wf_switch :
  forall sc cases d,
  wf (Switch sc cases d) =
  wfl sc &&
  forallb (fun c : list (list ast) * list ast * list ast =>
             match c with
             | (keys, k, v) => forallb wfl keys && wfl k && wfl v && negb (is_nil k && is_nil v)
             end) cases &&
  match d with Some (_, v) => wfl v | None => true end.
Proof. exact wf_switch. Qed.
Print Assumptions C04_wf_switch.

(* REFUTED for the excluded shape: "{{#switch:=|=|x=Y}}" — the case "|=|" parses to the bare eqmark, which
   evaluate.equal_split (:53-58, a str) returns as a value without key; SwitchNode._init then files it as a
   fall-through key "=" of the next case.  Reference: "" (no key equals "="); mwlib: "Y" at every limit >= 1
   (the real code returns 'Y' too). *)
Theorem C04_switch_empty_case_refuted :
  wfl ex3_page = false /\
  evals 10 [] [] ex3_page = Some [] /\
  forall limit, impl_expand [] [default_key] (S limit) ex3_page = Ok [89%N].
Proof. split; [reflexivity|]. split; [reflexivity|]. intros limit. reflexivity. Qed.
Print Assumptions C04_switch_empty_case_refuted.

(* Text containing no template syntax is returned unchanged — for every string, any universe, any limit *)
Theorem C04_plain_text_identity :
  forall (u : universe) (dn : list str) (limit : nat) (s : str),
  impl_expand u dn limit [Text s] = Ok s /\ forall n E, eval (S n) u E (Text s) = Some s.
Proof.
  intros u dn limit s. split; [|reflexivity]. unfold impl_expand, expand, compile_body. cbn [map compile mkseq].
  rewrite (flatten_str _ _ _ _ (S limit) 0 (NStr s) ETop s eq_refl). cbn [inl piece_str tl]. rewrite pjoin_single. reflexivity.
Qed.
Print Assumptions C04_plain_text_identity.

(* "numeric comparison is by value": the reference equality and magics.maybe_numeric_compare coincide *)
Theorem C04_numeric_equality :
  forall a b, num_aware_eq a b = maybe_numeric_compare a b.
Proof. exact num_aware_eq_impl. Qed.
Print Assumptions C04_numeric_equality.

(* non-vacuity: a concrete well-formed universe and page satisfy all hypotheses; both sides compute " a -b{{{y}}}ne" *)
Example C04_example_program :
  wfl ex_page = true /\ wfl (snd (hd ([], []) ex_u)) = true /\
  evals 10 ex_u [] ex_page = Some ex_out /\
  impl_expand ex_u [default_key] 100 ex_page = Ok ex_out.
Proof. exact example_program. Qed.
Print Assumptions C04_example_program.

(* non-vacuity with #switch: t2 = "{{#switch:{{{1}}}|a|b=AB|1=one|{{{k}}}=c|#default=D}}" and the page
   "{{t2|a}}{{t2|1.0}}{{t2|zz}}{{t2|q|k=q}}{{#switch:x|y=n| d }}" satisfy all hypotheses; both sides compute
   "ABoneDcd": fall-through group, numeric match 1.0 = 1, #default, computed key, bare last value as default *)
Example C04_example_switch_program :
  wfl ex2_page = true /\ wfl (snd (hd ([], []) ex2_u)) = true /\ dn_ok [default_key] /\
  evals 10 ex2_u [] ex2_page = Some ex2_out /\
  impl_expand ex2_u [default_key] 100 ex2_page = Ok ex2_out.
Proof. exact example_switch_program. Qed.
Print Assumptions C04_example_switch_program.

(* equals signs inside text (the real parse)
   templ/scanner.py makes every '=' a token; Parser._parse_args turns each top-level '=' of an argument of a template
   call, #if, #ifeq (magic node) and #switch into marks.eqmark.  Model.v `compile_r` is that parse: `compile` with the text
   leaves at the top level of an argument cut at every '=' ("a = b" -> "a ", eqmark, " b"); tie (a) of the check compares
   it with templ.parser.parse on every generated program. *)

(* (1) without '=' in text leaves compile_r is compile: C04_eval_correct is a statement about the real parse for the
   whole grammar of the property. *)
Theorem C04_compile_r_is_compile_without_eq :
  forall p, noeqb p = true -> compile_r p = compile p.
Proof. exact compile_r_noeq. Qed.
Print Assumptions C04_compile_r_is_compile_without_eq.

Theorem C04_templates_without_eq_parse_alike :
  forall u, noequ u -> forall name, tpl_of_r u name = tpl_of u name.
Proof.
  intros u Hu name. unfold tpl_of_r, tpl_of. destruct name; [reflexivity|].
  destruct (ulookup u (n :: name)) as [b|] eqn:E; [|reflexivity]. rewrite (compile_body_r_noeq b (Hu _ _ E)). reflexivity.
Qed.
Print Assumptions C04_templates_without_eq_parse_alike.

(* (2) C04_eval_correct_eq_text_partial.  FULL STATEMENT (not proved):
     forall u dn, wfu' u -> dn_ok dn -> forall n page s, wfl' page = true -> evals n u [] page = Some s ->
     exists L0, forall limit, L0 <= limit -> impl_expand_r u dn limit page = Ok s
   where wfl' is wfl with '=' allowed in every text leaf except at the top level of a positional argument, of a #switch key
   and of a bare #switch default (there '=' is syntax, not text), and the templates of u are parsed by compile_r too.
   PROVED HERE: the same for pages of the grammar `wfq`
       Text (any '=')  |  {{{p|default}}} (default: wfq bodies, '=' allowed)  |  #if  |  #ifeq  (condition, operands and
       branches: wfq bodies, '=' allowed)
       |  {{name| v | k = w }}: positional arguments = wfq bodies without a top-level '=' (with one it IS a named argument),
          named arguments with blanks allowed around the name (bound under the trimmed name, pairwise distinct) and wfq
          bodies as values, whose further '=' are text ("k= b = c" binds k to "b = c")
       |  #switch (and calls) of the grammar `wf` without '=' (wf && noeqb),
   nested to any depth, over a universe of '='-free templates (for which tpl_of_r = tpl_of, theorem above): the model of
   expandTemplates on the real parse returns the reference value - in particular a branch " a = b " of #if/#ifeq comes out as
   "a = b" (trimmed at its two ends only), which is what seeded regression C04-4 breaks.
   The model's evaluate.equal_split is the FIXED one of fixes/C04-equal-split-single-node-argument.diff (an argument that is
   one single #if/#ifeq node is never split; the unfixed code binds 1 = "x" for {{t|{{#if:1|=|x}}}}).
   MISSING for the full statement: '=' in #switch values/scrutinee/#default and inside template bodies (needs the lemmas of
   Proofs.v over tpl_of_r instead of tpl_of). *)
Theorem C04_eval_correct_eq_text_partial :
  forall (u : universe) (dn : list str),
  wfu u -> dn_ok dn ->
  forall (n : nat) (page : list ast) (s : str),
  wql page = true ->
  evals n u [] page = Some s ->
  exists L0, forall limit, (L0 <= limit)%nat -> impl_expand_rp u dn limit page = Ok s.
Proof.
  intros u dn Hu Hdn n page s Hw Hev. apply expand_flat_to.
  exact (eval_correct_body_r u dn Hu Hdn n [] ETop page s (env_rel_top u dn) env_ok_nil Hw Hev).
Qed.
Print Assumptions C04_eval_correct_eq_text_partial.

Theorem C04_eval_correct_eq_text_node_partial :
  forall (u : universe) (dn : list str), wfu u -> dn_ok dn ->
  forall n E e p s, env_rel u dn E e -> env_ok E -> wfq p = true -> eval n u E p = Some s ->
  flat_to u dn (compile_r p) e s.
Proof. exact main_r. Qed.
Print Assumptions C04_eval_correct_eq_text_node_partial.

(* non-vacuity: the page  x{{#if: 1 | a = b | no }}{{#ifeq: p=q | p =q | same | l != r }}{{{zz| d = e }}}  is in wfq, contains
   '=' (so compile_r differs from compile on it), and both sides compute "xa = bl != r d = e " *)
Example C04_example_eq_text_program :
  wql exq_page = true /\ noeql exq_page = false /\
  evals 10 [] [] exq_page = Some exq_out /\
  impl_expand_rp [] [default_key] 100 exq_page = Ok exq_out /\
  compile_body_r exq_page <> compile_body exq_page.
Proof. exact example_eq_program. Qed.
Print Assumptions C04_example_eq_text_program.

(* non-vacuity of the Call case: t1 = "[{{{1}}}/{{{k}}}]", page "{{t1|{{#if:1| a = b }}| k = c = d }}" -> "[a = b/c = d]",
   also with the template parsed by compile_r (impl_expand_r) *)
Example C04_example_eq_call_program :
  wql exq2_page = true /\ noeql exq2_page = false /\ wfl (snd (hd ([], []) exq2_u)) = true /\
  evals 10 exq2_u [] exq2_page = Some exq2_out /\
  impl_expand_rp exq2_u [default_key] 100 exq2_page = Ok exq2_out /\
  impl_expand_r exq2_u [default_key] 100 exq2_page = Ok exq2_out.
Proof. exact example_eq_call_program. Qed.
Print Assumptions C04_example_eq_call_program.

(* "numeric comparison is by value" for the spelling int() rejects and float() / PHP is_numeric accept: for EVERY non-empty digit
   string D, every non-empty digit string N and both letters e / E, the reference equality num_aware_eq (used by `eval` for
   #ifeq and #switch) and the model of magics.maybe_numeric_compare both say that  D e N  equals  D followed by (value of N)
   zeros:  1e3 = 1000, 25E2 = 2500, 7e0 = 7, 007e01 = 0070.  (dval s 0 = the integer spelled by the digit string s.) *)
Theorem C04_exponent_numbers_compare_by_value :
  forall (ds : str) (c : N) (es : str),
  all_digits ds = true -> ds <> [] -> (c = 101 \/ c = 69)%N -> all_digits es = true -> es <> [] ->
  num_aware_eq (ds ++ c :: es) (ds ++ repeat 48%N (Z.to_nat (dval es 0))) = true /\
  maybe_numeric_compare (ds ++ c :: es) (ds ++ repeat 48%N (Z.to_nat (dval es 0))) = true.
Proof. exact exponent_number_by_value. Qed.
Print Assumptions C04_exponent_numbers_compare_by_value.

(* the fold of an exponent into (mantissa, fraction digits) preserves the value: scale m f e denotes (m / 10^f) * 10^e
   (num_eqb = equality of the denoted decimal fractions, cross-multiplied) *)
Theorem C04_scale_value_nonneg : forall m f e, (0 <= e)%Z -> num_eqb (scale m f e) ((m * 10 ^ e)%Z, f) = true.
Proof. exact scale_value_nonneg. Qed.
Print Assumptions C04_scale_value_nonneg.

Theorem C04_scale_value_neg : forall m f e, (e < 0)%Z -> scale m f e = (m, (f + Z.to_nat (- e))%nat).
Proof.
  intros m f e He. unfold scale. destruct (Z.of_nat f <=? e)%Z eqn:E; [apply Z.leb_le in E; lia|f_equal; lia].
Qed.
Print Assumptions C04_scale_value_neg.

(* THE NUMBER GRAMMAR, shape by shape (unsigned part; parse_num strips blanks and handles one leading sign): for all digit
   strings ip, fr, es (dval = the integer spelled), e or E, exponent sign absent / + / -:
     ip                      ->  (dval ip, 0)
     ip . fr   (ip, fr not both empty: "5.", ".5", "2.50")            ->  (all digits as one integer, |fr|)
     ip [eE][+-]?es          ->  scale (dval ip) 0 (+-dval es)          ("1e3", "2E0", "5e-1": rejected by int(), taken by float())
     ip . fr [eE][+-]?es     ->  scale (all digits) |fr| (+-dval es)    ("2.5E+1", ".25e2", "1.e3")
   with C04_scale_value_* giving the denoted value (m / 10^f) * 10^e. *)
Theorem C04_number_grammar_digits : forall ds,
  all_digits ds = true -> ds <> [] -> parse_unsigned ds = Some (dval ds 0, O).
Proof. exact parse_unsigned_digits. Qed.
Print Assumptions C04_number_grammar_digits.

Theorem C04_number_grammar_fraction : forall ip fr,
  all_digits ip = true -> all_digits fr = true -> ip ++ fr <> [] ->
  parse_unsigned (ip ++ 46%N :: fr) = Some (dval fr (dval ip 0), length fr).
Proof. exact parse_unsigned_fraction. Qed.
Print Assumptions C04_number_grammar_fraction.

Theorem C04_number_grammar_exponent : forall ip c sg es,
  all_digits ip = true -> ip <> [] -> (c = 101 \/ c = 69)%N -> all_digits es = true -> es <> [] ->
  parse_unsigned (ip ++ exp_str c sg es) = Some (scale (dval ip 0) O (exp_val sg es)).
Proof. exact parse_unsigned_exp. Qed.
Print Assumptions C04_number_grammar_exponent.

Theorem C04_number_grammar_fraction_exponent : forall ip fr c sg es,
  all_digits ip = true -> all_digits fr = true -> ip ++ fr <> [] ->
  (c = 101 \/ c = 69)%N -> all_digits es = true -> es <> [] ->
  parse_unsigned (ip ++ 46%N :: fr ++ exp_str c sg es) = Some (scale (dval fr (dval ip 0)) (length fr) (exp_val sg es)).
Proof. exact parse_unsigned_fraction_exp. Qed.
Print Assumptions C04_number_grammar_fraction_exponent.

(* non-vacuity / the other shapes of the numeric grammar by computation: 1e3 = 1000, 5e-1 = .5, 2.5E+1 = " 025. ",
   1e3 <> 5e-1; "1e" and "e3" are not numbers (compared as text) *)
Example C04_example_exponent_numbers :
  num_aware_eq s_1e3 s_1000 = true /\ num_aware_eq s_5em1 s_p5 = true /\ num_aware_eq s_25E1 s_025 = true /\
  num_aware_eq s_1e3 s_5em1 = false /\ parse_num s_1e = None /\ parse_num s_e3 = None /\
  num_aware_eq s_1e s_1e = true /\ num_aware_eq s_1e s_e3 = false /\
  maybe_numeric_compare s_5em1 s_p5 = true /\ maybe_numeric_compare s_1e3 s_5em1 = false.
Proof. exact exponent_examples. Qed.
Print Assumptions C04_example_exponent_numbers.

(* interior white space of compared values (ProofsWs.v)
   Parser._strip_ws (parser.py:105-117, Model.v strip_ws_node) builds the comparison value of #switch and the condition of #if
   from the parsed tuple.  Whatever the tuple is, it returns pre ++ middle ++ post where the middle - every element strictly
   between the first and the last - is kept verbatim and in order, and only the first / the last element may be dropped (when
   it is a white-space-only string): the blank or newline BETWEEN two parameters or calls ({{{1}}} {{{2}}}) is never removed at
   parse time, so C04_eval_correct's trim-at-both-ends semantics is what the parse feeds. *)
Theorem C04_strip_ws_keeps_interior : forall a m z,
  exists pre post,
    strip_ws_node (NSeq (a :: m ++ [z])) = NSeq (pre ++ m ++ post) /\
    (pre = [a] \/ pre = []) /\ (post = [z] \/ post = []).
Proof. exact strip_ws_front_back. Qed.
Print Assumptions C04_strip_ws_keeps_interior.

(* and a tuple whose ends are not white-space-only strings comes back unchanged *)
Theorem C04_strip_ws_identity_without_blank_ends : forall l,
  (match l with NStr s :: _ => is_blank s = false | _ => True end) ->
  (match rev l with NStr s :: _ => is_blank s = false | _ => True end) ->
  strip_ws_node (NSeq l) = NSeq l.
Proof. exact strip_ws_identity. Qed.
Print Assumptions C04_strip_ws_identity_without_blank_ends.

(* non-vacuity on both sides: t2 = "{{#switch: {{{1}}} {{{2}}} |a b=spaced|ab=joined|#default=other}}", t3 = "x", t4 = "y",
   t5 = "{{#switch:{{t3}}<newline>{{t4}}|xy=glued|x<newline>y=apart}}", t6 = "{{#ifeq:{{{1}}} {{{2}}}|a b|same|different}}";
   the page "{{t2|a|b}}/{{t2|ab|}}/{{t2|x|y}}/{{t5}}/{{t6|a|b}}/{{t6|ab|}}" satisfies the hypotheses of C04_eval_correct and both
   the reference semantics and the model of the implementation compute "spaced/joined/other/apart/same/different". *)
Example C04_example_interior_white_space :
  wfl exw_page = true /\ forallb (fun t => wfl (snd t)) exw_u = true /\ dn_ok [default_key] /\
  evals 10 exw_u [] exw_page = Some exw_out /\
  impl_expand exw_u [default_key] 100 exw_page = Ok exw_out.
Proof. exact example_interior_ws_program. Qed.
Print Assumptions C04_example_interior_white_space.

(* Why the interior matters (refutation of the simplification "delete every white-space-only string of the tuple"): for
   t5 = {{#switch:{{t3}}<newline>{{t4}}|xy=glued|x<newline>y=apart}} (t3 = x, t4 = y) the parse with the real helper is what `compile`
   says, the reference semantics and the model of the implementation return "apart", and the same model on the parse with the
   simplified helper returns "glued": a parser that drops interior white space violates C04 (found concretely by the check's
   ws_family / gen_seq programs on the real code). *)
Theorem C04_strip_every_blank_string_refuted :
  swap_value strip_ws_node (compile exw_switch) = compile exw_switch /\
  evals 10 exw_u [] [exw_switch] = Some [97;112;97;114;116]%N /\
  expand (tpl_of exw_u) (fun _ => false) (fun _ _ => MDone []) [default_key] 100 (compile exw_switch) = Ok [97;112;97;114;116]%N /\
  expand (tpl_of exw_u) (fun _ => false) (fun _ _ => MDone []) [default_key] 100 (swap_value strip_ws_all_node (compile exw_switch))
    = Ok [103;108;117;101;100]%N.
Proof. vm_compute. repeat split. Qed.
Print Assumptions C04_strip_every_blank_string_refuted.
