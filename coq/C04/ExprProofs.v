(* C04 / M2 — correctness of the shunting-yard parser of expr.py (model: ExprModel.v) with respect to the
   evaluation of expression trees, for every operator table satisfying [table_ok]. *)
From Coq Require Import List ZArith Bool Lia.
From MW Require Import Common.Str C04.ExprModel.
Import ListNotations.
Local Open Scope Z_scope.

Lemma all_uops_complete u : In u all_uops.
Proof. destruct u; cbn; tauto. Qed.
Lemma all_bops_complete b : In b all_bops.
Proof. destruct b; cbn; tauto. Qed.

Lemma wrapn_nonempty n toks : toks <> [] -> wrapn n toks <> [].
Proof. destruct n; cbn; [tauto | discriminate]. Qed.

Section Correct.
  Variable V : Type.
  Variable num : lit -> V.
  Variable cst : const -> V.
  Variable fun1 : opname -> V -> V.
  Variable fun2 : opname -> V -> V -> V.
  Variable tbl : table.
  Hypothesis Hok : table_ok tbl = true.

  Notation apply_op := (apply_op V fun1 fun2 tbl).
  Notation pop_while := (pop_while V fun1 fun2 tbl).
  Notation close := (close V fun1 fun2 tbl).
  Notation drain := (drain V fun1 fun2 tbl).
  Notation step := (step V num cst fun1 fun2 tbl).
  Notation run := (run V num cst fun1 fun2 tbl).
  Notation push_operator := (push_operator V fun1 fun2 tbl).
  Notation eval := (eval V num cst fun1 fun2).
  Notation state := (state V).
  Notation mkst := (mkst V).
  Notation bprec := (bprec tbl).
  Notation uprec := (uprec tbl).
  Notation prec_item := (prec_item tbl).

  Lemma ok_u u : exists p, lookup (OU u) (t_ops tbl) = Some (p, 1%nat).
  Proof.
    unfold table_ok in Hok. apply andb_true_iff in Hok as [H _].
    rewrite forallb_forall in H. specialize (H u (all_uops_complete u)).
    destruct (lookup (OU u) (t_ops tbl)) as [[p [|[|n]]]|]; try discriminate. eauto.
  Qed.

  Lemma ok_b b : exists p, lookup (OB b) (t_ops tbl) = Some (p, 2%nat) /\ t_paren tbl < p /\ forall u, p <= uprec u.
  Proof.
    unfold table_ok in Hok. apply andb_true_iff in Hok as [_ H].
    rewrite forallb_forall in H. specialize (H b (all_bops_complete b)).
    destruct (lookup (OB b) (t_ops tbl)) as [[p [|[|[|n]]]]|]; try discriminate.
    apply andb_true_iff in H as [H1 H2]. exists p. split; [reflexivity|]. split; [apply Z.ltb_lt; exact H1|].
    intros u. rewrite forallb_forall in H2. apply Z.leb_le. apply H2. apply all_uops_complete.
  Qed.

  Lemma prec_u u : prec_of tbl (OU u) = Some (uprec u).
  Proof. unfold uprec, prec_of. destruct (ok_u u) as [p ->]. reflexivity. Qed.
  Lemma arity_u u : arity_of tbl (OU u) = Some 1%nat.
  Proof. unfold arity_of. destruct (ok_u u) as [p ->]. reflexivity. Qed.
  Lemma prec_b b : prec_of tbl (OB b) = Some (bprec b).
  Proof. unfold bprec, prec_of. destruct (ok_b b) as [p [-> _]]. reflexivity. Qed.
  Lemma arity_b b : arity_of tbl (OB b) = Some 2%nat.
  Proof. unfold arity_of. destruct (ok_b b) as [p [-> _]]. reflexivity. Qed.
  Lemma bprec_paren b : t_paren tbl < bprec b.
  Proof. unfold bprec, prec_of. destruct (ok_b b) as [p [-> [H _]]]. exact H. Qed.
  Lemma bprec_le_uprec b u : bprec b <= uprec u.
  Proof. unfold bprec at 1. unfold prec_of. destruct (ok_b b) as [p [-> [_ H]]]. cbn. apply H. Qed.

  (* threshold just above the parenthesis entries: popping with it reduces everything down to "(" *)
  Definition p0 : Z := t_paren tbl + 1.
  Lemma p0_le_b b : p0 <= bprec b.
  Proof. unfold p0. pose proof (bprec_paren b). lia. Qed.
  Lemma p0_le_u u : p0 <= uprec u.
  Proof. pose proof (p0_le_b BAdd). pose proof (bprec_le_uprec BAdd u). lia. Qed.

  Lemma run_app a b st :
    run (a ++ b) st = match run a st with Ok st' => run b st' | Err e => Err e end.
  Proof.
    revert st; induction a as [|t a IH]; intros st; cbn; [reflexivity|].
    destruct (step st t); [apply IH | reflexivity].
  Qed.

  Lemma run_cons tk r st :
    run (tk :: r) st = match step st tk with Ok st' => run r st' | Err e => Err e end.
  Proof. reflexivity. Qed.

  Lemma step_lparen vs os d l : step (mkst vs os d l) TLParen = Ok (mkst vs (SParen :: os) false LTruthy).
  Proof. reflexivity. Qed.

  Lemma step_rparen vs os d l :
    step (mkst vs os d l) TRParen
    = match close vs os with Ok (vs', os') => Ok (mkst vs' os' false LRParen) | Err e => Err e end.
  Proof. reflexivity. Qed.

  (* what pop_while leaves undone is what `)` (down to the next "(") and the end of the input (down to the bottom) do *)
  Lemma pop_all p vs os vs' os' :
    pop_while p vs os = Ok (vs', os') ->
    match os' with
    | [] => drain vs os = Ok vs'
    | SParen :: os'' => close vs os = Ok (vs', os'')
    | SOp _ :: _ => True
    end.
  Proof.
    revert vs; induction os as [|top os IH]; intros vs H; cbn in H.
    - inversion H; subst. reflexivity.
    - destruct (prec_item top) as [q|] eqn:Eq; [|discriminate].
      destruct (p <=? q).
      + destruct top as [|o]; cbn in H; [discriminate|].
        destruct (apply_op o vs) as [vs1|e] eqn:Ea; [|discriminate]. specialize (IH vs1 H).
        destruct os' as [|[|o'] os'']; cbn; rewrite ?Ea; exact IH.
      + inversion H; subst. destruct top; [reflexivity|exact I].
  Qed.

  Lemma pop_paren p vs os : p0 <= p -> pop_while p vs (SParen :: os) = Ok (vs, SParen :: os).
  Proof.
    intros H. cbn. destruct (p <=? t_paren tbl) eqn:E; [|reflexivity].
    apply Z.leb_le in E. unfold p0 in H. lia.
  Qed.

  Lemma pop_bin p b x y vs os :
    p <= bprec b -> pop_while p (y :: x :: vs) (SOp (OB b) :: os) = pop_while p (fun2 (OB b) x y :: vs) os.
  Proof.
    intros H. cbn. rewrite prec_b. destruct (p <=? bprec b) eqn:E; [|apply Z.leb_gt in E; lia].
    unfold ExprModel.apply_op. rewrite arity_b. reflexivity.
  Qed.

  Lemma pop_un p u x vs os :
    p <= uprec u -> pop_while p (x :: vs) (SOp (OU u) :: os) = pop_while p (fun1 (OU u) x :: vs) os.
  Proof.
    intros H. cbn. rewrite prec_u. destruct (p <=? uprec u) eqn:E; [|apply Z.leb_gt in E; lia].
    unfold ExprModel.apply_op. rewrite arity_u. reflexivity.
  Qed.

  (* thresholds with which the pending part of a just-read sub-expression must reduce completely *)
  Definition thr (t : expr) (p : Z) : Prop :=
    match t with
    | Bin b _ _ => p <= bprec b
    | _ => forall u, p <= uprec u
    end.

  (* nothing below a binary node that starts here may be popped by its operator *)
  Definition guard_b (b : bop) (os : list sitem) : Prop :=
    match os with [] => True | it :: _ => exists q, prec_item it = Some q /\ q < bprec b end.
  Definition guard (t : expr) (os : list sitem) : Prop :=
    match t with Bin b _ _ => guard_b b os | _ => True end.

  Lemma thr_p0 t : thr t p0.
  Proof. destruct t; cbn; intros; try apply p0_le_u. apply p0_le_b. Qed.

  Lemma pop_guard b v vs os :
    guard_b b os -> pop_while (bprec b) (v :: vs) os = Ok (v :: vs, os).
  Proof.
    destruct os as [|it os]; cbn; [reflexivity|].
    intros [q [-> Hq]]. destruct (bprec b <=? q) eqn:E; [apply Z.leb_le in E; lia | reflexivity].
  Qed.

  Section WithRho.
    Variable rho : expr -> nat.
    Notation ser := (ser_gen tbl rho).

    (* reading toks (a serialisation of t) in operand position: afterwards the stacks are, for every admissible threshold,
       pop-equivalent to (eval t :: vs, os).  Bare (wrapped = false) this needs the guard on the stack below and holds
       for the thresholds thr t; inside parentheses it holds on every stack and for every threshold. *)
    Definition reads (toks : list token) (t : expr) (wrapped : bool) : Prop :=
      forall vs os, (wrapped = false -> guard t os) ->
        exists vs' os' d' l',
          run toks (mkst vs os false LTruthy) = Ok (mkst vs' os' d' l') /\ l' <> LTruthy /\
          forall p, (wrapped = false -> thr t p) -> pop_while p vs' os' = pop_while p (eval t :: vs) os.

    Lemma reads_wrap t :
      reads (ser t) t false ->
      forall n, reads (wrapn n (ser t)) t (negb (Nat.eqb n 0)).
    Proof.
      intros Ht n. destruct n as [|n]; [exact Ht|].
      cbn [Nat.eqb negb].
      (* n+1 pairs: exact result, context LRParen *)
      assert (Hex : forall vs os,
                 run (wrapn (S n) (ser t)) (mkst vs os false LTruthy) = Ok (mkst (eval t :: vs) os false LRParen)).
      { induction n as [|n IH]; intros vs os.
        - change (wrapn 1 (ser t)) with (TLParen :: ser t ++ [TRParen]).
          rewrite run_cons, step_lparen, run_app.
          destruct (Ht vs (SParen :: os)) as (vs' & os' & d' & l' & Hr & Hl & Hp).
          { intros _. destruct t; cbn; try exact I. exists (t_paren tbl). split; [reflexivity | apply bprec_paren]. }
          rewrite Hr. rewrite run_cons, step_rparen.
          specialize (Hp p0 (fun _ => thr_p0 t)). rewrite pop_paren in Hp by lia.
          apply pop_all in Hp. rewrite Hp. reflexivity.
        - change (wrapn (S (S n)) (ser t)) with (TLParen :: wrapn (S n) (ser t) ++ [TRParen]).
          rewrite run_cons, step_lparen, run_app. rewrite IH.
          rewrite run_cons, step_rparen. reflexivity. }
      intros vs os _. exists (eval t :: vs), os, false, LRParen. split; [apply Hex|]. split; [discriminate|].
      intros p _. reflexivity.
    Qed.

    (* a child is wrapped in rho-many pairs, and in one more when it needs them: left bare, it does not need them *)
    Lemma reads_child t (need : bool) :
      reads (ser t) t false -> reads (wrapn (Nat.max (rho t) (b2n need)) (ser t)) t need.
    Proof.
      intros Ht vs os Hg.
      assert (Hn : negb (Nat.eqb (Nat.max (rho t) (b2n need)) 0) = false -> need = false).
      { destruct need; [|reflexivity]. destruct (rho t); discriminate. }
      destruct (reads_wrap t Ht _ vs os (fun E => Hg (Hn E))) as (vs' & os' & d' & l' & Hr & Hl & Hp).
      exists vs', os', d', l'. split; [exact Hr|]. split; [exact Hl|]. intros p Hthr. apply Hp. intros E. apply Hthr, Hn, E.
    Qed.

    Lemma reads_ser t : reads (ser t) t false.
    Proof.
      induction t as [n | c | u x IHx | b l IHl r IHr]; intros vs os Hg.
      - (* number *)
        exists (num n :: vs), os, true, LEmpty. cbn. split; [reflexivity|]. split; [discriminate|]. reflexivity.
      - (* constant: no e-swap in operand position *)
        exists (cst c :: vs), os, true, LEmpty. split; [destruct c; reflexivity|]. split; [discriminate|]. reflexivity.
      - (* prefix operator *)
        cbn [ser_gen]. pose proof (reads_child x (need_u x) IHx) as Hx.
        assert (Hstep : step (mkst vs os false LTruthy) (TOp (tok_of_uop u))
                        = Ok (mkst vs (SOp (OU u) :: os) false LTruthy)).
        { assert (Hc : ExprModel.convert_to_unary LTruthy (tok_of_uop u) = OU u) by (destruct u; reflexivity).
          assert (Hk : exists q, prec_of tbl (tok_of_uop u) = Some q).
          { destruct u; cbn [tok_of_uop]; try (rewrite prec_u; eauto); rewrite prec_b; eauto. }
          destruct Hk as [q Hq].
          unfold ExprModel.step. cbn [s_lopd s_lop s_opnd s_ops].
          unfold ExprModel.push_operator. cbn [s_lopd s_lop s_opnd s_ops].
          rewrite Hq, Hc, arity_u, prec_u. reflexivity. }
        cbn [ExprModel.run]. rewrite Hstep.
        destruct (Hx vs (SOp (OU u) :: os)) as (vs' & os' & d' & l' & Hr & Hl & Hp).
        { intros E. destruct x; cbn in E; try discriminate; exact I. }
        exists vs', os', d', l'. split; [exact Hr|]. split; [exact Hl|].
        intros p Hthr. specialize (Hthr eq_refl). cbn [thr] in Hthr.
        rewrite Hp.
        + cbn [ExprModel.eval]. apply pop_un. apply Hthr.
        + intros E. destruct x; cbn in E; try discriminate; cbn; exact Hthr.
      - (* binary operator *)
        cbn [ser_gen].
        pose proof (reads_child l (need_l tbl b l) IHl) as Hl. pose proof (reads_child r (need_r tbl b r) IHr) as Hr.
        specialize (Hg eq_refl). cbn [guard] in Hg.
        rewrite run_app.
        destruct (Hl vs os) as (vs1 & os1 & d1 & l1 & Hr1 & Hl1 & Hp1).
        { intros E. destruct l as [| | |b' l1' l2']; cbn; try exact I.
          cbn [need_l] in E. apply Z.ltb_ge in E.
          destruct os as [|it os]; [exact I|]. destruct Hg as [q [Hq1 Hq2]]. exists q. split; [exact Hq1 | lia]. }
        rewrite Hr1.
        (* the operator token *)
        assert (Hthr_l : need_l tbl b l = false -> thr l (bprec b)).
        { intros E. destruct l as [| | |b' l1' l2']; cbn; try (intros; apply bprec_le_uprec).
          cbn [need_l] in E. apply Z.ltb_ge in E. exact E. }
        assert (Hstep : step (mkst vs1 os1 d1 l1) (TOp (OB b))
                        = Ok (mkst (eval l :: vs) (SOp (OB b) :: os) false LTruthy)).
        { unfold ExprModel.step. cbn [s_lopd s_lop s_opnd s_ops].
          unfold ExprModel.push_operator. cbn [s_lopd s_lop s_opnd s_ops].
          rewrite prec_b.
          assert (Hc : ExprModel.convert_to_unary l1 (OB b) = OB b) by (destruct l1; [congruence | reflexivity | reflexivity]).
          rewrite Hc, arity_b, prec_b. rewrite (Hp1 _ Hthr_l).
          rewrite pop_guard; [reflexivity|]. exact Hg. }
        cbn [ExprModel.run]. rewrite Hstep.
        destruct (Hr (eval l :: vs) (SOp (OB b) :: os)) as (vs2 & os2 & d2 & l2 & Hr2 & Hl2 & Hp2).
        { intros E. destruct r as [| | |b' r1' r2']; cbn; try exact I.
          cbn [need_r] in E. apply Z.leb_gt in E.
          exists (bprec b). split; [apply prec_b | exact E]. }
        exists vs2, os2, d2, l2. split; [exact Hr2|]. split; [exact Hl2|].
        intros p Hthr. specialize (Hthr eq_refl). cbn [thr] in Hthr.
        rewrite Hp2.
        + cbn [ExprModel.eval]. apply pop_bin. exact Hthr.
        + intros E. destruct r as [| | |b' r1' r2']; cbn [thr]; try (intros uu; pose proof (bprec_le_uprec b uu); lia).
          cbn [need_r] in E. apply Z.leb_gt in E. lia.
    Qed.

    Lemma ser_gen_nonempty t : ser t <> [].
    Proof.
      destruct t; cbn; try discriminate.
      intros H. apply app_eq_nil in H as [_ H]. discriminate.
    Qed.

    Theorem parse_ser_top t :
      parse_expr V num cst fun1 fun2 tbl (ser_top tbl rho t) = PVal (eval t).
    Proof.
      unfold ser_top, parse_expr.
      destruct (wrapn (rho t) (ser t)) eqn:E.
      { exfalso. eapply wrapn_nonempty; [apply ser_gen_nonempty | exact E]. }
      rewrite <- E. clear E.
      destruct (reads_wrap t (reads_ser t) (rho t) [] []) as (vs' & os' & d' & l' & Hr & _ & Hp).
      { intros _. destruct t; exact I. }
      unfold init. rewrite Hr. unfold finish. cbn [s_opnd s_ops].
      specialize (Hp p0 (fun _ => thr_p0 t)). cbn in Hp.
      apply pop_all in Hp. rewrite Hp. reflexivity.
    Qed.
  End WithRho.

  Lemma ser_full_is_ser_top t :
    ser_full t = ser_top tbl (fun c => match c with Num _ | Cst _ => 0%nat | _ => 1%nat end) t.
  Proof.
    unfold ser_top.
    induction t as [n | c | u x IHx | b l IHl r IHr]; cbn [ser_full ser_gen wrapn]; try reflexivity.
    - f_equal. rewrite IHx. destruct x; cbn; try reflexivity.
    - f_equal. rewrite IHl, IHr.
      assert (A : forall c : expr, Nat.max match c with Num _ | Cst _ => 0%nat | _ => 1%nat end
                                     (b2n (need_l tbl b c)) = match c with Num _ | Cst _ => 0%nat | _ => 1%nat end).
      { intros c. destruct c; cbn; try reflexivity. destruct (_ <? _); reflexivity. }
      assert (B : forall c : expr, Nat.max match c with Num _ | Cst _ => 0%nat | _ => 1%nat end
                                     (b2n (need_r tbl b c)) = match c with Num _ | Cst _ => 0%nat | _ => 1%nat end).
      { intros c. destruct c; cbn; try reflexivity. destruct (_ <=? _); reflexivity. }
      rewrite A, B. rewrite <- app_assoc. reflexivity.
  Qed.

  Theorem shunting_yard_correct t :
    parse_expr V num cst fun1 fun2 tbl (ser_min tbl t) = PVal (eval t) /\
    parse_expr V num cst fun1 fun2 tbl (ser_full t) = PVal (eval t) /\
    parse_expr V num cst fun1 fun2 tbl (ser_double tbl t) = PVal (eval t).
  Proof.
    split; [apply parse_ser_top|]. split; [rewrite ser_full_is_ser_top; apply parse_ser_top | apply parse_ser_top].
  Qed.

End Correct.

Lemma eval_free t : eval expr Num Cst free1 free2 t = t.
Proof. induction t as [n | c | u x IHx | b l IHl r IHr]; cbn; congruence. Qed.

Theorem parse_returns_tree tbl : table_ok tbl = true -> forall rho t, parse_tree tbl (ser_top tbl rho t) = PVal t.
Proof.
  intros Hok rho t. unfold parse_tree. rewrite (parse_ser_top expr Num Cst free1 free2 tbl Hok rho t).
  rewrite eval_free. reflexivity.
Qed.

(* The table expr.py registered before fixes/C04-expr-pow-precedence.diff ("^" at 10, above the prefix functions at 9) is not ok, and the minimally
   parenthesised text of Pow(Floor x, y), `floor x ^ y`, is parsed as Floor(Pow(x, y));
   likewise `not x ^ y`. *)
Lemma pow_above_prefix_misparses :
  table_ok table_2024 = false /\
  forall u x y, In u [UNot; UAbs; UCeil; UFloor; UTrunc] ->
    ser_min documented_table (Bin BPow (Un u (Num x)) (Num y)) = [TOp (OU u); TNum x; TOp (OB BPow); TNum y] /\
    parse_tree table_2024 [TOp (OU u); TNum x; TOp (OB BPow); TNum y] = PVal (Un u (Bin BPow (Num x) (Num y))) /\
    parse_tree documented_table [TOp (OU u); TNum x; TOp (OB BPow); TNum y] = PVal (Bin BPow (Un u (Num x)) (Num y)).
Proof.
  split; [vm_compute; reflexivity|].
  intros u x y Hu. cbn in Hu.
  destruct Hu as [<-|[<-|[<-|[<-|[<-|[]]]]]]; repeat split; reflexivity.
Qed.

(* Non-vacuity: a tree of depth 4 using prefix, binary, left/right nesting and a comparison:
     ((1 - (2 - 3)) * -4 ^ 2 < abs (5 + 6)) or not 0        (numbers stand for their one-character literals) *)
Definition ex_tree : expr :=
  Bin BOr
    (Bin BLt
       (Bin BMul (Bin BSub (Num [49%N]) (Bin BSub (Num [50%N]) (Num [51%N])))
                 (Bin BPow (Un UMinus (Num [52%N])) (Num [50%N])))
       (Un UAbs (Bin BAdd (Num [53%N]) (Num [54%N]))))
    (Un UNot (Num [48%N])).

Lemma example_parse :
  ser_min documented_table ex_tree
  = [TLParen; TNum [49%N]; TOp (OB BSub); TLParen; TNum [50%N]; TOp (OB BSub); TNum [51%N]; TRParen; TRParen;
     TOp (OB BMul); TOp (OB BSub); TNum [52%N]; TOp (OB BPow); TNum [50%N];
     TOp (OB BLt); TOp (OU UAbs); TLParen; TNum [53%N]; TOp (OB BAdd); TNum [54%N]; TRParen;
     TOp (OB BOr); TOp (OU UNot); TNum [48%N]]
  /\ parse_tree documented_table (ser_min documented_table ex_tree) = PVal ex_tree
  /\ parse_tree documented_table (ser_full ex_tree) = PVal ex_tree
  /\ parse_tree documented_table (ser_double documented_table ex_tree) = PVal ex_tree
  /\ length (ser_full ex_tree) = 38%nat.
Proof. vm_compute. repeat split. Qed.
