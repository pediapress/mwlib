(* C04 — SwitchNode tables (C03/Model.v switch_init / store_key: nodes.pyx:79-121) against "first matching key": num_eqb is an
   equivalence; what store_key / store_all put into the tables (find_ks, find_kn, unres_of); what a lookup in them returns
   (first_literal).  Used by the Switch case of Proofs.v `main`. *)
From Coq Require Import List NArith ZArith Bool Lia Arith.
From MW Require Import Common.Str C03.Model C04.Model.
Import ListNotations.

Lemma num_eqb_refl a : num_eqb a a = true.
Proof. destruct a as [m f]. unfold num_eqb. apply Z.eqb_refl. Qed.

Lemma num_eqb_sym a b : num_eqb a b = num_eqb b a.
Proof. destruct a as [m1 f1], b as [m2 f2]. unfold num_eqb. apply Z.eqb_sym. Qed.

Lemma pow10_pos f : (0 < 10 ^ Z.of_nat f)%Z.
Proof. apply Z.pow_pos_nonneg; lia. Qed.

Lemma num_eqb_trans a b c : num_eqb a b = true -> num_eqb b c = true -> num_eqb a c = true.
Proof.
  destruct a as [m1 f1], b as [m2 f2], c as [m3 f3]. unfold num_eqb. rewrite !Z.eqb_eq.
  pose proof (pow10_pos f1) as P1. pose proof (pow10_pos f2) as P2. pose proof (pow10_pos f3) as P3.
  set (p1 := (10 ^ Z.of_nat f1)%Z) in *. set (p2 := (10 ^ Z.of_nat f2)%Z) in *. set (p3 := (10 ^ Z.of_nat f3)%Z) in *.
  intros H12 H23.
  apply (Z.mul_reg_r _ _ p2); [lia|].
  transitivity (m1 * p2 * p3)%Z; [ring|]. rewrite H12.
  transitivity (m2 * p3 * p1)%Z; [ring|]. rewrite H23. ring.
Qed.

Lemma num_eqb_congr a b c : num_eqb a b = true -> num_eqb a c = num_eqb b c.
Proof.
  intros H. destruct (num_eqb b c) eqn:E.
  - eapply num_eqb_trans; eassumption.
  - destruct (num_eqb a c) eqn:E2; [|reflexivity].
    rewrite num_eqb_sym in H. rewrite (num_eqb_trans _ _ _ H E2) in E. discriminate.
Qed.

Lemma num_aware_eq_refl a : num_aware_eq a a = true.
Proof. unfold num_aware_eq. destruct (parse_num a); [apply num_eqb_refl|apply str_eqb_refl]. Qed.

Lemma str_eqb_sym a b : str_eqb a b = str_eqb b a.
Proof.
  destruct (str_eqb b a) eqn:E.
  - apply str_eqb_spec in E. subst. apply str_eqb_refl.
  - apply str_eqb_false. apply str_eqb_false in E. congruence.
Qed.

Lemma sw_unres_cons (fl : flat) e val k v rest :
  sw_unres fl e val (parse_num val) ((k, v) :: rest) =
  match fl k e with
  | Err x => Err x
  | Ok ps => if num_aware_eq (strip (pjoin ps)) val then Ok (Some v)
             else sw_unres fl e val (parse_num val) rest
  end.
Proof.
  cbn [sw_unres]. destruct (fl k e) as [ps|x]; [|reflexivity].
  set (tmp := strip (pjoin ps)). unfold num_aware_eq.
  destruct (str_eqb tmp val) eqn:E.
  - apply str_eqb_spec in E. rewrite E. destruct (parse_num val); [rewrite num_eqb_refl|]; reflexivity.
  - destruct (parse_num val) as [a|]; destruct (parse_num tmp) as [b|]; try rewrite E; reflexivity.
Qed.

Lemma fast_get_app k f g :
  fast_get k (f ++ g) = match fast_get k f with Some e => Some e | None => fast_get k g end.
Proof.
  induction f as [|[k' e] f IH]; [reflexivity|]. cbn [app fast_get]. destruct (skey_eqb k k'); [reflexivity|exact IH].
Qed.

Lemma fast_get_KN_congr q q' f : num_eqb q q' = true -> fast_get (KN q) f = fast_get (KN q') f.
Proof.
  intros H. induction f as [|[k' e] f IH]; [reflexivity|]. cbn [fast_get].
  destruct k' as [s|q2]; cbn [skey_eqb]; [exact IH|]. rewrite (num_eqb_congr _ _ _ H), IH. reflexivity.
Qed.

(* every numeric string key has its numeric entry *)
Definition fast_inv (f : fast_t) : Prop :=
  forall t e q, fast_get (KS t) f = Some e -> parse_num t = Some q -> fast_get (KN q) f <> None.

Lemma fast_inv_nil : fast_inv [].
Proof. intros t e q H. discriminate. Qed.

Definition or_else {A} (a b : option A) : option A := match a with Some x => Some x | None => b end.

Lemma or_else_assoc {A} (a b c : option A) : or_else (or_else a b) c = or_else a (or_else b c).
Proof. destruct a; reflexivity. Qed.

(* one literal key k (text s0, stripped t0): the tables gain the entry under t0, and under its number if it has one,
   unless an earlier key already holds that place *)
Definition lit_ks (t0 : str) (ent : entry) (t : str) : option entry := if str_eqb t t0 then Some ent else None.
Definition lit_kn (t0 : str) (ent : entry) (q : num) : option entry :=
  match parse_num t0 with Some q0 => if num_eqb q q0 then Some ent else None | None => None end.

Lemma store_key_lit_tables k v fast unres s0 :
  node_as_str k = Some s0 -> fast_inv fast ->
  exists fast',
    store_key k v (fast, unres) = (fast', unres) /\
    (forall t, fast_get (KS t) fast' = or_else (fast_get (KS t) fast) (lit_ks (strip s0) (length unres, v) t)) /\
    (forall q, fast_get (KN q) fast' = or_else (fast_get (KN q) fast) (lit_kn (strip s0) (length unres, v) q)).
Proof.
  intros Hk Hinv. unfold lit_ks, lit_kn. set (t0 := strip s0). set (ent := (length unres, v)).
  unfold store_key. rewrite Hk. fold t0.
  destruct (fast_get (KS t0) fast) as [e0|] eqn:E0.
  - (* duplicate key: first wins *)
    exists fast. split; [reflexivity|]. split.
    + intros t. destruct (fast_get (KS t) fast) eqn:Et; [reflexivity|]. cbn [or_else].
      destruct (str_eqb t t0) eqn:Ett; [|reflexivity]. apply str_eqb_spec in Ett. subst t. congruence.
    + intros q. destruct (fast_get (KN q) fast) eqn:Eq; [reflexivity|]. cbn [or_else].
      destruct (parse_num t0) as [q0|] eqn:Ep; [|reflexivity].
      destruct (num_eqb q q0) eqn:Eqq; [|reflexivity].
      exfalso. apply (Hinv t0 e0 q0 E0 Ep). rewrite <- (fast_get_KN_congr q q0 fast Eqq). exact Eq.
  - (* a fresh text key *)
    fold ent. set (fast1 := fast ++ [(KS t0, ent)]).
    assert (HS1 : forall t, fast_get (KS t) fast1 = or_else (fast_get (KS t) fast) (if str_eqb t t0 then Some ent else None)).
    { intros t. unfold fast1. rewrite fast_get_app. cbn [fast_get skey_eqb]. reflexivity. }
    assert (HN1 : forall q, fast_get (KN q) fast1 = fast_get (KN q) fast).
    { intros q. unfold fast1. rewrite fast_get_app. cbn [fast_get skey_eqb]. destruct (fast_get (KN q) fast); reflexivity. }
    destruct (parse_num t0) as [q0|] eqn:Ep.
    + destruct (fast_get (KN q0) fast1) as [e1|] eqn:E1.
      * (* its number is already a key *)
        exists fast1. split; [reflexivity|]. split; [exact HS1|].
        intros q. rewrite HN1. destruct (fast_get (KN q) fast) eqn:Eq; [reflexivity|]. cbn [or_else].
        destruct (num_eqb q q0) eqn:Eqq; [|reflexivity].
        rewrite HN1 in E1. rewrite <- (fast_get_KN_congr q q0 fast Eqq) in E1. congruence.
      * (* a fresh number *)
        exists (fast1 ++ [(KN q0, ent)]). split; [reflexivity|]. split.
        -- intros t. rewrite fast_get_app, HS1. cbn [fast_get skey_eqb].
           destruct (fast_get (KS t) fast); [reflexivity|]. cbn [or_else]. destruct (str_eqb t t0); reflexivity.
        -- intros q. rewrite fast_get_app, HN1. cbn [fast_get skey_eqb]. reflexivity.
    + (* not a number *)
      exists fast1. split; [reflexivity|]. split; [exact HS1|].
      intros q. rewrite HN1. destruct (fast_get (KN q) fast); reflexivity.
Qed.

Lemma fast_inv_lit t0 ent fast fast' :
  fast_inv fast ->
  (forall t, fast_get (KS t) fast' = or_else (fast_get (KS t) fast) (lit_ks t0 ent t)) ->
  (forall q, fast_get (KN q) fast' = or_else (fast_get (KN q) fast) (lit_kn t0 ent q)) ->
  fast_inv fast'.
Proof.
  intros Hinv HS HN t e q Ht Hp. rewrite HN. rewrite HS in Ht.
  destruct (fast_get (KS t) fast) as [e1|] eqn:Et.
  - pose proof (Hinv t e1 q Et Hp) as Hq. destruct (fast_get (KN q) fast); [discriminate|contradiction].
  - cbn [or_else] in Ht. unfold lit_ks in Ht. destruct (str_eqb t t0) eqn:Ett; [|discriminate].
    apply str_eqb_spec in Ett. subst t.
    unfold lit_kn. rewrite Hp, num_eqb_refl. destruct (fast_get (KN q) fast); discriminate.
Qed.

Lemma store_key_lit k v fast unres s0 :
  node_as_str k = Some s0 -> fast_inv fast ->
  exists fast',
    store_key k v (fast, unres) = (fast', unres) /\ fast_inv fast' /\
    (forall t, fast_get (KS t) fast' = or_else (fast_get (KS t) fast) (lit_ks (strip s0) (length unres, v) t)) /\
    (forall q, fast_get (KN q) fast' = or_else (fast_get (KN q) fast) (lit_kn (strip s0) (length unres, v) q)).
Proof.
  intros Hk Hinv. destruct (store_key_lit_tables k v fast unres s0 Hk Hinv) as (fast' & H1 & HS & HN).
  exists fast'. split; [exact H1|]. split; [exact (fast_inv_lit _ _ _ _ Hinv HS HN)|]. split; assumption.
Qed.

Lemma store_key_unres k v fast unres :
  node_as_str k = None -> store_key k v (fast, unres) = (fast, unres ++ [(k, v)]).
Proof. intros Hk. unfold store_key. rewrite Hk. reflexivity. Qed.

Definition store_all (kvs : list (node * node)) (st : sw_state) : sw_state :=
  fold_left (fun s kv => store_key (fst kv) (snd kv) s) kvs st.

Lemma store_all_app a b st : store_all (a ++ b) st = store_all b (store_all a st).
Proof. apply fold_left_app. Qed.

Fixpoint unres_of (kvs : list (node * node)) : list (node * node) :=
  match kvs with
  | [] => []
  | (k, v) :: r => match node_as_str k with Some _ => unres_of r | None => (k, v) :: unres_of r end
  end.

Lemma unres_of_app a b : unres_of (a ++ b) = unres_of a ++ unres_of b.
Proof.
  induction a as [|[k v] a IH]; [reflexivity|]. cbn [app unres_of]. destruct (node_as_str k); [exact IH|].
  rewrite IH. reflexivity.
Qed.

(* first literal key with text t / with a value numerically equal to q; u = unresolved keys seen so far *)
Fixpoint find_ks (t : str) (kvs : list (node * node)) (u : nat) : option entry :=
  match kvs with
  | [] => None
  | (k, v) :: r => match node_as_str k with
                   | Some s0 => if str_eqb t (strip s0) then Some (u, v) else find_ks t r u
                   | None => find_ks t r (S u)
                   end
  end.

Fixpoint find_kn (q : num) (kvs : list (node * node)) (u : nat) : option entry :=
  match kvs with
  | [] => None
  | (k, v) :: r => match node_as_str k with
                   | Some s0 => match parse_num (strip s0) with
                                | Some q0 => if num_eqb q q0 then Some (u, v) else find_kn q r u
                                | None => find_kn q r u
                                end
                   | None => find_kn q r (S u)
                   end
  end.

Lemma store_all_spec kvs : forall fast unres,
  fast_inv fast ->
  exists fast',
    store_all kvs (fast, unres) = (fast', unres ++ unres_of kvs) /\ fast_inv fast' /\
    (forall t, fast_get (KS t) fast' = or_else (fast_get (KS t) fast) (find_ks t kvs (length unres))) /\
    (forall q, fast_get (KN q) fast' = or_else (fast_get (KN q) fast) (find_kn q kvs (length unres))).
Proof.
  induction kvs as [|[k v] r IH]; intros fast unres Hinv.
  - exists fast. cbn [store_all fold_left unres_of find_ks find_kn]. rewrite app_nil_r.
    split; [reflexivity|]. split; [exact Hinv|].
    split; intros x; [destruct (fast_get (KS x) fast)|destruct (fast_get (KN x) fast)]; reflexivity.
  - unfold store_all. cbn [fold_left fst snd]. fold (store_all r).
    destruct (node_as_str k) as [s0|] eqn:Hk.
    + destruct (store_key_lit k v fast unres s0 Hk Hinv) as (f1 & E1 & I1 & S1 & N1). rewrite E1.
      destruct (IH f1 unres I1) as (f2 & E2 & I2 & S2 & N2). exists f2.
      cbn [unres_of find_ks find_kn]. rewrite Hk. split; [exact E2|]. split; [exact I2|]. split.
      * intros t. rewrite S2, S1, or_else_assoc. f_equal. unfold lit_ks. destruct (str_eqb t (strip s0)); reflexivity.
      * intros q. rewrite N2, N1, or_else_assoc. f_equal. unfold lit_kn.
        destruct (parse_num (strip s0)) as [q0|]; [|reflexivity]. destruct (num_eqb q q0); reflexivity.
    + rewrite (store_key_unres k v fast unres Hk).
      destruct (IH fast (unres ++ [(k, v)]) Hinv) as (f2 & E2 & I2 & S2 & N2). exists f2.
      cbn [unres_of find_ks find_kn]. rewrite Hk.
      rewrite app_length, Nat.add_1_r in S2, N2. rewrite <- app_assoc in E2.
      split; [exact E2|]. split; [exact I2|]. split; assumption.
Qed.

Lemma store_all_init kvs :
  exists fast,
    store_all kvs ([], []) = (fast, unres_of kvs) /\
    (forall t, fast_get (KS t) fast = find_ks t kvs 0) /\
    (forall q, fast_get (KN q) fast = find_kn q kvs 0).
Proof.
  destruct (store_all_spec kvs [] [] fast_inv_nil) as (f & E & _ & S & N). exists f.
  split; [exact E|]. split; [exact S|exact N].
Qed.

(* (number of unresolved keys before the first literal key that matches val, its value); sentinel past the end *)
Fixpoint first_literal (val : str) (kvs : list (node * node)) : nat * option node :=
  match kvs with
  | [] => (1%nat, None)
  | (k, v) :: r => match node_as_str k with
                   | Some s0 => if num_aware_eq (strip s0) val then (0%nat, Some v) else first_literal val r
                   | None => let '(p, x) := first_literal val r in (S p, x)
                   end
  end.

Definition pick (t2 t1 : option entry) (sentinel : nat) : nat * option node :=
  match t2 with
  | Some (p, x) => (p, Some x)
  | None => match t1 with
            | Some (p, x) => (p, Some x)
            | None => (sentinel, None)
            end
  end.

Lemma first_literal_spec val kvs : forall u,
  pick (match parse_num val with Some q => find_kn q kvs u | None => None end)
       (find_ks val kvs u)
       (u + S (length (unres_of kvs)))%nat
  = ((u + fst (first_literal val kvs))%nat, snd (first_literal val kvs)).
Proof.
  induction kvs as [|[k v] r IH]; intros u.
  - cbn [find_kn find_ks unres_of first_literal length fst snd]. destruct (parse_num val); reflexivity.
  - cbn [find_kn find_ks unres_of first_literal]. destruct (node_as_str k) as [s0|] eqn:Hk.
    + set (t0 := strip s0). unfold num_aware_eq.
      destruct (parse_num val) as [q|] eqn:Ev.
      * destruct (parse_num t0) as [q0|] eqn:E0.
        -- rewrite (num_eqb_sym q0 q). destruct (num_eqb q q0) eqn:Eq.
           ++ cbn [pick fst snd]. rewrite Nat.add_0_r. reflexivity.
           ++ destruct (str_eqb val t0) eqn:Es.
              { apply str_eqb_spec in Es. subst t0. rewrite <- Es in E0. rewrite Ev in E0. inversion E0; subst q0.
                rewrite num_eqb_refl in Eq. discriminate. }
              exact (IH u).
        -- destruct (str_eqb val t0) eqn:Es.
           { apply str_eqb_spec in Es. rewrite <- Es in E0. congruence. }
           rewrite (str_eqb_sym t0 val), Es. exact (IH u).
      * assert (Hm : (match parse_num t0 with Some _ => str_eqb t0 val | None => str_eqb t0 val end) = str_eqb t0 val)
          by (destruct (parse_num t0); reflexivity).
        rewrite Hm, (str_eqb_sym t0 val). destruct (str_eqb val t0) eqn:Es.
        -- cbn [pick fst snd]. rewrite Nat.add_0_r. reflexivity.
        -- exact (IH u).
    + specialize (IH (S u)). cbn [length]. destruct (first_literal val r) as [p x]. cbn [fst snd] in *.
      replace (u + S (S (length (unres_of r))))%nat with (S u + S (length (unres_of r)))%nat by lia.
      rewrite IH. f_equal. lia.
Qed.

Lemma first_literal_app_nomatch val a k v s0 :
  node_as_str k = Some s0 -> num_aware_eq (strip s0) val = false -> first_literal val (a ++ [(k, v)]) = first_literal val a.
Proof.
  intros Hk Hm. induction a as [|[k1 v1] a IH].
  - cbn [app first_literal]. rewrite Hk, Hm. reflexivity.
  - cbn [app first_literal]. rewrite IH. reflexivity.
Qed.

Lemma find_ks_app t a b : forall u,
  find_ks t (a ++ b) u = or_else (find_ks t a u) (find_ks t b (u + length (unres_of a))).
Proof.
  induction a as [|[k v] a IH]; intros u.
  - cbn [app find_ks unres_of length or_else]. rewrite Nat.add_0_r. reflexivity.
  - cbn [app find_ks unres_of]. destruct (node_as_str k) as [s0|].
    + destruct (str_eqb t (strip s0)); [reflexivity|apply IH].
    + rewrite IH. cbn [length]. rewrite Nat.add_succ_comm. reflexivity.
Qed.

Lemma find_ks_none t kvs :
  (forall k v s0, In (k, v) kvs -> node_as_str k = Some s0 -> strip s0 <> t) -> forall u, find_ks t kvs u = None.
Proof.
  induction kvs as [|[k v] r IH]; intros H u; [reflexivity|]. cbn [find_ks].
  destruct (node_as_str k) as [s0|] eqn:Hk.
  - destruct (str_eqb t (strip s0)) eqn:E.
    + apply str_eqb_spec in E. exfalso. apply (H k v s0 (or_introl eq_refl) Hk). congruence.
    + apply IH. intros k1 v1 s1 Hin. apply (H k1 v1 s1). right. exact Hin.
  - apply IH. intros k1 v1 s1 Hin. apply (H k1 v1 s1). right. exact Hin.
Qed.

(* what NSwitch computes from the tables built from kvs: (pos, ret0) = first_literal val kvs *)
Lemma switch_tables kvs :
  exists fast,
    store_all kvs ([], []) = (fast, unres_of kvs) /\
    (forall t, fast_get (KS t) fast = find_ks t kvs 0) /\
    forall val,
      pick (match parse_num val with Some q => fast_get (KN q) fast | None => None end)
           (fast_get (KS val) fast) (S (length (unres_of kvs))) = first_literal val kvs.
Proof.
  destruct (store_all_init kvs) as (fast & E & S & N). exists fast. split; [exact E|]. split; [exact S|].
  intros val. rewrite S.
  assert (Hn : match parse_num val with Some q => fast_get (KN q) fast | None => None end =
               match parse_num val with Some q => find_kn q kvs 0 | None => None end)
    by (destruct (parse_num val); [apply N|reflexivity]).
  rewrite Hn. pose proof (first_literal_spec val kvs 0%nat) as H. cbn [Nat.add] in H. rewrite H.
  destruct (first_literal val kvs); reflexivity.
Qed.
