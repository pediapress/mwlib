(* C04, interior white space of compared values.
   Parser._strip_ws (templ/parser.py:105-117; Model.v strip_ws_node) produces the comparison value of #switch and the condition
   of #if from the parsed tuple.  It may drop a white-space-only string at the FRONT and at the BACK of the tuple - nothing else:
   every element strictly between the first and the last one is kept, in order, whatever it is (in particular the blank or the
   newline between two parameters / calls, `{{{1}}} {{{2}}}`). *)
From Coq Require Import List NArith ZArith Bool Lia Arith.
From MW Require Import Common.Str C03.Model C03.Proofs C04.Model C04.ProofsSwitch C04.Proofs.
Import ListNotations.

Lemma drop_front_cons a r : exists pre, drop_front (a :: r) = pre ++ r /\ (pre = [a] \/ pre = []).
Proof.
  destruct a as [s| |l0|l0|nm l0|l0|l0|v l0].
  2-8: (eexists [_]; split; [reflexivity|left; reflexivity]).
  cbn [drop_front]. destruct (is_blank s).
  - exists []. split; [reflexivity|right; reflexivity].
  - exists [NStr s]. split; [reflexivity|left; reflexivity].
Qed.

Lemma drop_back_snoc r z : exists post, drop_back (r ++ [z]) = r ++ post /\ (post = [z] \/ post = []).
Proof.
  unfold drop_back. rewrite rev_app_distr. cbn [rev app].
  destruct z as [s| |l0|l0|nm l0|l0|l0|v l0].
  2-8: (eexists [_]; split; [reflexivity|left; reflexivity]).
  destruct (is_blank s).
  - exists []. split; [rewrite rev_involutive, app_nil_r; reflexivity|right; reflexivity].
  - exists [NStr s]. split; [reflexivity|left; reflexivity].
Qed.

Lemma strip_ws_front_back a m z :
  exists pre post,
    strip_ws_node (NSeq (a :: m ++ [z])) = NSeq (pre ++ m ++ post) /\
    (pre = [a] \/ pre = []) /\ (post = [z] \/ post = []).
Proof.
  rewrite strip_ws_node_seq.
  destruct (drop_front_cons a (m ++ [z])) as (pre & -> & Hpre).
  rewrite app_assoc.
  destruct (drop_back_snoc (pre ++ m) z) as (post & -> & Hpost).
  exists pre, post. rewrite <- app_assoc. split; [reflexivity|split; assumption].
Qed.

(* when neither end is a blank string the tuple is returned unchanged *)
Lemma strip_ws_identity l :
  (match l with NStr s :: _ => is_blank s = false | _ => True end) ->
  (match rev l with NStr s :: _ => is_blank s = false | _ => True end) ->
  strip_ws_node (NSeq l) = NSeq l.
Proof.
  intros Hf Hb. rewrite strip_ws_node_seq.
  assert (E1 : drop_front l = l).
  { destruct l as [|x r]; [reflexivity|]. destruct x; try reflexivity. cbn [drop_front]. rewrite Hf. reflexivity. }
  rewrite E1. unfold drop_back. destruct (rev l) as [|x r]; [reflexivity|]. destruct x; try reflexivity. rewrite Hb. reflexivity.
Qed.

(* non-vacuity / the class of seeded/C04-7 on both sides: t2 = "{{#switch: {{{1}}} {{{2}}} |a b=spaced|ab=joined|#default=other}}",
   t3 = "x", t4 = "y", t5 = "{{#switch:{{t3}}<newline>{{t4}}|xy=glued|x<newline>y=apart}}",
   t6 = "{{#ifeq:{{{1}}} {{{2}}}|a b|same|different}}"; the page
   "{{t2|a|b}}/{{t2|ab|}}/{{t2|x|y}}/{{t5}}/{{t6|a|b}}/{{t6|ab|}}" gives "spaced/joined/other/apart/same/different" by the
   reference semantics and by the model of the implementation. *)
Definition sp : str := [32%N].
Definition exw_u : universe :=
  [([116;50]%N,
    [Switch [Text sp; Param [49%N] None; Text sp; Param [50%N] None; Text sp]
            [([], [Text [97;32;98]%N], [Text [115;112;97;99;101;100]%N]);
             ([], [Text [97;98]%N], [Text [106;111;105;110;101;100]%N])]
            (Some (true, [Text [111;116;104;101;114]%N]))]);
   ([116;51]%N, [Text [120%N]]);
   ([116;52]%N, [Text [121%N]]);
   ([116;53]%N,
    [Switch [Call [116;51]%N []; Text [10%N]; Call [116;52]%N []]
            [([], [Text [120;121]%N], [Text [103;108;117;101;100]%N]);
             ([], [Text [120;10;121]%N], [Text [97;112;97;114;116]%N])]
            None]);
   ([116;54]%N,
    [IfEq [Param [49%N] None; Text sp; Param [50%N] None] [Text [97;32;98]%N] [Text [115;97;109;101]%N]
          (Some [Text [100;105;102;102;101;114;101;110;116]%N])])].
Definition exw_page : list ast :=
  [Call [116;50]%N [(None, [Text [97%N]]); (None, [Text [98%N]])]; Text [47%N];
   Call [116;50]%N [(None, [Text [97;98]%N]); (None, [])]; Text [47%N];
   Call [116;50]%N [(None, [Text [120%N]]); (None, [Text [121%N]])]; Text [47%N];
   Call [116;53]%N []; Text [47%N];
   Call [116;54]%N [(None, [Text [97%N]]); (None, [Text [98%N]])]; Text [47%N];
   Call [116;54]%N [(None, [Text [97;98]%N]); (None, [])]].
Definition exw_out : str :=
  [115;112;97;99;101;100;47;106;111;105;110;101;100;47;111;116;104;101;114;47;97;112;97;114;116;47;115;97;109;101;47;
   100;105;102;102;101;114;101;110;116]%N.

Lemma example_interior_ws_program :
  wfl exw_page = true /\ forallb (fun t => wfl (snd t)) exw_u = true /\ dn_ok [default_key] /\
  evals 10 exw_u [] exw_page = Some exw_out /\
  impl_expand exw_u [default_key] 100 exw_page = Ok exw_out.
Proof. split; [|split; [|split; [exact dn_ok_default|]]]; vm_compute; repeat split. Qed.

(* A simplified helper: delete EVERY white-space-only string of the tuple, not only the first
   and the last.  Harmless for #if (only emptiness matters), wrong for #switch: the model of the implementation with this helper
   returns the case xy of t5 = {{#switch:{{t3}}<newline>{{t4}}|xy=glued|x<newline>y=apart}}, the reference semantics (and the
   model with the real helper) the case x<newline>y. *)
Definition strip_ws_all_node (n : node) : node :=
  match n with
  | NStr s => NStr (strip s)
  | NSeq l => NSeq (filter (fun x => match x with NStr s => negb (is_blank s) | _ => true end) l)
  | _ => n
  end.

(* t5's body parsed with the real helper and with the simplified one *)
Definition exw_switch : ast :=
  Switch [Call [116;51]%N []; Text [10%N]; Call [116;52]%N []]
         [([], [Text [120;121]%N], [Text [103;108;117;101;100]%N]);
          ([], [Text [120;10;121]%N], [Text [97;112;97;114;116]%N])] None.
Definition swap_value (f : node -> node) (n : node) : node :=
  match n with NSwitch _ args => NSwitch (f (NSeq [NTpl (NStr [116;51]%N) []; NStr [10%N]; NTpl (NStr [116;52]%N) []])) args | _ => n end.
