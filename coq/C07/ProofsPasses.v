(* C07 — passes that only use the proved idioms keep the tree proper and the visible words, end to end,
   on the generic pass model of C07/ModelPasses.v; composition of any list of such passes.

   REAL PASSES (treecleaner.py) that are instances of `edit_pass act ret`
   (copy iteration `for child in node.children[:]`, `and node.parent` guard, edit of the visited node):
     remove_list_only_paragraphs 437-454   ADissolve, ret=false; act = Paragraph whose children are all ItemLists
                                           (Paragraph carries no words of its own: hypothesis Hdis)
     remove_textless_styles     1181-1200  ADissolve if children else APrune, `return`; act = style node whose
                                           display text is blank (=> no words below it: Hdis and Hprune hold)
     remove_invisible_links     1202-1216  APrune + return; CategoryLink/LangLink without colon (Hprune holds iff
                                           the harness does not count their target as visible words)
     remove_empty_sections      1528-1561  APrune + return: instance of the MODEL (termination, WF), but Hprune
                                           fails for a Section that has only its caption (len(children)==1,
                                           tested at 1529 in _remove_empty_sections, is removed even when the
                                           caption has text): lossy by design
     remove_no_print_nodes      1081-1097  only its else-branch (no named refs) is APrune + return; lossy by design
   fix_paragraphs 749-771 (adjacent move_to) is covered by C06.Proofs (fix_paragraphs_safe below), and the
   `while changed` loop of remove_breaking_returns 725-739 by br_loop_keeps_words below.
   NOT instances, and why:
     remove_empty_text_nodes 412-435, simplify_block_nodes 1164-1179, fix_sub_sup 1772-1781,
     remove_broken_children 574-594, remove_edit_links 1783-1789, remove_see_also 1791-1810,
     remove_critical_tables 489-507:  iterate over the LIVE list
       (`for child in node.children:` / `for child in node:`) while the child removes or dissolves itself
       (the element that moves into the freed index is skipped);
     remove_childless_nodes 470-485, remove_train_templates 1857-1868: remove an ANCESTOR of the visited node
       (the enclosing Table for the latter), then the iteration goes on;
     remove_scroll_elements 1738-1761: continues from the parent after the dissolve;
     clean_section_captions, fix_preformatted, fix_list_nesting, fix_item_lists, build_def_lists, ...:
       create new nodes.
   remove_leading_para_in_list 1490-1499, restrict_children 1153-1162 and remove_empty_training_table_rows
   1519-1526 edit a CHILD of the visited node: they are instances of `child_pass`, C07/ProofsPasses2.v, which
   also classifies every cleaner method. *)
From Coq Require Import List NArith Bool Arith Lia.
From MW Require Import C05.Heap C05.TreeOps C05.ProofsApi C06.Model C06.ModelNav C07.ModelPasses C07.ModelPasses2.
From MW Require Import C07.Proofs C06.Proofs C06.ProofsNav.
Import ListNotations.

Lemma kids_fold_set_parent : forall q news h x,
  kids (fold_left (fun hh n => set_parent hh n q) news h) x = kids h x.
Proof.
  intros q news. induction news as [|a l IH]; intros h x; simpl; [reflexivity|].
  rewrite IH. apply kids_set_parent.
Qed.

Lemma kids_replace_child_other : forall h p c news h1 x, replace_child h p c news = Ok h1 ->
  x <> p -> kids h1 x = kids h x.
Proof.
  intros h p c news h1 x H Hn. unfold replace_child in H.
  destruct (index_of c (kids h p)); [|discriminate]. inversion H; subst h1.
  rewrite kids_fold_set_parent, kids_set_parent. apply kids_set_kids_other. exact Hn.
Qed.

Lemma in_idsl : forall x ts j, In x ts -> In j (ids x) -> In j (idsl ts).
Proof. intros x ts j Hx Hj. unfold idsl. apply in_flat_map. exists x. auto. Qed.

Lemma ids_child_le : forall x ts, In x ts -> length (ids x) <= length (idsl ts).
Proof.
  intros x ts. induction ts as [|y r IH]; intros H; [contradiction|].
  rewrite idsl_cons, app_length. destruct H as [->|H]; [lia|]. specialize (IH H). lia.
Qed.

Lemma par_outside : forall h t c s p, repr h None t -> NoDup (ids t) -> t_find c t = Some s ->
  par h c = Some p -> In p (ids t) /\ In c (kids h p) /\ ~ In p (ids s) /\ c <> tid t.
Proof.
  intros h t c s p Hr Hnd F Hp.
  destruct (par_in_tree _ _ _ _ Hr (t_find_in _ _ _ F) Hp) as [Hpt Hc].
  pose proof (parent_outside _ _ _ _ _ _ Hr Hnd Hpt Hc F). pose proof (child_not_root _ _ _ _ Hr Hpt Hc). auto.
Qed.

Lemma children_facts : forall h t n ts q,
  repr h None t -> t_find n t = Some (T n ts) -> repr h q (T n ts) ->
  Forall (fun s => t_find (tid s) t = Some s /\ par h (tid s) = Some n) ts.
Proof.
  intros h t n ts q Hr F Hq. rewrite Forall_forall. intros x Hx.
  pose proof (repr_child _ _ _ _ _ Hq Hx) as Hrx. split.
  - eapply find_by_repr; [exact Hr | | exact Hrx].
    eapply t_find_incl; [exact F|]. rewrite ids_eq. right.
    eapply in_idsl; [exact Hx | apply tid_in_ids].
  - apply (repr_root_par h (Some n) x). exact Hrx.
Qed.

Definition tc_closed (I : heap -> Prop) : Prop := forall h h', same_tc h h' -> I h -> I h'.

(* (h', t') comes from the proper tree t of h by edits at the nodes `sub` whose receiver is in sub or is m:
   still a proper tree with the same root and words; nodes outside sub survive; cells outside sub and m are
   untouched *)
Definition edited (h : heap) (t : tree) (sub : list N) (m : option N) (h' : heap) (t' : tree) : Prop :=
  repr h' None t' /\ NoDup (ids t') /\ tid t' = tid t /\ same_tc h h' /\
  words_t h t' = words_t h t /\
  (forall x, In x (ids t) -> ~ In x sub -> In x (ids t')) /\
  (forall i, ~ In i sub -> m <> Some i -> get h' i = get h i).

Definition vres (h : heap) (t : tree) (sub : list N) (m : option N) (h' : heap) : Prop :=
  exists t', edited h t sub m h' t'.

Lemma edited_refl : forall h t sub m, repr h None t -> NoDup (ids t) -> edited h t sub m h t.
Proof.
  intros h t sub m Hr Hnd. split; [exact Hr|]. split; [exact Hnd|]. split; [reflexivity|].
  split; [apply same_tc_refl|]. split; [reflexivity|]. split; [intros x Hx _; exact Hx | reflexivity].
Qed.

Lemma edited_weaken : forall h t sub m sub' m' h' t', edited h t sub m h' t' ->
  incl sub sub' -> (forall i, m = Some i -> m' = Some i \/ In i sub') -> edited h t sub' m' h' t'.
Proof.
  intros h t sub m sub' m' h' t' (R & N' & T' & S' & W & Sv & Fr) Hs Hm.
  split; [exact R|]. split; [exact N'|]. split; [exact T'|]. split; [exact S'|]. split; [exact W|]. split.
  - intros x Hx Hn. apply Sv; [exact Hx|]. intro K. apply Hn, Hs, K.
  - intros i Hn Hmi. apply Fr.
    + intro K. apply Hn, Hs, K.
    + intro K. destruct (Hm i K) as [K'|K']; [exact (Hmi K') | exact (Hn K')].
Qed.

Lemma edited_trans : forall h t sub m h1 t1 h2 t2,
  edited h t sub m h1 t1 -> edited h1 t1 sub m h2 t2 -> edited h t sub m h2 t2.
Proof.
  intros h t sub m h1 t1 h2 t2 (R1 & N1 & T1 & S1 & W1 & Sv1 & Fr1) (R2 & N2 & T2 & S2 & W2 & Sv2 & Fr2).
  split; [exact R2|]. split; [exact N2|]. split; [congruence|].
  split; [eapply same_tc_trans; eassumption|]. split; [|split].
  - rewrite <- W1, <- (words_t_same_tc h h1 t1 S1), <- W2. symmetry. apply words_t_same_tc. exact S1.
  - intros x Hx Hn. apply Sv2; [apply Sv1; assumption | exact Hn].
  - intros i Hn Hmi. rewrite (Fr2 i Hn Hmi). apply Fr1; assumption.
Qed.

Section Gloop.
  Variable I : heap -> Prop.
  Variable v : heap -> N -> outcome.
  Variable Q : heap -> tree -> Prop.          (* what the visitor needs to know about the subtree *)
  Variable m : N.                             (* the node the subtrees hang under *)
  Hypothesis Q_tc : forall h h' s, same_tc h h' -> Q h s -> Q h' s.
  Hypothesis v_ok : forall h t s, I h -> repr h None t -> NoDup (ids t) ->
    t_find (tid s) t = Some s -> par h (tid s) = Some m -> Q h s ->
    exists h', v h (tid s) = Done h' /\ I h' /\ vres h t (ids s) (Some m) h'.

  Lemma gloop_ok : forall ss h t,
    I h -> repr h None t -> NoDup (ids t) -> NoDup (idsl ss) -> ~ In m (idsl ss) ->
    Forall (fun s => t_find (tid s) t = Some s /\ par h (tid s) = Some m /\ Q h s) ss ->
    exists h', vloop v h (map tid ss) = Done h' /\ I h' /\ vres h t (idsl ss) (Some m) h'.
  Proof.
    induction ss as [|s1 rest IH]; intros h t HI Hr Hnd Hnds Hm Hall.
    - exists h. split; [reflexivity|]. split; [exact HI|]. exists t. apply edited_refl; assumption.
    - inversion Hall as [|? ? (F1 & P1 & Q1) Hrest]; subst.
      rewrite idsl_cons in Hnds, Hm.
      destruct (v_ok h t s1 HI Hr Hnd F1 P1 Q1) as (h1 & V1 & HI1 & t1 & E1).
      pose proof E1 as (R1 & N1 & _ & S1 & _ & Sv1 & Fr1).
      (* the remaining subtrees are untouched, and still found in the new tree *)
      assert (Hrest1 : Forall (fun s => t_find (tid s) t1 = Some s /\ par h1 (tid s) = Some m /\
                                        Q h1 s) rest).
      { rewrite Forall_forall in *. intros s Hs. destruct (Hrest s Hs) as (F & P & Qs).
        assert (Hfr : forall i, In i (ids s) -> get h1 i = get h i).
        { intros i Hi. apply Fr1.
          - intro K. eapply NoDup_app_disj; [exact Hnds | exact K |]. eapply in_idsl; eassumption.
          - intro K. inversion K; subst i. apply Hm. apply in_or_app. right.
            eapply in_idsl; eassumption. }
        destruct (t_find_repr _ _ _ _ _ Hr F) as [q Hq].
        assert (Hq1 : repr h1 q s) by (eapply repr_frame; eassumption).
        split; [|split].
        - eapply find_by_repr; [exact R1 | | exact Hq1].
          apply Sv1; [eapply t_find_in; eassumption|].
          intro K. eapply NoDup_app_disj; [exact Hnds | exact K |].
          eapply in_idsl; [eassumption | apply tid_in_ids].
        - unfold par. rewrite (Hfr (tid s) (tid_in_ids s)). exact P.
        - eapply Q_tc; eassumption. }
      destruct (IH h1 t1 HI1 R1 N1 (NoDup_app_r _ _ Hnds)
                   (fun K => Hm (in_or_app _ _ _ (or_intror K))) Hrest1)
        as (h' & V2 & HI2 & t' & E2).
      exists h'. split; [simpl; rewrite V1; exact V2|]. split; [exact HI2|].
      exists t'. rewrite idsl_cons. apply (edited_trans h t _ _ h1 t1).
      + apply (edited_weaken _ _ _ _ _ _ _ _ E1); [apply incl_appl, incl_refl | auto].
      + apply (edited_weaken _ _ _ _ _ _ _ _ E2); [apply incl_appr, incl_refl | auto].
  Qed.
End Gloop.

(* one edit of a child c of a node p:
   p.replace_child(c, c.children) / p.remove_child(c) *)
(* what the edit needs: a dissolved child has no words of its own, a removed child no words below it *)
Definition eQ (d : bool) (h : heap) (s : tree) : Prop :=
  if d then textof h (tid s) = [] else words_t h s = [].

Lemma eQ_tc : forall d h h' s, same_tc h h' -> eQ d h s -> eQ d h' s.
Proof.
  intros d h h' s S H. unfold eQ in *. destruct d.
  - destruct (S (tid s)) as [Et _]. rewrite Et. exact H.
  - rewrite (words_t_same_tc h h' s S). exact H.
Qed.

(* after a dissolve the subtrees of the child hang under p, and the child keeps its (stale) children list *)
Lemma edit1_ok : forall (I : heap -> Prop), tc_closed I -> forall d p h t s,
  I h -> repr h None t -> NoDup (ids t) -> t_find (tid s) t = Some s -> par h (tid s) = Some p ->
  eQ d h s ->
  exists h' t', edit1 d p h (tid s) = Done h' /\ I h' /\ edited h t (ids s) (Some p) h' t' /\
    (d = true -> kids h' (tid s) = kids h (tid s) /\
                 Forall (fun x => t_find (tid x) t' = Some x /\ par h' (tid x) = Some p) (tkids s)).
Proof.
  intros I Ic d p h t s HI Hr Hnd F Hp HQ.
  destruct s as [c ts]. cbn [tid tkids] in *.
  destruct (par_outside _ _ _ _ _ Hr Hnd F Hp) as (Hpt & Hc & Hps & Hne).
  pose proof (t_find_NoDup _ _ _ Hnd F) as Hnds.
  rewrite ids_eq in Hnds. apply NoDup_cons_iff in Hnds. destruct Hnds as [Hn_ts Hnd_ts].
  assert (Hroots : forall j, In j (map tid ts) -> In j (idsl ts)) by (intro j; apply tids_incl).
  unfold edit1, eQ in *. cbn [tid] in HQ. destruct d.
  - destruct (dissolve_repr h t p c ts Hr Hnd Hpt Hc F) as (h1 & D1 & D2 & D3 & Dn & Gc & Go).
    rewrite D1.
    pose proof (same_tc_replace_child _ _ _ _ _ D1) as S1.
    pose proof (ids_dissolve t c ts Hnd Hne F) as Eids.
    assert (Sv : forall x, In x (ids t) -> x <> c -> In x (ids (t_replace c ts t))).
    { intros x Hx Hn. rewrite Eids. apply in_in_remove; assumption. }
    exists h1, (t_replace c ts t). split; [reflexivity|]. split; [exact (Ic _ _ S1 HI)|]. split.
    + split; [exact D2|]. split; [exact D3|]. split; [apply tid_t_replace|]. split; [exact S1|].
      split; [exact (words_dissolve h t c ts Hnd Hne F HQ)|]. split.
      * intros x Hx Hn. apply Sv; [exact Hx|]. intro K. subst x. apply Hn. rewrite ids_eq. left. reflexivity.
      * intros i Hn Hpi. apply Go.
        -- intro K. subst i. apply Hpi. reflexivity.
        -- intro K. subst i. apply Hn. rewrite ids_eq. left. reflexivity.
        -- intro K. apply Hn. rewrite ids_eq. right. apply Hroots. exact K.
    + intros _. split; [unfold kids; rewrite Gc; destruct (get h c); reflexivity|].
      rewrite Forall_forall in *. intros x Hx. pose proof (Dn x Hx) as Hrx. split.
      * eapply find_by_repr; [exact D2 | | exact Hrx].
        assert (Hxs : In (tid x) (idsl ts)) by (eapply in_idsl; [exact Hx | apply tid_in_ids]).
        apply Sv; [|intro K; apply Hn_ts; rewrite <- K; exact Hxs].
        eapply t_find_incl; [exact F|]. rewrite ids_eq. right. exact Hxs.
      * apply (repr_root_par h1 (Some p) x). exact Hrx.
  - destruct (remove_child_repr h t p c Hr Hnd Hpt Hc) as (h1 & R1 & R2 & R3 & _).
    rewrite R1.
    pose proof (same_tc_remove_child _ _ _ _ R1) as S1.
    destruct (ids_remove_block t c (T c ts) Hnd Hne F) as (A & B & E1 & E2).
    exists h1, (t_replace c [] t). split; [reflexivity|]. split; [eapply Ic; eassumption|].
    split; [|discriminate].
    split; [exact R2|]. split; [exact R3|].
    split; [apply tid_t_replace|]. split; [exact S1|]. split; [|split].
    + rewrite words_t_ids in HQ.
      rewrite !words_t_ids, E1, E2, !flat_map_app, HQ. reflexivity.
    + intros x Hx Hn. rewrite E2. rewrite E1 in Hx.
      apply in_app_or in Hx. destruct Hx as [Hx|Hx]; [apply in_or_app; left; exact Hx|].
      apply in_app_or in Hx. destruct Hx as [Hx|Hx]; [contradiction|].
      apply in_or_app. right. exact Hx.
    + intros i Hn Hpi. destruct (remove_child_frame_get _ _ _ _ R1) as [_ Hfr]. apply Hfr.
      * intro K. subst i. apply Hpi. reflexivity.
      * intro K. subst i. apply Hn. rewrite ids_eq. left. reflexivity.
Qed.

(* the traversal: edit at the visited node,
   then return, or visit the nodes its children list names afterwards *)
(* in the heap h1 (tree t1) the children list of n names subtrees ss of t1 that consist of nodes strictly
   below n in s and hang under one node m: the former parent m0 of n, or a node of s *)
Definition kids_below (m0 : option N) (n : N) (s : tree) (h1 : heap) (t1 : tree) : Prop :=
  exists ss m,
    kids h1 n = map tid ss /\ NoDup (n :: idsl ss) /\ incl (idsl ss) (ids s) /\
    (m0 = Some m \/ In m (ids s)) /\ ~ In m (idsl ss) /\
    Forall (fun x => t_find (tid x) t1 = Some x /\ par h1 (tid x) = Some m) ss.

Section Traverse.
  Variable I : heap -> Prop.
  Variable v : nat -> heap -> N -> outcome.
  Variable pre : heap -> N -> outcome.        (* the edits made when the node is visited *)
  Variable desc : heap -> N -> bool.          (* is its children list visited afterwards? *)
  Hypothesis v_S : forall f h n, v (S f) h n =
    match pre h n with
    | Done h1 => if desc h n then vloop (v f) h1 (kids h1 n) else Done h1
    | o => o
    end.
  (* the edits stay at and below n, and leave the children list of n ready to be visited *)
  Hypothesis pre_ok : forall h t n s, I h -> repr h None t -> NoDup (ids t) -> t_find n t = Some s ->
    exists h1 t1, pre h n = Done h1 /\ I h1 /\ edited h t (ids s) (par h n) h1 t1 /\
      (desc h n = true -> kids_below (par h n) n s h1 t1).

  (* fuel = number of nodes below n is enough: the subtrees visited afterwards are made of nodes strictly
     below n *)
  Lemma traverse_ok : forall f h t n s,
    I h -> repr h None t -> NoDup (ids t) -> t_find n t = Some s -> tsize s <= f ->
    exists h', v f h n = Done h' /\ I h' /\ vres h t (ids s) (par h n) h'.
  Proof.
    induction f as [|f IHf]; intros h t n s HI Hr Hnd F Hsz.
    { pose proof (tsize_pos s). lia. }
    destruct (pre_ok h t n s HI Hr Hnd F) as (h1 & t1 & P & HI1 & E1 & Hd).
    rewrite v_S, P. destruct (desc h n).
    2:{ exists h1. split; [reflexivity|]. split; [exact HI1|]. exists t1. exact E1. }
    destruct (Hd eq_refl) as (ss & m & K & Hnds & Hin & Hm & Hmss & Hall).
    pose proof E1 as (R1 & N1 & _).
    assert (Hlen : length (idsl ss) < tsize s).
    { rewrite tsize_ids. apply (NoDup_incl_length Hnds). intros x [<-|Hx]; [|apply Hin; exact Hx].
      destruct (t_find_some _ _ _ F) as [<- _]. apply tid_in_ids. }
    apply NoDup_cons_iff in Hnds. destruct Hnds as [_ Hnd_ss].
    assert (Hall' : Forall (fun x => t_find (tid x) t1 = Some x /\ par h1 (tid x) = Some m /\
                                     tsize x <= f) ss).
    { rewrite Forall_forall in *. intros x Hx. destruct (Hall x Hx) as [A B].
      split; [exact A|]. split; [exact B|]. rewrite tsize_ids. pose proof (ids_child_le x ss Hx). lia. }
    assert (Vok : forall h0 t0 s0, I h0 -> repr h0 None t0 -> NoDup (ids t0) ->
                    t_find (tid s0) t0 = Some s0 -> par h0 (tid s0) = Some m -> tsize s0 <= f ->
                    exists h', v f h0 (tid s0) = Done h' /\ I h' /\ vres h0 t0 (ids s0) (Some m) h').
    { intros h0 t0 s0 A B C D E G. destruct (IHf h0 t0 (tid s0) s0 A B C D G) as (h' & X & Y & Z).
      rewrite E in Z. exists h'. auto. }
    destruct (gloop_ok I (v f) (fun _ x => tsize x <= f) m (fun _ _ _ _ H => H) Vok
                       ss h1 t1 HI1 R1 N1 Hnd_ss Hmss Hall') as (h2 & V2 & HI2 & t2 & E2).
    exists h2. split; [rewrite K; exact V2|]. split; [exact HI2|]. exists t2.
    apply (edited_trans _ _ _ _ h1 t1); [exact E1|].
    apply (edited_weaken _ _ _ _ _ _ _ _ E2); [exact Hin|].
    intros i Ei. inversion Ei; subst i. exact Hm.
  Qed.
End Traverse.

(* such a traversal started at the root of a proper tree with fuel = number of nodes *)
Lemma root_visit_ok : forall (I : heap -> Prop) (v : nat -> heap -> N -> outcome),
  (forall f h t n s, I h -> repr h None t -> NoDup (ids t) -> t_find n t = Some s -> tsize s <= f ->
     exists h', v f h n = Done h' /\ I h' /\ vres h t (ids s) (par h n) h') ->
  forall h r, I h -> WF h r ->
    exists h', v (pass_fuel h r) h r = Done h' /\ I h' /\ WF h' r /\ words h' r = words h r /\ same_tc h h'.
Proof.
  intros I v Hv h r HI (t & Ht & Hr & Hnd). subst r.
  unfold pass_fuel. rewrite (build_complete h None t Hr Hnd).
  destruct (Hv (tsize t) h t (tid t) t HI Hr Hnd (t_find_root t) (le_n _))
    as (h' & V & HI' & t' & R & N' & T' & S' & W & _ & _).
  exists h'. split; [exact V|]. split; [exact HI'|]. split; [|split; [|exact S']].
  - exists t'. auto.
  - rewrite <- T' at 1. rewrite (words_of_repr h' t' R N'), (words_of_repr h t Hr Hnd).
    rewrite (words_t_same_tc h h' t' S'). exact W.
Qed.

Section PassOk.
  Variable act : heap -> N -> action.
  Variable ret : bool.
  Variable I : heap -> Prop.                       (* facts about classes / own words, e.g. "Paragraphs have no own words" *)
  Hypothesis I_closed : tc_closed I.
  (* a dissolved node has no words of its own; a pruned node has no words below it *)
  Hypothesis Hdis : forall h n, I h -> act h n = ADissolve -> textof h n = [].
  Hypothesis Hprune : forall h n, I h -> act h n = APrune -> words h n = [].

  (* visit: the edit is made by the parent p of the visited node n *)
  Definition vpre (h : heap) (n : N) : outcome :=
    match par h n with
    | None => Done h
    | Some p => match act h n with
                | AKeep => Done h
                | ADissolve => edit1 true p h n
                | APrune => edit1 false p h n
                end
    end.
  Definition vdesc (h : heap) (n : N) : bool :=
    match par h n with
    | None => true
    | Some _ => match act h n with AKeep => true | ADissolve => negb ret | APrune => false end
    end.

  Lemma visit_S : forall f h n, visit act ret (S f) h n =
    match vpre h n with
    | Done h1 => if vdesc h n then vloop (visit act ret f) h1 (kids h1 n) else Done h1
    | o => o
    end.
  Proof.
    intros f h n. unfold vpre, vdesc, edit1. simpl visit.
    destruct (par h n) as [p|]; [|reflexivity].
    destruct (act h n); [reflexivity| |].
    - destruct (replace_child h p n (kids h n)); [|reflexivity]. destruct ret; reflexivity.
    - destruct (remove_child h p n); reflexivity.
  Qed.

  Lemma visit_ok_all : forall f h t n s,
    I h -> repr h None t -> NoDup (ids t) -> t_find n t = Some s -> tsize s <= f ->
    exists h', visit act ret f h n = Done h' /\ I h' /\ vres h t (ids s) (par h n) h'.
  Proof.
    apply (traverse_ok I (visit act ret) vpre vdesc visit_S).
    intros h t n s HI Hr Hnd F.
    destruct (t_find_some _ _ _ F) as [Etid _].
    destruct s as [n' ts]. simpl in Etid. subst n'.
    destruct (t_find_repr _ _ _ _ _ Hr F) as [q Hq].
    pose proof (repr_kids _ _ _ _ Hq) as Hk.
    pose proof (t_find_NoDup _ _ _ Hnd F) as Hnds. rewrite ids_eq in Hnds.
    assert (Hn_ts : ~ In n (idsl ts)) by (inversion Hnds; assumption).
    unfold vpre, vdesc. remember (par h n) as m0 eqn:Hm0.
    (* a kept node: nothing is edited, its subtrees hang under it *)
    assert (Keep : exists h1 t1, Done h = Done h1 /\ I h1 /\ edited h t (ids (T n ts)) m0 h1 t1 /\
              (true = true -> kids_below m0 n (T n ts) h1 t1)).
    { exists h, t. split; [reflexivity|]. split; [exact HI|]. split; [apply edited_refl; assumption|].
      intros _. exists ts, n. split; [exact Hk|]. split; [exact Hnds|].
      split; [rewrite ids_eq; apply incl_tl, incl_refl|].
      split; [right; rewrite ids_eq; left; reflexivity|]. split; [exact Hn_ts|].
      eapply children_facts; eassumption. }
    destruct m0 as [p|]; [|exact Keep]. symmetry in Hm0.
    destruct (act h n) eqn:Ha; [exact Keep| |].
    - (* dissolve: the subtrees of n now hang under p *)
      destruct (edit1_ok I I_closed true p h t (T n ts) HI Hr Hnd F Hm0 (Hdis h n HI Ha))
        as (h1 & t1 & E & HI1 & Ed & Hx).
      exists h1, t1. split; [exact E|]. split; [exact HI1|]. split; [exact Ed|]. intros _.
      destruct (Hx eq_refl) as [K Hall]. cbn [tid tkids] in K, Hall.
      destruct (par_outside _ _ _ _ _ Hr Hnd F Hm0) as (_ & _ & Hps & _).
      exists ts, p. split; [rewrite K; exact Hk|]. split; [exact Hnds|].
      split; [rewrite ids_eq; apply incl_tl, incl_refl|]. split; [left; reflexivity|].
      split; [intro K'; apply Hps; rewrite ids_eq; right; exact K' | exact Hall].
    - (* prune *)
      assert (HQ : eQ false h (T n ts)).
      { pose proof (Hprune h n HI Ha) as Hw. unfold words in Hw. change n with (tid (T n ts)) in Hw.
        rewrite (build_complete h q (T n ts) Hq) in Hw by (rewrite ids_eq; exact Hnds).
        exact Hw. }
      destruct (edit1_ok I I_closed false p h t (T n ts) HI Hr Hnd F Hm0 HQ)
        as (h1 & t1 & E & HI1 & Ed & _).
      exists h1, t1. split; [exact E|]. split; [exact HI1|]. split; [exact Ed | discriminate].
  Qed.

  (* on a proper tree the pass terminates with fuel = number of nodes, raises
     nothing, leaves a proper tree with the same root and the same visible words *)
  Theorem edit_pass_ok : forall h r, I h -> WF h r ->
    exists h', edit_pass act ret h r = Done h' /\ I h' /\ WF h' r /\ words h' r = words h r /\ same_tc h h'.
  Proof. exact (root_visit_ok I (visit act ret) visit_ok_all). Qed.
End PassOk.

(* a pass is SAFE for the invariant I: on a proper tree it stops (returns or raises), and a normal return
   leaves the invariant, a proper tree with the same root, and the same visible words *)
Definition safe_pass (I : heap -> Prop) (f : heap -> N -> outcome) : Prop :=
  forall h r, I h -> WF h r ->
    f h r <> OutOfFuel /\
    (forall h', f h r = Done h' -> I h' /\ WF h' r /\ words h' r = words h r).

Lemma run_passes_gen : forall (I : heap -> Prop) r (W : list N) ps o,
  Forall (safe_pass I) ps ->
  (o <> OutOfFuel /\ (forall h1, o = Done h1 -> I h1 /\ WF h1 r /\ words h1 r = W)) ->
  let res := fold_left (fun o f => match o with Done h1 => f h1 r | _ => o end) ps o in
  res <> OutOfFuel /\ (forall h1, res = Done h1 -> I h1 /\ WF h1 r /\ words h1 r = W).
Proof.
  intros I r W ps. induction ps as [|f ps IH]; intros o Hall Ho; simpl; [exact Ho|].
  inversion Hall as [|? ? Hf Hps]; subst. apply IH; [exact Hps|].
  destruct Ho as [Ho1 Ho2]. destruct o as [h1| |]; [|split; [discriminate|intros ? K; discriminate]|congruence].
  destruct (Ho2 h1 eq_refl) as (A & B & C). destruct (Hf h1 r A B) as [F1 F2].
  split; [exact F1|]. intros h2 K. destruct (F2 h2 K) as (A2 & B2 & C2).
  split; [exact A2|]. split; [exact B2|]. congruence.
Qed.

(* ANY list of safe passes, run one after the other on the same root, stops, and a normal return leaves a
   proper tree with the same visible words (induction over the list) *)
Theorem run_passes_safe : forall (I : heap -> Prop) ps, Forall (safe_pass I) ps ->
  forall h r, I h -> WF h r ->
    run_passes ps h r <> OutOfFuel /\
    (forall h', run_passes ps h r = Done h' -> I h' /\ WF h' r /\ words h' r = words h r).
Proof.
  intros I ps Hall h r HI Hwf. unfold run_passes.
  apply (run_passes_gen I r (words h r) ps (Done h) Hall).
  split; [discriminate|]. intros h1 K. inversion K; subst h1. auto.
Qed.

Lemma returning_pass_safe : forall (I : heap -> Prop) f,
  (forall h r, I h -> WF h r ->
     exists h', f h r = Done h' /\ I h' /\ WF h' r /\ words h' r = words h r /\ same_tc h h') ->
  safe_pass I f.
Proof.
  intros I f Hok h r HI Hwf. destruct (Hok h r HI Hwf) as (h' & E & A & B & C & _).
  rewrite E. split; [discriminate|]. intros h2 K. inversion K; subst h2. auto.
Qed.

Theorem edit_pass_safe : forall act ret (I : heap -> Prop), tc_closed I ->
  (forall h n, I h -> act h n = ADissolve -> textof h n = []) ->
  (forall h n, I h -> act h n = APrune -> words h n = []) ->
  safe_pass I (edit_pass act ret).
Proof.
  intros act ret I Hc Hd Hp. apply returning_pass_safe. exact (edit_pass_ok act ret I Hc Hd Hp).
Qed.

Lemma fix_paragraphs_same_tc : forall k h r h', fix_paragraphs k h r = Done h' -> same_tc h h'.
Proof.
  induction k as [|k IH]; intros h r h' H; [discriminate|].
  simpl in H. unfold fix_step in H.
  destruct (build (S (length h)) h r) as [t|]; [|discriminate].
  destruct (find_trig h None t) as [[p s]|].
  - destruct (last_opt (kids h s)) as [l|]; [|discriminate].
    destruct (move_to h p l false) as [h1|] eqn:M; [|discriminate].
    eapply same_tc_trans; [eapply same_tc_move_to; exact M | eapply IH; exact H].
  - inversion H; subst. apply same_tc_refl.
Qed.

Theorem fix_paragraphs_safe : forall (I : heap -> Prop), tc_closed I ->
  safe_pass I (fun h r => fix_paragraphs (fp_fuel h r) h r).
Proof.
  intros I Hc h r HI Hwf.
  destruct (C06_fix_paragraphs_terminates h r Hwf) as [T1 T2].
  split; [exact T1|]. intros h' K. destruct (T2 h' K) as [W _].
  split; [eapply Hc; [eapply fix_paragraphs_same_tc; exact K | exact HI]|].
  split; [exact W|]. eapply fix_paragraphs_keeps_words; eassumption.
Qed.

(* remove_breaking_returns' loop:
   removal of wordless leaves.  For ANY way of computing the candidates: if BreakingReturn nodes are
   childless and carry no words, a finished loop has kept the tree proper and the visible words. *)
Lemma br_leaf_remove : forall h p c h1, remove_child h p c = Ok h1 -> br_leaf h -> br_leaf h1.
Proof.
  intros h p c h1 Hrm Hl x Hx.
  destruct (same_tc_remove_child _ _ _ _ Hrm x) as [Et Ec]. rewrite Ec in Hx.
  destruct (Hl x Hx) as [A B]. split; [congruence|].
  destruct (remove_child_frame_get _ _ _ _ Hrm) as [Hck _].
  rewrite (kids_remove_child_other _ _ _ _ x Hrm); [exact B|].
  intro K. subst x. rewrite B in Hck. contradiction.
Qed.

Theorem br_loop_keeps_words : forall (cand : heap -> N -> list N) r k h node h',
  WF h r -> br_leaf h -> br_loop cand k h node = Done h' ->
  WF h' r /\ br_leaf h' /\ words h' r = words h r.
Proof.
  intros cand r k h node h' (t & <- & Hr & Hnd) Hl K.
  destruct (br_loop_done cand node (fun h1 t1 => br_leaf h1 /\ words_t h1 t1 = words_t h t))
    with (k := k) (h := h) (t := t) (h' := h') as (t' & R & N' & T' & L' & W'); auto.
  - (* the removed BreakingReturn is a leaf without words *)
    intros h0 t0 p c h1 t1 [L0 W0] E Hrm _ _ Hw. split; [eapply br_leaf_remove; eassumption|].
    destruct (L0 c E) as [Lt Lk].
    rewrite (words_t_same_tc h0 h1 t1 (same_tc_remove_child _ _ _ _ Hrm)), (Hw (words_leaf h0 c Lk Lt)).
    exact W0.
  - split; [exists t'; auto|]. split; [exact L'|].
    rewrite <- T' at 1. rewrite (words_of_repr h' t' R N'), (words_of_repr h t Hr Hnd). exact W'.
Qed.

(* the loop started at the ROOT with the real navigation functions
   (C06/ModelNav.v); invariant: BreakingReturns are wordless leaves and the root is none *)
Theorem br_root_loop_safe : forall is_block blank,
  safe_pass br_leaf
    (fun h r => if N.eqb (clsof h r) c_BR then Done h
                else br_loop (cand_real is_block blank) (S (count_br h r)) h r).
Proof.
  intros is_block blank h r Hl Hwf. destruct (N.eqb (clsof h r) c_BR) eqn:E.
  - split; [discriminate|]. intros h' K. inversion K; subst h'. auto.
  - apply N.eqb_neq in E.
    destruct (breaking_returns_terminates_real_leaf is_block blank h r r Hwf) as [T1 T2].
    + intros t Ht _. rewrite <- Ht. apply tid_in_ids.
    + intros c Hc. apply (Hl c Hc).
    + exact E.
    + split; [exact T1|]. intros h' K.
      destruct (br_loop_keeps_words _ r _ h r h' Hwf Hl K) as (A & B & C). auto.
Qed.
