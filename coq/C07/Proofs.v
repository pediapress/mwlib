(* C07 — the tree cleaner's idioms keep the visible words.
   Model: C05/Heap.v (heap API, words_t), C05/TreeOps.v (t_find, t_replace, t_insert).
   words_t is a function of the preorder id list; the heap operations never change text or class;
   replacing a subtree replaces its block of preorder ids (removal, the dissolve idiom);
   the adjacent move (_fix_paragraphs); copy-and-split (_fix_nesting).
   Builds on C05 only; C06/Proofs.v reads the part up to ids_move_adjacent (idsl, same_tc, the id blocks). *)
From Coq Require Import List NArith Bool Arith Lia.
From MW Require Import C05.Heap C05.TreeOps C05.ProofsApi.
Import ListNotations.

Definition idsl (ts : list tree) : list N := flat_map ids ts.

Fixpoint f_find (c : N) (l : list tree) : option tree :=
  match l with
  | [] => None
  | x :: r => match t_find c x with Some s => Some s | None => f_find c r end
  end.

Lemma t_find_eq : forall c i ts,
  t_find c (T i ts) = if N.eqb i c then Some (T i ts) else f_find c ts.
Proof. exact ProofsApi.t_find_eq. Qed.

Lemma ids_eq : forall i ts, ids (T i ts) = i :: idsl ts.
Proof. reflexivity. Qed.

Lemma idsl_cons : forall x r, idsl (x :: r) = ids x ++ idsl r.
Proof. reflexivity. Qed.

Lemma idsl_app : forall a b, idsl (a ++ b) = idsl a ++ idsl b.
Proof. intros. unfold idsl. apply flat_map_app. Qed.

Lemma tid_insert : forall tgt b s t, tid (t_insert tgt b s t) = tid t.
Proof. exact tid_t_insert. Qed.

Lemma ids_hd : forall t, ids t = tid t :: idsl (tkids t).
Proof. intros [i ts]. reflexivity. Qed.

Lemma f_find_none : forall c ts, ~ In c (idsl ts) -> f_find c ts = None.
Proof.
  induction ts as [|x r IH]; intros H; [reflexivity|].
  rewrite idsl_cons in H. simpl.
  rewrite t_find_none by (intro; apply H; apply in_or_app; left; assumption).
  apply IH. intro; apply H; apply in_or_app; right; assumption.
Qed.

Lemma NoDup_app_del {A} : forall (a m b : list A), NoDup (a ++ m ++ b) -> NoDup (a ++ b).
Proof.
  intros a m. revert a. induction m as [|x m IH]; intros a b H; [exact H|].
  simpl in H. apply NoDup_remove_1 in H. apply IH. exact H.
Qed.

Lemma nodup_split_unique {A} : forall (a a' r r' : list A) n,
  NoDup (a ++ n :: r) -> a ++ n :: r = a' ++ n :: r' -> a = a' /\ r = r'.
Proof.
  induction a as [|x a IH]; intros a' r r' n Hnd E.
  - destruct a' as [|y a']; simpl in *.
    + inversion E; auto.
    + inversion E; subst. inversion Hnd; subst. exfalso. apply H1.
      apply in_or_app. right. left. reflexivity.
  - destruct a' as [|y a']; simpl in *.
    + inversion E; subst. inversion Hnd; subst. exfalso. apply H1.
      apply in_or_app. right. left. reflexivity.
    + inversion E; subst. inversion Hnd; subst.
      destruct (IH _ _ _ _ H3 H1) as [-> ->]. auto.
Qed.

Lemma words_t_ids : forall h t, words_t h t = flat_map (textof h) (ids t).
Proof.
  intros h t. induction t as [i ts IH] using tree_ind'.
  simpl. f_equal.
  induction ts as [|x r IHr]; [reflexivity|].
  inversion IH as [|? ? Hx Hr]; subst. simpl.
  rewrite flat_map_app. rewrite Hx. f_equal. apply IHr. exact Hr.
Qed.

Lemma words_t_ext : forall h h' t,
  (forall i, textof h' i = textof h i) -> words_t h' t = words_t h t.
Proof.
  intros h h' t H. rewrite !words_t_ids.
  induction (ids t) as [|x l IH]; [reflexivity|]. simpl. rewrite H, IH. reflexivity.
Qed.

Lemma words_t_ids_eq : forall h t t', ids t' = ids t -> words_t h t' = words_t h t.
Proof. intros h t t' H. rewrite !words_t_ids, H. reflexivity. Qed.

Definition same_tc (h h' : heap) : Prop :=
  forall i, textof h' i = textof h i /\ clsof h' i = clsof h i.

Lemma same_tc_refl : forall h, same_tc h h.
Proof. intros h i. auto. Qed.

Lemma same_tc_trans : forall a b c, same_tc a b -> same_tc b c -> same_tc a c.
Proof.
  intros a b c H1 H2 i. destruct (H1 i) as [A B], (H2 i) as [C D].
  split; congruence.
Qed.

Lemma same_tc_set_parent : forall h i p, same_tc h (set_parent h i p).
Proof.
  intros h i p j. unfold set_parent, textof, clsof.
  destruct (get h i) eqn:E; [|auto]. unfold set. simpl.
  destruct (N.eqb j i) eqn:Eq; [|auto]. apply N.eqb_eq in Eq. subst.
  rewrite E. auto.
Qed.

Lemma same_tc_set_kids : forall h i l, same_tc h (set_kids h i l).
Proof.
  intros h i p j. unfold set_kids, textof, clsof.
  destruct (get h i) eqn:E; [|auto]. unfold set. simpl.
  destruct (N.eqb j i) eqn:Eq; [|auto]. apply N.eqb_eq in Eq. subst.
  rewrite E. auto.
Qed.

Lemma same_tc_fold_parent : forall p news h,
  same_tc h (fold_left (fun hh n => set_parent hh n (Some p)) news h).
Proof.
  intros p news. induction news as [|x l IH]; intros h; simpl.
  - apply same_tc_refl.
  - eapply same_tc_trans; [apply same_tc_set_parent | apply IH].
Qed.

Lemma same_tc_append_child : forall h p c, same_tc h (append_child h p c).
Proof.
  intros. unfold append_child.
  eapply same_tc_trans; [apply same_tc_set_kids | apply same_tc_set_parent].
Qed.

Lemma same_tc_replace_child : forall h p c news h',
  replace_child h p c news = Ok h' -> same_tc h h'.
Proof.
  intros h p c news h' H. unfold replace_child in H.
  destruct (index_of c (kids h p)); [|discriminate]. inversion H; subst.
  eapply same_tc_trans; [apply same_tc_set_kids|].
  eapply same_tc_trans; [apply same_tc_set_parent|]. apply same_tc_fold_parent.
Qed.

Lemma same_tc_remove_child : forall h p c h', remove_child h p c = Ok h' -> same_tc h h'.
Proof. intros h p c h'. apply same_tc_replace_child. Qed.

Lemma same_tc_move_to : forall h n tgt b h', move_to h n tgt b = Ok h' -> same_tc h h'.
Proof.
  intros h n tgt b h' H. unfold move_to in H.
  destruct (match par h n with Some p => remove_child h p n | None => Ok h end) as [h1|] eqn:E1;
    [|discriminate].
  assert (S1 : same_tc h h1).
  { destruct (par h n); [eapply same_tc_remove_child; eassumption|].
    inversion E1; subst. apply same_tc_refl. }
  destruct (par h1 tgt); [|discriminate].
  destruct (index_of tgt (kids h1 n0)); [|discriminate]. inversion H; subst.
  eapply same_tc_trans; [exact S1|].
  eapply same_tc_trans; [apply same_tc_set_kids | apply same_tc_set_parent].
Qed.

Lemma textof_append_child : forall h p c i, textof (append_child h p c) i = textof h i.
Proof. intros. apply same_tc_append_child. Qed.
Lemma clsof_append_child : forall h p c i, clsof (append_child h p c) i = clsof h i.
Proof. intros. apply same_tc_append_child. Qed.
Lemma replace_child_frame : forall h p c news h' i,
  replace_child h p c news = Ok h' -> textof h' i = textof h i /\ clsof h' i = clsof h i.
Proof. intros. eapply same_tc_replace_child; eassumption. Qed.
Lemma remove_child_frame : forall h p c h' i,
  remove_child h p c = Ok h' -> textof h' i = textof h i /\ clsof h' i = clsof h i.
Proof. intros. eapply same_tc_remove_child; eassumption. Qed.
Lemma words_t_same_tc : forall h h' t, same_tc h h' -> words_t h' t = words_t h t.
Proof. intros h h' t H. apply words_t_ext. intro i. apply H. Qed.

(* replacing the subtree s rooted at c
   replaces the contiguous block ids s by the ids of the new subtrees *)
Lemma idsl_replace_block : forall c news s ts,
  Forall (fun t => NoDup (ids t) -> c <> tid t -> t_find c t = Some s ->
            exists A B, ids t = A ++ ids s ++ B /\ ids (t_replace c news t) = A ++ idsl news ++ B) ts ->
  NoDup (idsl ts) -> f_find c ts = Some s ->
  exists A B, idsl ts = A ++ ids s ++ B /\ idsl (rep c news ts) = A ++ idsl news ++ B.
Proof.
  induction ts as [|x r IHr]; intros IH Hnd Hf; [discriminate|].
  inversion IH as [|? ? Hx Hr]; subst. rewrite idsl_cons in *.
  rewrite rep_cons, idsl_app.
  simpl in Hf. destruct (t_find c x) as [s'|] eqn:F.
  - inversion Hf; subst s'.
    assert (Hc : In c (ids x)) by (eapply t_find_in; eauto).
    assert (Hnr : ~ In c (idsl r)) by (eapply NoDup_app_disj; eauto).
    rewrite (rep_notin _ _ _ Hnr).
    destruct (N.eqb (tid x) c) eqn:E.
    + destruct x as [xi xs]. simpl in E. apply N.eqb_eq in E. subst xi.
      rewrite t_find_eq, N.eqb_refl in F. inversion F; subst s.
      exists [], (idsl r). split; reflexivity.
    + apply N.eqb_neq in E.
      destruct (Hx (NoDup_app_l _ _ Hnd) (not_eq_sym E) eq_refl) as (A & B & E1 & E2).
      exists A, (B ++ idsl r). rewrite E1. split.
      * rewrite <- !app_assoc. reflexivity.
      * change (idsl [t_replace c news x]) with (ids (t_replace c news x) ++ []).
        rewrite app_nil_r, E2, <- !app_assoc. reflexivity.
  - assert (Hc : ~ In c (ids x)) by (apply t_find_none_inv; assumption).
    assert (E : N.eqb (tid x) c = false).
    { apply N.eqb_neq. intro K. apply Hc. subst c. apply tid_in_ids. }
    rewrite E, (t_replace_notin _ _ _ Hc).
    destruct (IHr Hr (NoDup_app_r _ _ Hnd) Hf) as (A & B & E1 & E2).
    exists (ids x ++ A), B. rewrite E1. split.
    + rewrite <- !app_assoc. reflexivity.
    + change (idsl [x]) with (ids x ++ []). rewrite app_nil_r, E2, <- !app_assoc. reflexivity.
Qed.

Lemma ids_block_unique : forall s A B A' B',
  NoDup (A ++ ids s ++ B) -> A ++ ids s ++ B = A' ++ ids s ++ B' -> A = A' /\ B = B'.
Proof.
  intros s A B A' B'. rewrite ids_hd. simpl. intros Hnd E.
  destruct (nodup_split_unique _ _ _ _ _ Hnd E) as [-> X]. split; [reflexivity | exact (app_inv_head _ _ _ X)].
Qed.

Lemma ids_replace_block : forall t c news s,
  NoDup (ids t) -> c <> tid t -> t_find c t = Some s ->
  exists A B, ids t = A ++ ids s ++ B /\ ids (t_replace c news t) = A ++ idsl news ++ B.
Proof.
  intros t c news s. induction t as [i ts IH] using tree_ind'. intros Hnd Hc Hf.
  simpl in Hc. rewrite t_find_eq in Hf.
  destruct (N.eqb i c) eqn:E; [apply N.eqb_eq in E; congruence|].
  rewrite ids_eq in Hnd. inversion Hnd; subst.
  destruct (idsl_replace_block c news s ts IH H2 Hf) as (A & B & E1 & E2).
  exists (i :: A), B. rewrite t_replace_eq, !ids_eq, E1, E2. split; reflexivity.
Qed.

Lemma ids_remove_block : forall t n s,
  NoDup (ids t) -> n <> tid t -> t_find n t = Some s ->
  exists A B, ids t = A ++ ids s ++ B /\ ids (t_replace n [] t) = A ++ B.
Proof. intros t n s. exact (ids_replace_block t n [] s). Qed.

(* the dissolve idiom  node.parent.replace_child(node, node.children)  ==  t_replace c (children of c):
   only c itself leaves the preorder *)
Lemma ids_dissolve : forall t c cs,
  NoDup (ids t) -> c <> tid t -> t_find c t = Some (T c cs) ->
  ids (t_replace c cs t) = remove N.eq_dec c (ids t).
Proof.
  intros t c cs Hnd Hc Hf.
  destruct (ids_replace_block t c cs (T c cs) Hnd Hc Hf) as (A & B & E1 & E2).
  rewrite E2, E1. rewrite E1 in Hnd. rewrite ids_eq in *.
  change ((c :: idsl cs) ++ B) with (c :: idsl cs ++ B) in *.
  pose proof (NoDup_remove_2 _ _ _ Hnd) as Hn.
  assert (HA : ~ In c A) by (intro K; apply Hn; apply in_or_app; left; exact K).
  assert (HB : ~ In c (idsl cs ++ B)) by (intro K; apply Hn; apply in_or_app; right; exact K).
  rewrite remove_app, remove_cons, (notin_remove _ _ _ HA), (notin_remove _ _ _ HB). reflexivity.
Qed.

Lemma flat_map_remove_nil {B} : forall (f : N -> list B) c l,
  f c = [] -> flat_map f (remove N.eq_dec c l) = flat_map f l.
Proof.
  intros f c l H. induction l as [|x l IH]; [reflexivity|]. simpl.
  destruct (N.eq_dec c x) as [->|K].
  - rewrite H, IH. reflexivity.
  - simpl. rewrite IH. reflexivity.
Qed.

Lemma words_dissolve : forall h t c cs,
  NoDup (ids t) -> c <> tid t -> t_find c t = Some (T c cs) -> textof h c = [] ->
  words_t h (t_replace c cs t) = words_t h t.
Proof.
  intros h t c cs Hnd Hc Hf Ht. rewrite !words_t_ids, (ids_dissolve _ _ _ Hnd Hc Hf).
  apply flat_map_remove_nil. exact Ht.
Qed.

Lemma ids_replace_nil_incl : forall n t, incl (ids (t_replace n [] t)) (ids t).
Proof.
  intros n t. induction t as [i ts IH] using tree_ind'.
  rewrite t_replace_eq, !ids_eq. apply incl_cons; [left; reflexivity|]. apply incl_tl.
  induction ts as [|x r IHr]; [apply incl_refl|].
  inversion IH as [|? ? Hx Hr]; subst.
  rewrite rep_cons, idsl_app, idsl_cons. apply incl_app.
  - destruct (N.eqb (tid x) n); [intros a []|].
    change (idsl [t_replace n [] x]) with (ids (t_replace n [] x) ++ []).
    rewrite app_nil_r. apply incl_appl. exact Hx.
  - apply incl_appr. apply IHr. exact Hr.
Qed.

Lemma f_find_replace_other : forall n tgt s l, ~ In tgt (ids s) -> ~ In n (ids l) ->
  forall ts,
  Forall (fun t => NoDup (ids t) -> t_find n t = Some s -> t_find tgt t = Some l ->
                   t_find tgt (t_replace n [] t) = Some l) ts ->
  NoDup (idsl ts) -> f_find n ts = Some s -> f_find tgt ts = Some l ->
  f_find tgt (rep n [] ts) = Some l.
Proof.
  intros n tgt s l Hts Hnl.
  induction ts as [|x r IHr]; intros IH Hnd Hfn Hft; [discriminate|].
  inversion IH as [|? ? Hx Hr]; subst. rewrite idsl_cons in Hnd.
  rewrite rep_cons. simpl in Hfn, Hft.
  destruct (t_find n x) as [s'|] eqn:Fn.
  - inversion Hfn; subst s'.
    assert (Hc : In n (ids x)) by (eapply t_find_in; eauto).
    assert (Hnr : ~ In n (idsl r)) by (eapply NoDup_app_disj; eauto).
    rewrite (rep_notin _ _ _ Hnr).
    destruct (N.eqb (tid x) n) eqn:E.
    + destruct x as [xi xs]. simpl in E. apply N.eqb_eq in E. subst xi.
      rewrite t_find_eq, N.eqb_refl in Fn. inversion Fn; subst s.
      destruct (t_find tgt (T n xs)) as [l'|] eqn:Ft.
      * exfalso. apply Hts. eapply t_find_in; eassumption.
      * simpl. exact Hft.
    + destruct (t_find tgt x) as [l'|] eqn:Ft.
      * inversion Hft; subst l'. simpl.
        rewrite (Hx (NoDup_app_l _ _ Hnd) eq_refl eq_refl). reflexivity.
      * simpl. rewrite t_find_none; [exact Hft|].
        intro K. apply ids_replace_nil_incl in K.
        apply (t_find_none_inv _ _ Ft K).
  - assert (Hc : ~ In n (ids x)) by (apply t_find_none_inv; assumption).
    assert (E : N.eqb (tid x) n = false).
    { apply N.eqb_neq. intro K. apply Hc. subst n. apply tid_in_ids. }
    rewrite E, (t_replace_notin _ _ _ Hc). simpl.
    destruct (t_find tgt x) as [l'|] eqn:Ft; [exact Hft|].
    apply IHr; auto. eapply NoDup_app_r; eassumption.
Qed.

Lemma t_find_replace_other : forall n tgt s l, ~ In tgt (ids s) -> ~ In n (ids l) ->
  forall t, NoDup (ids t) -> t_find n t = Some s -> t_find tgt t = Some l ->
  t_find tgt (t_replace n [] t) = Some l.
Proof.
  intros n tgt s l Hts Hnl t. induction t as [i ts IH] using tree_ind'.
  intros Hnd Hfn Hft.
  pose proof (t_find_in _ _ _ Hfn) as In1. pose proof (t_find_in _ _ _ Hft) as In2.
  rewrite t_find_eq in Hfn, Hft. rewrite t_replace_eq, t_find_eq.
  destruct (N.eqb i n) eqn:E1.
  { inversion Hfn; subst s. contradiction. }
  destruct (N.eqb i tgt) eqn:E2.
  { inversion Hft; subst l. contradiction. }
  rewrite ids_eq in Hnd. inversion Hnd; subst.
  apply f_find_replace_other with (s := s); auto.
Qed.

Lemma ids_move_adjacent : forall t n tgt s l,
  NoDup (ids t) -> n <> tid t -> tgt <> tid t ->
  t_find n t = Some s -> t_find tgt t = Some l ->
  (exists A B, ids t = A ++ ids l ++ ids s ++ B) ->
  ids (t_insert tgt false s (t_replace n [] t)) = ids t.
Proof.
  intros t n tgt s l Hnd Hn Htg Hfn Hft (A & B & Eq).
  destruct (t_find_some _ _ _ Hfn) as [Hs _]. destruct (t_find_some _ _ _ Hft) as [Hl _].
  assert (Hnd' : NoDup (A ++ ids l ++ ids s ++ B)) by (rewrite <- Eq; exact Hnd).
  assert (Hls : NoDup (ids l ++ ids s)).
  { apply NoDup_app_r in Hnd'. rewrite app_assoc in Hnd'. eapply NoDup_app_l; eassumption. }
  assert (D1 : ~ In tgt (ids s)).
  { eapply NoDup_app_disj; [exact Hls|]. rewrite <- Hl. apply tid_in_ids. }
  assert (D2 : ~ In n (ids l)).
  { intro K. eapply NoDup_app_disj; [exact Hls| exact K |]. rewrite <- Hs. apply tid_in_ids. }
  destruct (ids_remove_block _ _ _ Hnd Hn Hfn) as (A1 & B1 & E1 & E2).
  destruct (ids_block_unique s A1 B1 (A ++ ids l) B) as [-> ->].
  { rewrite <- E1. exact Hnd. }
  { rewrite <- E1, Eq, <- app_assoc. reflexivity. }
  set (u := t_replace n [] t) in *.
  assert (Hndu : NoDup (ids u)).
  { rewrite E2. apply NoDup_app_del with (m := ids s). rewrite <- app_assoc. exact Hnd'. }
  assert (Hfu : t_find tgt u = Some l) by (apply t_find_replace_other with (s := s); auto).
  assert (Htu : tgt <> tid u) by (unfold u; rewrite tid_t_replace; exact Htg).
  destruct (ids_replace_block u tgt [l; s] l Hndu Htu Hfu) as (A2 & B2 & E3 & E4).
  rewrite <- (t_insert_as_replace tgt false s l u Hndu Hfu) in E4.
  change (idsl [l; s]) with (ids l ++ ids s ++ []) in E4. rewrite app_nil_r, <- app_assoc in E4.
  destruct (ids_block_unique l A2 B2 A B) as [-> ->].
  { rewrite <- E3. exact Hndu. }
  { rewrite <- E3, E2, <- app_assoc. reflexivity. }
  rewrite E4, Eq. reflexivity.
Qed.

(* copy-and-split (_fix_nesting)
   treecleaner.py:852-902: below the "bad parent" B the path down to the problem node N is cut
   out; three trees are made from (copies of) B:
     top    = B with everything right of the path, and N itself, filtered out,
     middle = the path only (N with its whole subtree); its single child is what is spliced in,
     bottom = B with everything left of the path, and N itself, filtered out. *)
Fixpoint split3 (x : N) (ts : list tree) : option (list tree * tree * list tree) :=
  match ts with
  | [] => None
  | y :: r => if N.eqb (tid y) x then Some ([], y, r)
              else match split3 x r with
                   | Some (l, X, rr) => Some (y :: l, X, rr)
                   | None => None
                   end
  end.

Fixpoint split_top (path : list N) (t : tree) {struct path} : tree :=
  let 'T i ts := t in
  match path with
  | [] => t
  | x :: rest =>
      match split3 x ts with
      | None => t
      | Some (lefts, X, rights) =>
          match rest with
          | [] => T i lefts
          | _ => T i (lefts ++ [split_top rest X])
          end
      end
  end.

Fixpoint split_mid (path : list N) (t : tree) {struct path} : tree :=
  let 'T i ts := t in
  match path with
  | [] => T i []
  | x :: rest =>
      match split3 x ts with
      | None => T i []
      | Some (lefts, X, rights) =>
          match rest with
          | [] => T i [X]
          | _ => T i [split_mid rest X]
          end
      end
  end.

Fixpoint split_bot (path : list N) (t : tree) {struct path} : tree :=
  let 'T i ts := t in
  match path with
  | [] => T i []
  | x :: rest =>
      match split3 x ts with
      | None => T i []
      | Some (lefts, X, rights) =>
          match rest with
          | [] => T i rights
          | _ => T i (split_bot rest X :: rights)
          end
      end
  end.

(* every path element is found *)
Fixpoint path_ok (path : list N) (t : tree) {struct path} : Prop :=
  match path with
  | [] => True
  | x :: rest => match split3 x (tkids t) with
                 | Some (_, X, _) => path_ok rest X
                 | None => False
                 end
  end.

(* the bad parent b and the path nodes strictly above the problem node carry no text of their own *)
Definition own_text_empty (h : heap) (path : list N) (b : N) : Prop :=
  textof h b = [] /\ forall x, In x (removelast path) -> textof h x = [].

Lemma split3_spec : forall x ts l X r, split3 x ts = Some (l, X, r) ->
  ts = l ++ X :: r /\ tid X = x.
Proof.
  intros x ts. induction ts as [|y ts IH]; intros l X r H; [discriminate|].
  simpl in H. destruct (N.eqb (tid y) x) eqn:E.
  - inversion H; subst. apply N.eqb_eq in E. auto.
  - destruct (split3 x ts) as [[[l' X'] r']|]; [|discriminate].
    inversion H; subst. destruct (IH _ _ _ eq_refl) as [-> A]. auto.
Qed.

Lemma words_t_hd : forall h t, words_t h t = textof h (tid t) ++ flat_map (words_t h) (tkids t).
Proof. intros h [i ts]. reflexivity. Qed.

Lemma tid_split_mid : forall path t, tid (split_mid path t) = tid t.
Proof.
  intros path [i ts]. destruct path as [|x rest]; [reflexivity|]. simpl.
  destruct (split3 x ts) as [[[l X] r]|]; [|reflexivity]. destruct rest; reflexivity.
Qed.

Lemma words_split : forall h path t,
  path_ok path t -> path <> [] -> own_text_empty h path (tid t) ->
  words_t h (split_top path t) ++ flat_map (words_t h) (tkids (split_mid path t))
    ++ words_t h (split_bot path t) = words_t h t.
Proof.
  intros h path. induction path as [|x rest IH]; intros [i ts] Hok Hne [Hb Hp]; [congruence|].
  simpl in Hok, Hb. simpl split_top. simpl split_mid. simpl split_bot.
  destruct (split3 x ts) as [[[l X] r]|] eqn:E; [|contradiction].
  destruct (split3_spec _ _ _ _ _ E) as [-> HX].
  destruct rest as [|y rest'].
  - simpl. rewrite Hb, flat_map_app. simpl. rewrite app_nil_r. reflexivity.
  - assert (Hx : textof h x = []) by (apply Hp; left; reflexivity).
    assert (IHX : words_t h (split_top (y :: rest') X)
                  ++ flat_map (words_t h) (tkids (split_mid (y :: rest') X))
                  ++ words_t h (split_bot (y :: rest') X) = words_t h X).
    { apply IH; [exact Hok | discriminate |]. split; [rewrite HX; exact Hx|].
      intros z Hz. apply Hp. right. exact Hz. }
    set (TOP := split_top (y :: rest') X) in *.
    set (MID := split_mid (y :: rest') X) in *.
    set (BOT := split_bot (y :: rest') X) in *.
    assert (HM : words_t h MID = flat_map (words_t h) (tkids MID)).
    { rewrite words_t_hd. unfold MID. rewrite tid_split_mid, HX, Hx. reflexivity. }
    change (words_t h (T i (l ++ [TOP]))) with (textof h i ++ flat_map (words_t h) (l ++ [TOP])).
    change (words_t h (T i (BOT :: r)))
      with (textof h i ++ words_t h BOT ++ flat_map (words_t h) r).
    change (words_t h (T i (l ++ X :: r)))
      with (textof h i ++ flat_map (words_t h) (l ++ X :: r)).
    change (tkids (T i [MID])) with [MID].
    rewrite Hb, !flat_map_app. simpl. rewrite !app_nil_r, HM, <- IHX, <- !app_assoc.
    reflexivity.
Qed.

(* node.parent.replace_child(node, node.children) on a proper tree, for a node without text of
   its own: succeeds, keeps the tree proper, keeps the visible words. *)
Theorem dissolve_keeps_words : forall h t p c cs,
  repr h None t -> NoDup (ids t) -> In p (ids t) -> In c (kids h p) ->
  t_find c t = Some (T c cs) -> textof h c = [] ->
  exists h', replace_child h p c (kids h c) = Ok h' /\ WF h' (tid t) /\
             words h' (tid t) = words h (tid t).
Proof.
  intros h t p c cs Hr Hnd Hp Hc Hf Ht.
  pose proof (child_not_root _ _ _ _ Hr Hp Hc) as Hne.
  destruct (dissolve_repr h t p c cs Hr Hnd Hp Hc Hf) as (h' & R1 & R2 & R3 & _).
  exists h'. split; [exact R1|]. split.
  - exists (t_replace c cs t). rewrite tid_t_replace. auto.
  - unfold words. rewrite <- (tid_t_replace c cs t) at 1.
    rewrite (build_complete _ _ _ R2 R3), (build_complete _ _ _ Hr Hnd).
    rewrite (words_t_same_tc h h') by (eapply same_tc_replace_child; eassumption).
    apply words_dissolve; auto.
Qed.
