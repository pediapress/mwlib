(* C07 — property theorems.  The cleaner's restructuring idioms keep the visible words, on the heap
   model of C05 (words h r = in-order words of the tree below r); whole passes built only from these idioms
   (generic edit passes, fix_paragraphs, the remove_breaking_returns loop) and any sequence of them keep
   well-formedness and the words; fix_nesting separately, on labelled trees.  NOT proved: that the composition of ALL ~58 real passes is
   lossless (passes iterating over a live child list, passes creating nodes, the table passes are not
   modelled) - decided by the verified monitor (extracted cwords before/after clean_all). *)
From Coq Require Import List NArith Bool.
From MW Require Import C05.Heap C05.TreeOps C06.Model C06.ModelNesting.
From MW Require C05.ProofsApi C07.Proofs C07.ProofsExtra C06.Proofs.
From MW Require C06.ProofsNesting C06.ProofsNestingExtra.
From MW Require C06.ModelNav C07.ModelPasses C07.ProofsPasses C07.ProofsPassesExtra.
From MW Require C07.ModelPasses2 C07.ProofsPasses2.
Import ListNotations.

(* the visible words of a tree are the concatenation of its nodes' own words in preorder: an operation
   that keeps the preorder sequence of ids keeps the words *)
Theorem C07_words_are_preorder : forall h t, words_t h t = flat_map (textof h) (ids t).
Proof. exact C07.Proofs.words_t_ids. Qed.
Print Assumptions C07_words_are_preorder.

(* idiom 1: node.parent.replace_child(node, node.children) on a node without words of its own
   (treecleaner.py:451, 587, 1123, 1189, 1756, 1778 ...): succeeds, tree stays proper, words unchanged *)
Theorem C07_dissolve_preserves_words : forall h t p c cs,
  repr h None t -> NoDup (ids t) -> In p (ids t) -> In c (kids h p) ->
  t_find c t = Some (T c cs) -> textof h c = [] ->
  exists h', replace_child h p c (kids h c) = Ok h' /\ WF h' (tid t) /\ words h' (tid t) = words h (tid t).
Proof. exact C07.Proofs.dissolve_keeps_words. Qed.
Print Assumptions C07_dissolve_preserves_words.

(* idiom 2: adjacent move_to (the moved subtree directly follows the target's subtree in reading order,
   as when _fix_paragraphs moves a paragraph behind the last child of the preceding section) *)
Theorem C07_adjacent_move_preserves_words : forall h t n tgt s l,
  NoDup (ids t) -> n <> tid t -> tgt <> tid t ->
  t_find n t = Some s -> t_find tgt t = Some l ->
  (exists A B, ids t = A ++ ids l ++ ids s ++ B) ->
  words_t h (t_insert tgt false s (t_replace n [] t)) = words_t h t.
Proof. intros. apply C07.Proofs.words_t_ids_eq. eapply C07.Proofs.ids_move_adjacent; eassumption. Qed.
Print Assumptions C07_adjacent_move_preserves_words.

(* ... hence the whole fix_paragraphs loop (heap level, any number of iterations) *)
Theorem C07_fix_paragraphs_preserves_words : forall k h r h', WF h r ->
  fix_paragraphs k h r = Done h' -> words h' r = words h r.
Proof. exact C06.Proofs.fix_paragraphs_keeps_words. Qed.
Print Assumptions C07_fix_paragraphs_preserves_words.

(* idiom 3: copy-and-split of _fix_nesting: copy() yields a detached proper tree with the same words ... *)
Theorem C07_copy_preserves_words : forall h r t n,
  tid t = r -> repr h None t -> NoDup (ids t) -> In n (ids t) ->
  exists h' k, copy h n = Some (h', k) /\ WF h' r /\ WFsub h' None k /\ words h' k = words h n.
Proof. exact C05.ProofsApi.copy_preserves_WF. Qed.
Print Assumptions C07_copy_preserves_words.

(* ... and the three filtered copies (top, the spliced child of middle, bottom) carry the words of the bad
   parent exactly once, in order, when the nodes on the path have no words of their own *)
Theorem C07_split_preserves_words : forall h path t,
  C07.Proofs.path_ok path t -> path <> [] -> C07.Proofs.own_text_empty h path (tid t) ->
  words_t h (C07.Proofs.split_top path t) ++ flat_map (words_t h) (tkids (C07.Proofs.split_mid path t))
    ++ words_t h (C07.Proofs.split_bot path t) = words_t h t.
Proof. exact C07.Proofs.words_split. Qed.
Print Assumptions C07_split_preserves_words.

(* the API never changes a node's words or class *)
Theorem C07_api_keeps_text : forall h n tgt b h' i,
  move_to h n tgt b = Ok h' -> textof h' i = textof h i /\ clsof h' i = clsof h i.
Proof. intros. eapply C07.Proofs.same_tc_move_to; eassumption. Qed.
Print Assumptions C07_api_keeps_text.

Example C07_dissolve_example :
  WF ProofsExtra.hd 1 /\
  exists h', replace_child ProofsExtra.hd 2 3 (kids ProofsExtra.hd 3) = Ok h' /\ kids h' 2 = [4; 5; 6]%N /\
             wfb h' 1 = true /\ words h' 1 = [5; 6; 7]%N /\ words ProofsExtra.hd 1 = [5; 6; 7]%N.
Proof. exact ProofsExtra.dissolve_example. Qed.
Print Assumptions C07_dissolve_example.

(* dropping instead of dissolving loses the words (what the monitor reports) *)
Example C07_drop_loses_words :
  exists h', remove_child ProofsExtra.hd 2 3 = Ok h' /\ wfb h' 1 = true /\ words h' 1 = [7]%N.
Proof. exact ProofsExtra.drop_example. Qed.
Print Assumptions C07_drop_loses_words.

(* idiom 3, the whole of it: fix_nesting (treecleaner.py:852-906; model C06/ModelNesting.v, labelled trees,
   identity-based marks = the behaviour since fix commit 09d8eb0, any forbidden/invisible tables).
   Every iteration, and hence the loop, keeps the in-order words when words sit on childless nodes only
   (leafwords: true of the harness' tokenisation) and the node identities are distinct *)
Theorem C07_fix_nesting_step_preserves_words : forall forb invis t t', NoDup (lids t) -> leafwords t = true ->
  nest_step forb invis eq_id t = NMoved t' -> lwords t' = lwords t.
Proof.
  intros forb invis t t' Hnd Hlw H.
  destruct (ProofsNesting.nest_step_moved forb invis t t' Hnd H) as (_ & _ & H3). apply H3. exact Hlw.
Qed.
Print Assumptions C07_fix_nesting_step_preserves_words.

Theorem C07_fix_nesting_preserves_words : forall forb invis fuel t t', NoDup (lids t) -> leafwords t = true ->
  fix_nesting forb invis eq_id fuel t = NDone t' -> lwords t' = lwords t.
Proof.
  intros forb invis fuel t t' Hnd Hlw H.
  destruct (ProofsNesting.fix_nesting_done forb invis fuel t t' Hnd H) as (_ & _ & _ & H4). apply H4. exact Hlw.
Qed.
Print Assumptions C07_fix_nesting_preserves_words.

(* the labelled tree read off a heap has exactly the heap's words (connection with words_t of C05/Heap.v) *)
Theorem C07_labelled_tree_words : forall h exc t, lwords (lt_of h exc t) = words_t h t.
Proof. exact ProofsNesting.lwords_lt_of. Qed.
Print Assumptions C07_labelled_tree_words.

(* REFUTED for the code as it was before 09d8eb0: _mark_nodes compared with Node.__eq__ (structural); one iteration
   on Article[Code[x, Pre[a], z, Pre[a], y]] drops the second `a` (words 101 102 103 102 104 -> 101 102 103 104) *)
Theorem C07_fix_nesting_structural_eq_refuted :
  exists t, NoDup (lids t) /\ leafwords t = true /\
    (exists t', nest_step forb_real invis_real eq_struct t = NMoved t' /\
                lwords t = [101; 102; 103; 102; 104]%N /\ lwords t' = [101; 102; 103; 104]%N) /\
    (exists t', nest_step forb_real invis_real eq_id t = NMoved t' /\ lwords t' = lwords t).
Proof. exact ProofsNestingExtra.fix_nesting_structural_eq_refuted. Qed.
Print Assumptions C07_fix_nesting_structural_eq_refuted.

(* whole passes.  Generic model C07/ModelPasses.v: preorder traversal over a COPY of node.children that,
   where `act` says so and node.parent exists, dissolves the visited node (replace_child(node, node.children),
   with or without `return`) or removes it (remove_child + return).  Instances in treecleaner.py:
   remove_list_only_paragraphs, remove_textless_styles, remove_invisible_links (remove_empty_sections and
   the else-branch of remove_no_print_nodes are instances of the model but drop words by design); passes
   iterating over the live list are NOT covered (list with reasons in C07/ProofsPasses.v).
   For EVERY act such that dissolved nodes have no own words and pruned nodes no words below them (under an
   invariant I about classes/own words): on a proper tree the pass terminates with fuel = number of nodes,
   raises nothing, leaves a proper tree with the same root and the same visible words. *)
Theorem C07_edit_pass_preserves_words : forall act ret (I : heap -> Prop), C07.ProofsPasses.tc_closed I ->
  (forall h n, I h -> act h n = C07.ModelPasses.ADissolve -> textof h n = []) ->
  (forall h n, I h -> act h n = C07.ModelPasses.APrune -> words h n = []) ->
  forall h r, I h -> WF h r ->
  exists h', C07.ModelPasses.edit_pass act ret h r = Done h' /\ I h' /\ WF h' r /\
             words h' r = words h r /\ C07.Proofs.same_tc h h'.
Proof. exact C07.ProofsPasses.edit_pass_ok. Qed.
Print Assumptions C07_edit_pass_preserves_words.

Theorem C07_dissolve_pass_preserves_words : forall sel ret (I : heap -> Prop), C07.ProofsPasses.tc_closed I ->
  (forall h n, I h -> sel h n = true -> textof h n = []) ->
  forall h r, I h -> WF h r ->
  exists h', C07.ModelPasses.dissolve_pass sel ret h r = Done h' /\ I h' /\ WF h' r /\ words h' r = words h r.
Proof.
  intros sel ret I Hc Hs h r HI Hwf. unfold C07.ModelPasses.dissolve_pass.
  destruct (C07_edit_pass_preserves_words (fun h n => if sel h n then C07.ModelPasses.ADissolve
                                                      else C07.ModelPasses.AKeep) ret I Hc)
    with (h := h) (r := r) as (h' & E & A & B & C & _); auto.
  - intros h0 n HI0 Ha. apply Hs; [exact HI0|]. destruct (sel h0 n); [reflexivity|discriminate].
  - intros h0 n _ Ha. destruct (sel h0 n); discriminate.
  - exists h'. auto.
Qed.
Print Assumptions C07_dissolve_pass_preserves_words.

Theorem C07_prune_pass_preserves_words : forall sel (I : heap -> Prop), C07.ProofsPasses.tc_closed I ->
  (forall h n, I h -> sel h n = true -> words h n = []) ->
  forall h r, I h -> WF h r ->
  exists h', C07.ModelPasses.prune_pass sel h r = Done h' /\ I h' /\ WF h' r /\ words h' r = words h r.
Proof.
  intros sel I Hc Hs h r HI Hwf. unfold C07.ModelPasses.prune_pass.
  destruct (C07_edit_pass_preserves_words (fun h n => if sel h n then C07.ModelPasses.APrune
                                                      else C07.ModelPasses.AKeep) true I Hc)
    with (h := h) (r := r) as (h' & E & A & B & C & _); auto.
  - intros h0 n _ Ha. destruct (sel h0 n); discriminate.
  - intros h0 n HI0 Ha. apply Hs; [exact HI0|]. destruct (sel h0 n); [reflexivity|discriminate].
  - exists h'. auto.
Qed.
Print Assumptions C07_prune_pass_preserves_words.

(* composition: ANY list of safe passes run one after the other stops, and a normal return leaves a proper
   tree with the same visible words (induction over the list); edit passes, fix_paragraphs and the
   remove_breaking_returns loop at the root are safe *)
Theorem C07_run_passes_preserves_words : forall (I : heap -> Prop) ps,
  Forall (C07.ProofsPasses.safe_pass I) ps -> forall h r, I h -> WF h r ->
  C07.ModelPasses.run_passes ps h r <> OutOfFuel /\
  (forall h', C07.ModelPasses.run_passes ps h r = Done h' -> I h' /\ WF h' r /\ words h' r = words h r).
Proof. exact C07.ProofsPasses.run_passes_safe. Qed.
Print Assumptions C07_run_passes_preserves_words.

Theorem C07_edit_pass_safe : forall act ret (I : heap -> Prop), C07.ProofsPasses.tc_closed I ->
  (forall h n, I h -> act h n = C07.ModelPasses.ADissolve -> textof h n = []) ->
  (forall h n, I h -> act h n = C07.ModelPasses.APrune -> words h n = []) ->
  C07.ProofsPasses.safe_pass I (C07.ModelPasses.edit_pass act ret).
Proof. exact C07.ProofsPasses.edit_pass_safe. Qed.
Print Assumptions C07_edit_pass_safe.

Theorem C07_fix_paragraphs_safe : forall (I : heap -> Prop), C07.ProofsPasses.tc_closed I ->
  C07.ProofsPasses.safe_pass I (fun h r => fix_paragraphs (fp_fuel h r) h r).
Proof. exact C07.ProofsPasses.fix_paragraphs_safe. Qed.
Print Assumptions C07_fix_paragraphs_safe.

(* removal of wordless leaves: the `while changed` loop of remove_breaking_returns, for ANY candidate function,
   when BreakingReturns are childless and carry no words *)
Theorem C07_breaking_returns_preserves_words : forall (cand : heap -> N -> list N) r k h node h',
  WF h r -> C06.ModelNav.br_leaf h -> br_loop cand k h node = Done h' ->
  WF h' r /\ C06.ModelNav.br_leaf h' /\ words h' r = words h r.
Proof. exact C07.ProofsPasses.br_loop_keeps_words. Qed.
Print Assumptions C07_breaking_returns_preserves_words.

Theorem C07_br_root_loop_safe : forall is_block blank,
  C07.ProofsPasses.safe_pass C06.ModelNav.br_leaf
    (fun h r => if N.eqb (clsof h r) c_BR then Done h
                else br_loop (C06.ModelNav.cand_real is_block blank) (S (count_br h r)) h r).
Proof. exact C07.ProofsPasses.br_root_loop_safe. Qed.
Print Assumptions C07_br_root_loop_safe.

Example C07_dissolve_pass_example :
  WF ProofsPassesExtra.hx 1 /\
  exists h', C07.ModelPasses.dissolve_pass ProofsPassesExtra.sel_div false ProofsPassesExtra.hx 1 = Done h' /\
             kids h' 2 = [4; 5; 7; 8]%N /\ wfb h' 1 = true /\ words h' 1 = [5; 6; 7]%N /\
             words ProofsPassesExtra.hx 1 = [5; 6; 7]%N.
Proof. exact ProofsPassesExtra.dissolve_pass_example. Qed.
Print Assumptions C07_dissolve_pass_example.

Example C07_run_passes_example :
  exists h', C07.ModelPasses.run_passes [C07.ModelPasses.dissolve_pass ProofsPassesExtra.sel_div false;
                                         C07.ModelPasses.prune_pass ProofsPassesExtra.sel_br]
                                        ProofsPassesExtra.hx 1 = Done h' /\
             kids h' 2 = [4; 7; 8]%N /\ wfb h' 1 = true /\ words h' 1 = words ProofsPassesExtra.hx 1.
Proof. exact ProofsPassesExtra.run_passes_example. Qed.
Print Assumptions C07_run_passes_example.

Example C07_run_passes_example_safe :
  Forall (C07.ProofsPasses.safe_pass ProofsPassesExtra.inv)
         [C07.ModelPasses.dissolve_pass ProofsPassesExtra.sel_div false;
          C07.ModelPasses.prune_pass ProofsPassesExtra.sel_br].
Proof. exact ProofsPassesExtra.run_passes_example_safe. Qed.
Print Assumptions C07_run_passes_example_safe.

(* whole passes, second generic shape.  Model C07/ModelPasses2.v: the visited node edits selected CHILDREN
   (node.replace_child(c, c.children) or node.remove_child(c), targets fixed when the node is visited), then
   returns or descends into its children list as it is after the edits.  Instances in treecleaner.py:
   remove_leading_para_in_list 1490-1499, restrict_children 1153-1162 (drops words by design),
   remove_empty_training_table_rows 1519-1526.  For EVERY selection of children such that dissolved children
   have no own words and removed children no words below them (under an invariant I about classes / own
   words): on a proper tree the pass terminates with fuel = number of nodes, raises nothing, leaves a proper
   tree with the same root and the same visible words; it is a safe pass, so C07_run_passes_preserves_words
   composes it with the passes above.  Classification of all cleaner methods: C07/ProofsPasses2.v. *)
Theorem C07_child_pass_preserves_words : forall (tgt : heap -> N -> list N) (dis stop : heap -> N -> bool)
    (I : heap -> Prop), C07.ProofsPasses.tc_closed I ->
  (forall h n, I h -> incl (tgt h n) (kids h n)) ->
  (forall h n, I h -> NoDup (kids h n) -> NoDup (tgt h n)) ->
  (forall h n c, I h -> dis h n = true -> In c (tgt h n) -> textof h c = []) ->
  (forall h n c, I h -> dis h n = false -> In c (tgt h n) -> words h c = []) ->
  forall h r, I h -> WF h r ->
  exists h', C07.ModelPasses2.child_pass tgt dis stop h r = Done h' /\ I h' /\ WF h' r /\
             words h' r = words h r /\ C07.Proofs.same_tc h h'.
Proof. exact C07.ProofsPasses2.child_pass_ok. Qed.
Print Assumptions C07_child_pass_preserves_words.

Theorem C07_child_pass_safe : forall (tgt : heap -> N -> list N) (dis stop : heap -> N -> bool)
    (I : heap -> Prop), C07.ProofsPasses.tc_closed I ->
  (forall h n, I h -> incl (tgt h n) (kids h n)) ->
  (forall h n, I h -> NoDup (kids h n) -> NoDup (tgt h n)) ->
  (forall h n c, I h -> dis h n = true -> In c (tgt h n) -> textof h c = []) ->
  (forall h n c, I h -> dis h n = false -> In c (tgt h n) -> words h c = []) ->
  C07.ProofsPasses.safe_pass I (C07.ModelPasses2.child_pass tgt dis stop).
Proof. exact C07.ProofsPasses2.child_pass_safe. Qed.
Print Assumptions C07_child_pass_safe.

(* real passes as corollaries; invariant: Paragraphs carry no words of their own *)
Theorem C07_remove_leading_para_in_list_safe :
  C07.ProofsPasses.safe_pass C07.ProofsPasses2.para_textless C07.ModelPasses2.remove_leading_para_in_list.
Proof. exact C07.ProofsPasses2.remove_leading_para_in_list_safe. Qed.
Print Assumptions C07_remove_leading_para_in_list_safe.

Theorem C07_remove_list_only_paragraphs_safe :
  C07.ProofsPasses.safe_pass C07.ProofsPasses2.para_textless C07.ModelPasses2.remove_list_only_paragraphs.
Proof. exact C07.ProofsPasses2.remove_list_only_paragraphs_safe. Qed.
Print Assumptions C07_remove_list_only_paragraphs_safe.

(* restrict_children drops children with their words by design: safe exactly where the dropped children are wordless *)
Theorem C07_restrict_children_safe : forall (restricted : N -> bool) (allowed : N -> N -> bool)
    (I : heap -> Prop), C07.ProofsPasses.tc_closed I ->
  (forall h n c, I h -> restricted (clsof h n) = true -> In c (kids h n) ->
                 allowed (clsof h n) (clsof h c) = false -> words h c = []) ->
  C07.ProofsPasses.safe_pass I (C07.ModelPasses2.restrict_children restricted allowed).
Proof. exact C07.ProofsPasses2.restrict_children_safe. Qed.
Print Assumptions C07_restrict_children_safe.

Theorem C07_remove_empty_trailing_rows_safe : forall (I : heap -> Prop), C07.ProofsPasses.tc_closed I ->
  (forall h n c, I h -> clsof h n = c_Table -> In c (kids h n) ->
                 C07.ModelPasses2.empty_row h c = true -> words h c = []) ->
  C07.ProofsPasses.safe_pass I C07.ModelPasses2.remove_empty_trailing_rows.
Proof. exact C07.ProofsPasses2.remove_empty_trailing_rows_safe. Qed.
Print Assumptions C07_remove_empty_trailing_rows_safe.

(* blank h n = "node.get_all_display_text().strip() is empty"; assumption: such a node has no visible words *)
Theorem C07_remove_textless_styles_safe : forall (is_style : N -> bool) (blank : heap -> N -> bool)
    (I : heap -> Prop), C07.ProofsPasses.tc_closed I ->
  (forall h n, I h -> blank h n = true -> textof h n = [] /\ words h n = []) ->
  C07.ProofsPasses.safe_pass I (C07.ModelPasses2.remove_textless_styles is_style blank).
Proof. exact C07.ProofsPasses2.remove_textless_styles_safe. Qed.
Print Assumptions C07_remove_textless_styles_safe.

(* `if sel(node) and node.parent: node.parent.remove_child(node); return` (remove_invisible_links, ...) *)
Theorem C07_remove_selected_safe : forall sel (I : heap -> Prop), C07.ProofsPasses.tc_closed I ->
  (forall h n, I h -> sel h n = true -> words h n = []) ->
  C07.ProofsPasses.safe_pass I (C07.ModelPasses2.remove_selected sel).
Proof. exact C07.ProofsPasses2.remove_selected_safe. Qed.
Print Assumptions C07_remove_selected_safe.

(* passes that only write attributes (clean_vlist, mark_infoboxes, mark_short_paragraph, fix_math_dir) *)
Theorem C07_attr_only_pass_safe : forall (I : heap -> Prop), C07.ProofsPasses.tc_closed I ->
  C07.ProofsPasses.safe_pass I C07.ModelPasses2.attr_only_pass.
Proof. exact C07.ProofsPasses2.attr_only_pass_safe. Qed.
Print Assumptions C07_attr_only_pass_safe.

Theorem C07_attr_only_pass_id : forall h r, WF h r -> C07.ModelPasses2.attr_only_pass h r = Done h.
Proof. exact C07.ProofsPasses2.attr_only_pass_id. Qed.
Print Assumptions C07_attr_only_pass_id.

Example C07_leading_para_example :
  WF ProofsPasses2.hy 1 /\ C07.ProofsPasses2.para_textless ProofsPasses2.hy /\
  exists h', C07.ModelPasses2.remove_leading_para_in_list ProofsPasses2.hy 1 = Done h' /\
             kids h' 3 = [5; 6; 7]%N /\ wfb h' 1 = true /\ words h' 1 = [5; 6; 7]%N /\
             words ProofsPasses2.hy 1 = [5; 6; 7]%N.
Proof. exact ProofsPasses2.leading_para_example. Qed.
Print Assumptions C07_leading_para_example.

Example C07_empty_rows_example :
  WF ProofsPasses2.hz 1 /\ C07.ModelPasses2.er_tgt ProofsPasses2.hz 2 = [8; 6]%N /\
  exists h', C07.ModelPasses2.remove_empty_trailing_rows ProofsPasses2.hz 1 = Done h' /\
             kids h' 2 = [3]%N /\ wfb h' 1 = true /\ words h' 1 = [5]%N /\ words ProofsPasses2.hz 1 = [5]%N.
Proof. exact ProofsPasses2.empty_rows_example. Qed.
Print Assumptions C07_empty_rows_example.

Example C07_restrict_children_example :
  WF ProofsPasses2.hw 1 /\
  exists h', C07.ModelPasses2.restrict_children ProofsPasses2.restricted_real ProofsPasses2.allowed_real
                                               ProofsPasses2.hw 1 = Done h' /\
             kids h' 2 = [3; 5]%N /\ wfb h' 1 = true /\ words h' 1 = [9]%N /\ words ProofsPasses2.hw 1 = [9]%N.
Proof. exact ProofsPasses2.restrict_children_example. Qed.
Print Assumptions C07_restrict_children_example.

Example C07_run_passes2_example_safe :
  Forall (C07.ProofsPasses.safe_pass C07.ProofsPasses2.para_textless)
         [C07.ModelPasses2.remove_list_only_paragraphs; C07.ModelPasses2.remove_leading_para_in_list;
          C07.ModelPasses2.attr_only_pass].
Proof. exact ProofsPasses2.run_passes2_example_safe. Qed.
Print Assumptions C07_run_passes2_example_safe.

Example C07_run_passes2_example :
  exists h', C07.ModelPasses.run_passes
               [C07.ModelPasses2.remove_list_only_paragraphs; C07.ModelPasses2.remove_leading_para_in_list;
                C07.ModelPasses2.attr_only_pass] ProofsPasses2.hy 1 = Done h' /\
             kids h' 3 = [5; 6; 7]%N /\ wfb h' 1 = true /\ words h' 1 = words ProofsPasses2.hy 1.
Proof. exact ProofsPasses2.run_passes2_example. Qed.
Print Assumptions C07_run_passes2_example.
