(* C07 — the second generic pass shape (C07/ModelPasses2.v: the visited node edits selected CHILDREN, then
   returns or descends into its children list as it is after the edits) keeps the tree proper and the visible
   words; it is a safe_pass, so run_passes_safe composes it with the passes of C07/ProofsPasses.v.
   Concrete real passes as corollaries (selection over class codes; what is not in the heap model - display
   text, style tables - is a Section Variable with its assumption stated as a Section Hypothesis).

   CLASSIFICATION of all cleaner methods of treecleaner.py (TreeCleaner.cleaner_methods 87-146):
   (a) instances of edit_pass named in ProofsPasses.v, concrete act in ModelPasses2.v:
       remove_list_only_paragraphs 437-454, remove_textless_styles 1181-1200, remove_invisible_links 1202-1216,
       remove_empty_sections 1528-1561 and the else-branch of remove_no_print_nodes 1081-1097 (drop words by design)
   (b) instances of edit_pass as it is:
       remove_absolute_positioned_node 1674-1686: prune_pass, sel = positioned node with a positioned ancestor
         (no parent => get_parents() empty => nothing removed; copy iteration 1685; `return` 1683); drops words
         by design;  _filter_tree 837-842 (helper of fix_nesting): prune_pass, sel = nesting mark in the filter;
       clean_vlist 1812-1819, mark_infoboxes 1653-1672, mark_short_paragraph 1620-1632, fix_math_dir 1828-1835:
         write attributes only: attr_only_pass (the identity on the heap, attr_only_pass_id)
   (c) instances of child_pass (this file):
       remove_leading_para_in_list 1490-1499, restrict_children 1153-1162 (drops words by design: safe only when
       the dropped children are wordless), remove_empty_training_table_rows 1519-1526
   (c') would need a further generalisation (NOT done): descendants instead of children as targets
       (limit_image_caption_size 1477-1488, remove_dup_links_in_refs 1445-1462, the last loop of
       fix_reference_nodes 1419-1423, fix_table_colspans 544-572: cells of the only row); an ANCESTOR as
       target (remove_childless_nodes 470-485, remove_empty_ref_lists 1425-1443, remove_train_templates
       1857-1868)
   (d) not instances: iteration over the LIVE list while the visited child removes/dissolves itself
       (remove_empty_text_nodes 412-435, remove_critical_tables 489-507, remove_broken_children 574-594,
       simplify_block_nodes 1164-1179, remove_invalid_file_types 1464-1475, handle_only_in_print 1634-1651,
       fix_sub_sup 1772-1781, remove_edit_links 1783-1789, remove_see_also 1791-1810, second half of
       remove_breaking_returns 741-747); continues from the parent (remove_scroll_elements 1738-1761); creates
       nodes (clean_section_captions 1106-1126, build_def_lists 1128-1151, fix_preformatted 1218-1239,
       fix_list_nesting 1241-1252, fix_item_lists 1501-1514, fix_region_list_tables 1838-1855,
       split_big_table_cells 1032-1059, split_table_lists 1587-1618, transform_single_col_tables 667-696,
       unnest_ending_cell_content 1706-1720); moves / reorders nodes or table logic (swap_nodes 912-947,
       remove_big_sections_from_cells 949-963, transform_nested_tables 999-1030, linearize_wide_nested_tables
       1268-1280, split_table_to_columns 1352-1372, gallery_fix 1763-1770, fix_reference_nodes 1400-1423:
       shares children between Reference nodes); own models: fix_paragraphs, fix_nesting,
       remove_breaking_returns (first half), remove_new_lines (advtree). *)
From Coq Require Import List NArith Bool Arith Lia.
From MW Require Import C05.Heap C05.TreeOps C05.ProofsApi C06.Model C06.ModelNav C07.ModelPasses C07.ModelPasses2.
From MW Require Import C07.Proofs C06.Proofs C06.ProofsNav C07.ProofsPasses.
From MW Require C05.ProofsWf.
Import ListNotations.

Lemma in_firstn' {A} : forall k (l : list A) x, In x (firstn k l) -> In x l.
Proof.
  induction k as [|k IH]; intros [|a l] x H; simpl in *; try contradiction.
  destruct H as [H|H]; [left; exact H | right; apply IH; exact H].
Qed.

Lemma in_skipn' {A} : forall k (l : list A) x, In x (skipn k l) -> In x l.
Proof.
  induction k as [|k IH]; intros [|a l] x H; simpl in *; try contradiction; try exact H.
  right. apply IH. exact H.
Qed.

Lemma kids_set_kids_same : forall h p l x, In x (kids (set_kids h p l) p) -> In x l \/ In x (kids h p).
Proof.
  intros h p l x. unfold set_kids. destruct (get h p) as [nd|] eqn:G.
  - unfold kids at 1. unfold set. simpl. rewrite N.eqb_refl. simpl. auto.
  - auto.
Qed.

(* replace_child only adds the new children to the children list of the receiver *)
Lemma kids_replace_child_self : forall h p c news h1 x, replace_child h p c news = Ok h1 ->
  In x (kids h1 p) -> In x (kids h p) \/ In x news.
Proof.
  intros h p c news h1 x H Hx. unfold replace_child in H.
  destruct (index_of c (kids h p)) as [idx|] eqn:E; [|discriminate]. inversion H; subst h1. clear H.
  rewrite kids_fold_set_parent, kids_set_parent in Hx.
  apply kids_set_kids_same in Hx. destruct Hx as [Hx|Hx]; [|left; exact Hx].
  unfold splice in Hx. apply in_app_or in Hx. destruct Hx as [Hx|Hx].
  - left. eapply in_firstn'; exact Hx.
  - apply in_app_or in Hx. destruct Hx as [Hx|Hx]; [right; exact Hx|].
    left. eapply in_skipn'; exact Hx.
Qed.

(* what the edits of node n do to the children lists *)
Lemma edits_kids : forall d n l h h1, (forall c, In c l -> c <> n) ->
  vloop (edit1 d n) h l = Done h1 ->
  (forall b, b <> n -> kids h1 b = kids h b) /\
  (forall x, In x (kids h1 n) -> In x (kids h n) \/ exists c, In c l /\ In x (kids h c)).
Proof.
  intros d n. induction l as [|c l IH]; intros h h1 Hne H.
  - simpl in H. inversion H; subst. split; [intros; reflexivity | intros x Hx; left; exact Hx].
  - simpl in H. destruct (edit1 d n h c) as [h'| |] eqn:E; try discriminate.
    assert (Hrc : exists news, replace_child h n c news = Ok h' /\ (news = kids h c \/ news = [])).
    { unfold edit1 in E. destruct d.
      - destruct (replace_child h n c (kids h c)) as [hh|] eqn:R; [|discriminate].
        inversion E; subst. eauto.
      - unfold remove_child in E. destruct (replace_child h n c []) as [hh|] eqn:R; [|discriminate].
        inversion E; subst. eauto. }
    destruct Hrc as (news & R & Hnews).
    destruct (IH h' h1 (fun c' Hc' => Hne c' (or_intror Hc')) H) as [K1 K2].
    split.
    + intros b Hb. rewrite (K1 b Hb). eapply kids_replace_child_other; eassumption.
    + intros x Hx. destruct (K2 x Hx) as [Hx'|(c' & Hc' & Hx')].
      * destruct (kids_replace_child_self _ _ _ _ _ _ R Hx') as [A|A]; [left; exact A|].
        destruct Hnews as [Hn|Hn]; rewrite Hn in A; [|contradiction].
        right. exists c. split; [left; reflexivity | exact A].
      * right. exists c'. split; [right; exact Hc'|].
        rewrite <- (kids_replace_child_other _ _ _ _ _ c' R (Hne c' (or_intror Hc'))). exact Hx'.
Qed.

Lemma pick_subtrees : forall (l : list N) (ts : list tree), incl l (map tid ts) ->
  exists ss, map tid ss = l /\ incl ss ts.
Proof.
  induction l as [|c l IH]; intros ts H.
  - exists []. split; [reflexivity | intros x []].
  - destruct (IH ts (fun x Hx => H x (or_intror Hx))) as (ss & E & Hi).
    assert (Hc : In c (map tid ts)) by (apply H; left; reflexivity).
    apply in_map_iff in Hc. destruct Hc as (x & Ex & Hx).
    exists (x :: ss). split; [simpl; rewrite Ex, E; reflexivity|].
    intros y [Hy|Hy]; [subst y; exact Hx | apply Hi; exact Hy].
Qed.

Lemma idsl_unique : forall ts x y j, NoDup (idsl ts) -> In x ts -> In y ts ->
  In j (ids x) -> In j (ids y) -> x = y.
Proof.
  induction ts as [|a r IH]; intros x y j Hnd Hx Hy Jx Jy; [contradiction|].
  rewrite idsl_cons in Hnd. destruct Hx as [Hx|Hx]; destruct Hy as [Hy|Hy].
  - congruence.
  - subst a. exfalso. eapply NoDup_app_disj; [exact Hnd | exact Jx | eapply in_idsl; eassumption].
  - subst a. exfalso. eapply NoDup_app_disj; [exact Hnd | exact Jy | eapply in_idsl; eassumption].
  - eapply IH; eauto. eapply NoDup_app_r; eassumption.
Qed.

Lemma NoDup_idsl_sub : forall ts ss, NoDup (idsl ts) -> incl ss ts -> NoDup (map tid ss) ->
  NoDup (idsl ss).
Proof.
  intros ts. induction ss as [|x r IH]; intros Hnd Hi Hm; [constructor|].
  rewrite idsl_cons. simpl in Hm. apply NoDup_cons_iff in Hm. destruct Hm as [Hx Hr].
  apply NoDup_app_iff. split; [|split].
  - apply (NoDup_flat_map_in ts x Hnd). apply Hi. left. reflexivity.
  - apply IH; [exact Hnd | intros y Hy; apply Hi; right; exact Hy | exact Hr].
  - intros j Jx Jr. unfold idsl in Jr. apply in_flat_map in Jr. destruct Jr as (y & Hy & Jy).
    assert (x = y).
    { eapply idsl_unique; [exact Hnd | apply Hi; left; reflexivity | apply Hi; right; exact Hy
                          | exact Jx | exact Jy]. }
    subst y. apply Hx. apply in_map. exact Hy.
Qed.

Lemma reach_closed : forall h (S : N -> Prop),
  (forall b c, S b -> In c (kids h b) -> S c) -> forall a x, reach h a x -> S a -> S x.
Proof.
  intros h S Hs a x H. induction H as [a|a b c Hab IH Hc]; intro Ha; [exact Ha|].
  apply (Hs b c); [apply IH; exact Ha | exact Hc].
Qed.

Section ChildPassOk.
  Variable tgt : heap -> N -> list N.
  Variable dis stop : heap -> N -> bool.
  Variable I : heap -> Prop.                 (* facts about classes / own words *)
  Hypothesis I_closed : tc_closed I.
  (* the targets are children of the visited node, each at most once *)
  Hypothesis Htgt : forall h n, I h -> incl (tgt h n) (kids h n).
  Hypothesis Hnodup : forall h n, I h -> NoDup (kids h n) -> NoDup (tgt h n).
  (* a dissolved child has no words of its own; a removed child has no words below it *)
  Hypothesis Hdis : forall h n c, I h -> dis h n = true -> In c (tgt h n) -> textof h c = [].
  Hypothesis Hprune : forall h n c, I h -> dis h n = false -> In c (tgt h n) -> words h c = [].

  Lemma cvisit_S : forall f h n, cvisit tgt dis stop (S f) h n =
    match vloop (edit1 (dis h n) n) h (tgt h n) with
    | Done h1 => if negb (stop h n) then vloop (cvisit tgt dis stop f) h1 (kids h1 n) else Done h1
    | o => o
    end.
  Proof.
    intros f h n. cbn [cvisit]. destruct (vloop (edit1 (dis h n) n) h (tgt h n)); [|reflexivity..].
    destruct (stop h n); reflexivity.
  Qed.

  Lemma cvisit_ok_all : forall f h t n s,
    I h -> repr h None t -> NoDup (ids t) -> t_find n t = Some s -> tsize s <= f ->
    exists h', cvisit tgt dis stop f h n = Done h' /\ I h' /\ vres h t (ids s) (par h n) h'.
  Proof.
    apply (traverse_ok I (cvisit tgt dis stop) (fun h n => vloop (edit1 (dis h n) n) h (tgt h n))
                       (fun h n => negb (stop h n)) cvisit_S).
    intros h t n s HI Hr Hnd F.
    destruct (t_find_some _ _ _ F) as [Etid _].
    destruct s as [n' ts]. simpl in Etid. subst n'.
    destruct (t_find_repr _ _ _ _ _ Hr F) as [q Hq].
    pose proof (repr_kids _ _ _ _ Hq) as Hk.
    pose proof (t_find_NoDup _ _ _ Hnd F) as Hnds.
    rewrite ids_eq in Hnds. apply NoDup_cons_iff in Hnds. destruct Hnds as [Hn_ts Hnd_ts].
    pose proof (children_facts h t n ts q Hr F Hq) as Hch.
    (* the targets are subtrees hanging under n *)
    assert (Hti : incl (tgt h n) (map tid ts)) by (rewrite <- Hk; apply Htgt; exact HI).
    destruct (pick_subtrees _ _ Hti) as (tss & Etss & Hsub).
    assert (Hkn : NoDup (kids h n)).
    { rewrite Hk. apply NoDup_tids. exact Hnd_ts. }
    assert (Hnd_tss : NoDup (idsl tss)).
    { eapply NoDup_idsl_sub; [exact Hnd_ts | exact Hsub |]. rewrite Etss. apply Hnodup; assumption. }
    assert (Hsub_ids : incl (idsl tss) (idsl ts)).
    { intros j Hj. unfold idsl in Hj. apply in_flat_map in Hj. destruct Hj as (x & Hx & Hj).
      eapply in_idsl; [apply Hsub; exact Hx | exact Hj]. }
    assert (Hn_tss : ~ In n (idsl tss)) by (intro K; apply Hn_ts; apply Hsub_ids; exact K).
    assert (Hpre : Forall (fun s => t_find (tid s) t = Some s /\ par h (tid s) = Some n /\
                                    eQ (dis h n) h s) tss).
    { rewrite Forall_forall in *. intros x Hx. destruct (Hch x (Hsub x Hx)) as (Fx & Px).
      split; [exact Fx|]. split; [exact Px|].
      assert (Hxt : In (tid x) (tgt h n)) by (rewrite <- Etss; apply in_map; exact Hx).
      unfold eQ. destruct (dis h n) eqn:Ed.
      - eapply Hdis; eassumption.
      - pose proof (Hprune h n (tid x) HI Ed Hxt) as Hw. unfold words in Hw.
        pose proof (repr_child _ _ _ _ _ Hq (Hsub x Hx)) as Hrx.
        rewrite (build_complete h (Some n) x Hrx) in Hw; [exact Hw|].
        apply (NoDup_flat_map_in ts x Hnd_ts). apply Hsub. exact Hx. }
    assert (Eok : forall h0 t0 s0, I h0 -> repr h0 None t0 -> NoDup (ids t0) ->
                    t_find (tid s0) t0 = Some s0 -> par h0 (tid s0) = Some n -> eQ (dis h n) h0 s0 ->
                    exists h', edit1 (dis h n) n h0 (tid s0) = Done h' /\ I h' /\
                               vres h0 t0 (ids s0) (Some n) h').
    { intros h0 t0 s0 A B C D E G.
      destruct (edit1_ok I I_closed (dis h n) n h0 t0 s0 A B C D E G) as (h' & t' & X & Y & Z & _).
      exists h'. split; [exact X|]. split; [exact Y|]. exists t'. exact Z. }
    destruct (gloop_ok I (edit1 (dis h n) n) (eQ (dis h n)) n (eQ_tc (dis h n)) Eok
                       tss h t HI Hr Hnd Hnd_tss Hn_tss Hpre)
      as (h1 & V1 & HI1 & t1 & E1).
    rewrite Etss in V1. pose proof E1 as (R1 & N1 & _ & _ & _ & Sv1 & _).
    exists h1, t1. split; [exact V1|]. split; [exact HI1|]. split.
    { apply (edited_weaken _ _ _ _ _ _ _ _ E1).
      - intros j Hj. rewrite ids_eq. right. apply Hsub_ids. exact Hj.
      - intros i Ei. inversion Ei; subst i. right. rewrite ids_eq. left. reflexivity. }
    (* the children list of n after the edits *)
    intros _.
    assert (Hne_t : forall c, In c (tgt h n) -> c <> n).
    { intros c Hc K. subst c. apply Hn_ts. unfold idsl. apply tids_incl. apply Hti. exact Hc. }
    destruct (edits_kids (dis h n) n (tgt h n) h h1 Hne_t V1) as [K1 K2].
    assert (Hn_t1 : In n (ids t1)).
    { apply Sv1; [eapply t_find_in; exact F | exact Hn_tss]. }
    destruct (t_find_ex _ _ Hn_t1) as [s1 F1].
    destruct (t_find_some _ _ _ F1) as [Etid1 _].
    destruct s1 as [n1 ts1]. simpl in Etid1. subst n1.
    destruct (t_find_repr _ _ _ _ _ R1 F1) as [q1 Hq1].
    pose proof (t_find_NoDup _ _ _ N1 F1) as Hnds1. rewrite ids_eq in Hnds1.
    (* the subtree below n has not grown: it only contains nodes that were below n *)
    assert (Hin1 : incl (ids (T n ts1)) (ids (T n ts))).
    { intros x Hx.
      destruct (ProofsWf.reach_iff_ids h1 q1 (T n ts1) Hq1 x) as [_ Hre]. specialize (Hre Hx).
      cbn [tid] in Hre.
      apply (reach_closed h1 (fun y => In y (ids (T n ts)))) with (a := n);
        [|exact Hre | rewrite ids_eq; left; reflexivity].
      intros b c Hb Hc0. destruct (N.eq_dec b n) as [Hbn|Hbn].
      - subst b. destruct (K2 c Hc0) as [A|(c' & Hc' & A)].
        + eapply child_in_ids; [exact Hq | rewrite ids_eq; left; reflexivity | exact A].
        + eapply child_in_ids; [exact Hq | | exact A].
          eapply child_in_ids; [exact Hq | rewrite ids_eq; left; reflexivity |].
          apply Htgt; assumption.
      - rewrite (K1 b Hbn) in Hc0. eapply child_in_ids; [exact Hq | exact Hb | exact Hc0]. }
    exists ts1, n. split; [exact (repr_kids _ _ _ _ Hq1)|]. split; [exact Hnds1|].
    split; [intros x Hx; apply Hin1; rewrite ids_eq; right; exact Hx|].
    split; [right; rewrite ids_eq; left; reflexivity|].
    split; [inversion Hnds1; assumption|].
    eapply children_facts; eassumption.
  Qed.

  (* on a proper tree the pass terminates with fuel = number of nodes,
     raises nothing, leaves a proper tree with the same root and the same visible words *)
  Theorem child_pass_ok : forall h r, I h -> WF h r ->
    exists h', child_pass tgt dis stop h r = Done h' /\ I h' /\ WF h' r /\ words h' r = words h r /\
               same_tc h h'.
  Proof. exact (root_visit_ok I (cvisit tgt dis stop) cvisit_ok_all). Qed.

  Theorem child_pass_safe : safe_pass I (child_pass tgt dis stop).
  Proof. apply returning_pass_safe. exact child_pass_ok. Qed.
End ChildPassOk.

(* "Paragraphs carry no words of their own" (the harness puts words on Text-like leaves) *)
Definition para_textless (h : heap) : Prop := forall n, clsof h n = c_Paragraph -> textof h n = [].

Lemma para_textless_closed : tc_closed para_textless.
Proof.
  intros h h' S Hi n Hc. destruct (S n) as [Et Ec]. rewrite Et. apply Hi. rewrite <- Ec. exact Hc.
Qed.

Lemma lp_tgt_spec : forall h n c, In c (lp_tgt h n) ->
  In c (kids h n) /\ clsof h c = c_Paragraph /\ lp_tgt h n = [c].
Proof.
  intros h n c H. unfold lp_tgt in *.
  destruct (is_cls c_Item h n || is_cls c_Reference h n); [|contradiction].
  destruct (kids h n) as [|c0 r]; [contradiction|].
  destruct (is_cls c_Paragraph h c0) eqn:E; [|contradiction].
  destruct H as [H|[]]. subst c0. split; [left; reflexivity|]. split; [|reflexivity].
  apply N.eqb_eq. exact E.
Qed.

(* remove_leading_para_in_list (treecleaner.py:1490-1499), for every heap in which Paragraphs have no own words *)
Theorem remove_leading_para_in_list_safe : safe_pass para_textless remove_leading_para_in_list.
Proof.
  unfold remove_leading_para_in_list. apply child_pass_safe.
  - exact para_textless_closed.
  - intros h n _ c Hc. destruct (lp_tgt_spec h n c Hc) as (A & _ & _). exact A.
  - intros h n _ _. destruct (lp_tgt h n) as [|c l] eqn:E; [constructor|].
    destruct (lp_tgt_spec h n c) as (_ & _ & E'); [rewrite E; left; reflexivity|].
    rewrite E in E'. inversion E'; subst. constructor; [intros []|constructor].
  - intros h n c Hi _ Hc. apply Hi. destruct (lp_tgt_spec h n c Hc) as (_ & B & _). exact B.
  - intros h n c _ K. discriminate.
Qed.

(* restrict_children (1153-1162) drops the children of a class that is not allowed below Gallery WITH their
   words (by design): it is safe exactly when those children are wordless *)
Section Restrict.
  Variable restricted : N -> bool.
  Variable allowed : N -> N -> bool.
  Variable I : heap -> Prop.
  Hypothesis I_closed : tc_closed I.
  Hypothesis dropped_wordless : forall h n c, I h -> restricted (clsof h n) = true -> In c (kids h n) ->
    allowed (clsof h n) (clsof h c) = false -> words h c = [].

  Theorem restrict_children_safe : safe_pass I (restrict_children restricted allowed).
  Proof.
    unfold restrict_children. apply child_pass_safe.
    - exact I_closed.
    - intros h n _ c Hc. unfold rc_tgt in Hc. destruct (restricted (clsof h n)); [|contradiction].
      apply filter_In in Hc. apply Hc.
    - intros h n _ Hnd. unfold rc_tgt. destruct (restricted (clsof h n)); [|constructor].
      apply NoDup_filter. exact Hnd.
    - intros h n c _ K. discriminate.
    - intros h n c Hi _ Hc. unfold rc_tgt in Hc. destruct (restricted (clsof h n)) eqn:R; [|contradiction].
      apply filter_In in Hc. destruct Hc as [Hc Ha]. apply negb_true_iff in Ha.
      eapply dropped_wordless; eassumption.
  Qed.
End Restrict.

Lemma take_while_incl : forall p l x, In x (take_while p l) -> In x l /\ p x = true.
Proof.
  intros p. induction l as [|a l IH]; intros x H; [contradiction|].
  simpl in H. destruct (p a) eqn:E; [|contradiction].
  destruct H as [H|H]; [subst a; split; [left; reflexivity | exact E]|].
  destruct (IH x H) as [A B]. split; [right; exact A | exact B].
Qed.

Lemma take_while_NoDup : forall p l, NoDup l -> NoDup (take_while p l).
Proof.
  intros p. induction l as [|a l IH]; intros H; [constructor|].
  simpl. apply NoDup_cons_iff in H. destruct H as [Ha Hl].
  destruct (p a); [|constructor]. constructor; [|apply IH; exact Hl].
  intro K. apply Ha. apply (take_while_incl p l a K).
Qed.

(* remove_empty_training_table_rows (1519-1526): safe when a trailing child of a Table all of whose children
   are childless has no words (true when tables contain rows, rows contain cells and rows/cells have no own
   words; NOT true for a trailing Caption whose children are Text leaves) *)
Section EmptyRows.
  Variable I : heap -> Prop.
  Hypothesis I_closed : tc_closed I.
  Hypothesis empty_row_wordless : forall h n c, I h -> clsof h n = c_Table -> In c (kids h n) ->
    empty_row h c = true -> words h c = [].

  Theorem remove_empty_trailing_rows_safe : safe_pass I remove_empty_trailing_rows.
  Proof.
    unfold remove_empty_trailing_rows. apply child_pass_safe.
    - exact I_closed.
    - intros h n _ c Hc. unfold er_tgt in Hc. destruct (is_cls c_Table h n); [|contradiction].
      apply take_while_incl in Hc. apply in_rev. apply Hc.
    - intros h n _ Hnd. unfold er_tgt. destruct (is_cls c_Table h n); [|constructor].
      apply take_while_NoDup. apply NoDup_rev. exact Hnd.
    - intros h n c _ K. discriminate.
    - intros h n c Hi _ Hc. unfold er_tgt in Hc. destruct (is_cls c_Table h n) eqn:E; [|contradiction].
      apply take_while_incl in Hc. destruct Hc as [Hc He].
      apply (empty_row_wordless h n c Hi); [apply N.eqb_eq; exact E | apply in_rev; exact Hc | exact He].
  Qed.
End EmptyRows.

(* remove_list_only_paragraphs (437-454) *)
Theorem remove_list_only_paragraphs_safe : safe_pass para_textless remove_list_only_paragraphs.
Proof.
  unfold remove_list_only_paragraphs. apply edit_pass_safe.
  - exact para_textless_closed.
  - intros h n Hi Ha. apply Hi. unfold lop_act in Ha.
    destruct (is_cls c_Paragraph h n) eqn:E; [apply N.eqb_eq; exact E | discriminate].
  - intros h n _ Ha. unfold lop_act in Ha.
    destruct (is_cls c_Paragraph h n && forallb (is_cls c_ItemList h) (kids h n)); discriminate.
Qed.

(* remove_textless_styles (1181-1200); assumption about the display text: a node whose display text is blank
   has no visible words (own or below) *)
Section Styles.
  Variable is_style : N -> bool.
  Variable blank : heap -> N -> bool.
  Variable I : heap -> Prop.
  Hypothesis I_closed : tc_closed I.
  Hypothesis blank_sound : forall h n, I h -> blank h n = true -> textof h n = [] /\ words h n = [].

  Theorem remove_textless_styles_safe : safe_pass I (remove_textless_styles is_style blank).
  Proof.
    unfold remove_textless_styles. apply edit_pass_safe.
    - exact I_closed.
    - intros h n Hi Ha. unfold ts_act in Ha.
      destruct (is_style (clsof h n)); [|discriminate]. destruct (blank h n) eqn:B; [|discriminate].
      apply (blank_sound h n Hi B).
    - intros h n Hi Ha. unfold ts_act in Ha.
      destruct (is_style (clsof h n)); [|discriminate]. destruct (blank h n) eqn:B; [|discriminate].
      apply (blank_sound h n Hi B).
  Qed.
End Styles.

(* remove_invisible_links (1202-1216) with sel = CategoryLink/LangLink without colon: safe when the harness does
   not count their target as visible words; remove_absolute_positioned_node, remove_empty_sections, the
   else-branch of remove_no_print_nodes, _filter_tree: safe only where the selected subtrees are wordless *)
Theorem remove_selected_safe : forall sel (I : heap -> Prop), tc_closed I ->
  (forall h n, I h -> sel h n = true -> words h n = []) ->
  safe_pass I (remove_selected sel).
Proof.
  intros sel I Hc Hs. unfold remove_selected, prune_pass. apply edit_pass_safe; [exact Hc | |].
  - intros h n _ Ha. destruct (sel h n); discriminate.
  - intros h n Hi Ha. apply Hs; [exact Hi|]. destruct (sel h n); [reflexivity|discriminate].
Qed.

(* clean_vlist, mark_infoboxes, mark_short_paragraph, fix_math_dir: no tree edit *)
Theorem attr_only_pass_safe : forall (I : heap -> Prop), tc_closed I -> safe_pass I attr_only_pass.
Proof.
  intros I Hc. unfold attr_only_pass. apply edit_pass_safe; [exact Hc | |]; intros; discriminate.
Qed.

Lemma keep_visit_id : forall ret f h q s, repr h q s -> tsize s <= f ->
  visit (fun _ _ => AKeep) ret f h (tid s) = Done h.
Proof.
  intros ret. induction f as [|f IH]; intros h q s Hr Hs.
  { pose proof (tsize_pos s). lia. }
  destruct s as [n ts]. cbn [tid]. pose proof (repr_kids _ _ _ _ Hr) as Hk.
  assert (L : vloop (visit (fun _ _ => AKeep) ret f) h (kids h n) = Done h).
  { rewrite Hk. rewrite tsize_eq in Hs. assert (Hf : fsize ts <= f) by lia.
    assert (Hall : forall x, In x ts -> repr h (Some n) x).
    { intros x Hx. eapply repr_child; eassumption. }
    clear Hk Hr Hs. induction ts as [|x r IHr]; [reflexivity|].
    rewrite fsize_cons in Hf. simpl. rewrite (IH h (Some n) x); [|apply Hall; left; reflexivity|lia].
    apply IHr; [lia | intros y Hy; apply Hall; right; exact Hy]. }
  simpl visit. destruct (par h n); exact L.
Qed.

Theorem attr_only_pass_id : forall h r, WF h r -> attr_only_pass h r = Done h.
Proof.
  intros h r (t & Ht & Hr & Hnd). subst r. unfold attr_only_pass, edit_pass, pass_fuel.
  rewrite (build_complete h None t Hr Hnd). eapply keep_visit_id; [exact Hr | apply le_n].
Qed.

(* Article[ ItemList[ Item[ Paragraph[Text 5, Text 6], Text 7 ] ] ]   (20 Article) *)
Definition hy : heap :=
  [(1, mkNode 20 None [2] []); (2, mkNode 6 (Some 1) [3] []); (3, mkNode 7 (Some 2) [4; 7] []);
   (4, mkNode 10 (Some 3) [5; 6] []); (5, mkNode 1 (Some 4) [] [5]); (6, mkNode 1 (Some 4) [] [6]);
   (7, mkNode 1 (Some 3) [] [7])]%N.

Lemma para_textless_hy : para_textless hy.
Proof.
  intros n Hc. unfold textof, clsof in *. simpl in *.
  repeat match goal with
         | |- context [N.eqb n ?k] => destruct (N.eqb n k) eqn:?; simpl in *
         end; try reflexivity; discriminate.
Qed.

Lemma leading_para_example :
  WF hy 1 /\ para_textless hy /\
  exists h', remove_leading_para_in_list hy 1 = Done h' /\ kids h' 3 = [5; 6; 7]%N /\
             wfb h' 1 = true /\ words h' 1 = [5; 6; 7]%N /\ words hy 1 = [5; 6; 7]%N.
Proof.
  split; [apply ProofsWf.wfb_spec; vm_compute; reflexivity|]. split; [exact para_textless_hy|].
  eexists. vm_compute. repeat split.
Qed.

(* Article[ Table[ Row[Cell[Text 5]], Row[Cell[]], Row[] ] ]: the two trailing empty rows go, last one first *)
Definition hz : heap :=
  [(1, mkNode 20 None [2] []); (2, mkNode 2 (Some 1) [3; 6; 8] []); (3, mkNode 3 (Some 2) [4] []);
   (4, mkNode 4 (Some 3) [5] []); (5, mkNode 1 (Some 4) [] [5]); (6, mkNode 3 (Some 2) [7] []);
   (7, mkNode 4 (Some 6) [] []); (8, mkNode 3 (Some 2) [] [])]%N.

Lemma empty_rows_example :
  WF hz 1 /\ er_tgt hz 2 = [8; 6]%N /\
  exists h', remove_empty_trailing_rows hz 1 = Done h' /\ kids h' 2 = [3]%N /\
             wfb h' 1 = true /\ words h' 1 = [5]%N /\ words hz 1 = [5]%N.
Proof.
  split; [apply ProofsWf.wfb_spec; vm_compute; reflexivity|]. split; [vm_compute; reflexivity|].
  eexists. vm_compute. repeat split.
Qed.

(* Article[ G[ I, BR, I[Text 9] ] ] with allowed_children = {G: [I]}; the class codes 30 for G and 31 for I
   stand in for Gallery and ImageLink (whose codes in C06/ModelNesting.v are 39 and 28): the BR is dropped,
   then `return`: nothing below G is visited *)
Definition hw : heap :=
  [(1, mkNode 20 None [2] []); (2, mkNode 30 (Some 1) [3; 4; 5] []); (3, mkNode 31 (Some 2) [] []);
   (4, mkNode 11 (Some 2) [] []); (5, mkNode 31 (Some 2) [6] []); (6, mkNode 1 (Some 5) [] [9])]%N.
Definition restricted_real (k : N) : bool := N.eqb k 30.
Definition allowed_real (k kc : N) : bool := N.eqb k 30 && N.eqb kc 31.

Lemma restrict_children_example :
  WF hw 1 /\
  exists h', restrict_children restricted_real allowed_real hw 1 = Done h' /\ kids h' 2 = [3; 5]%N /\
             wfb h' 1 = true /\ words h' 1 = [9]%N /\ words hw 1 = [9]%N.
Proof.
  split; [apply ProofsWf.wfb_spec; vm_compute; reflexivity|]. eexists. vm_compute. repeat split.
Qed.

(* one child-edit pass and two edit passes in one list, under one invariant *)
Lemma run_passes2_example_safe :
  Forall (safe_pass para_textless)
         [remove_list_only_paragraphs; remove_leading_para_in_list; attr_only_pass].
Proof.
  constructor; [exact remove_list_only_paragraphs_safe|].
  constructor; [exact remove_leading_para_in_list_safe|].
  constructor; [apply attr_only_pass_safe; exact para_textless_closed | constructor].
Qed.

Lemma run_passes2_example :
  exists h', run_passes [remove_list_only_paragraphs; remove_leading_para_in_list; attr_only_pass] hy 1
             = Done h' /\ kids h' 3 = [5; 6; 7]%N /\ wfb h' 1 = true /\ words h' 1 = words hy 1.
Proof. eexists. vm_compute. repeat split. Qed.
